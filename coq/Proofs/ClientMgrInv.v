(* Invariant of the async client's request manager (Model/ClientMgr.v), shared by C03, C12 and C18.
   `InvC` speaks of the core of a state only: the manager tables, the queued front-to-back messages (queue and blocked
   senders together, as a multiset), the id counter, the id kind and the history variable `unacked`; it is preserved by
   each table transformation.  `Inv` adds the channel table and the flags; `Ext` says what a transition can add to the
   ids in use (only ids at or above the counter).  Both are carried through the primitives and the table
   transformations; from there through settle by `settle_rel` (Section Compose) and through the frame handler by
   `handle_back_with_rel` (Section ComposeBack), each of which traverses its function once, for every relation
   between start state, outputs and end state that composes (the second for every dispatch); a step is `apply`
   followed by settle. *)
From JV Require Import Base.Bytes Base.Dec Base.Utf8 Json.Json Model.Wire Model.ClientDispatch Model.ClientMgr Proofs.DecFacts.
From JV Require Import Proofs.ClientDispatchFacts.
From Coq Require Import Permutation.
Local Open Scope N_scope.
#[local] Arguments N.add : simpl never.
#[local] Arguments N.sub : simpl never.
#[local] Arguments N.mul : simpl never.
#[local] Arguments N.ltb : simpl never.
#[local] Arguments N.leb : simpl never.
#[local] Arguments N.eqb : simpl never.

Lemma nodup_flat_map_filter {A B} (f : A -> list B) (p : A -> bool) l :
  NoDup (flat_map f l) -> NoDup (flat_map f (filter p l)).
Proof.
  induction l as [|a l IH]; cbn; intros H; auto.
  apply nodup_app in H as (H1 & H2 & H3). destruct (p a); cbn; auto.
  apply nodup_app. repeat split; auto.
  intros x Hx Hi. apply (H3 x Hx). eapply in_flat_map_filter; eauto.
Qed.

Section AL.
  Context {K V : Type} (eqb : K -> K -> bool).
  Hypothesis eqb_ok : forall a b, eqb a b = true <-> a = b.

  Lemma vals_aremove_nodup {W} (g : V -> W) k (l : list (K * V)) :
    NoDup (map (fun kv => g (snd kv)) l) -> NoDup (map (fun kv => g (snd kv)) (aremove eqb k l)).
  Proof. rewrite aremove_filter. apply nodup_map_filter. Qed.

  Lemma alookup_key_in k v (l : list (K * V)) : alookup eqb k l = Some v -> In k (map fst l).
  Proof. intros H. eapply in_key, (alookup_In eqb eqb_ok), H. Qed.

  Lemma ahas_true k (l : list (K * V)) : ahas eqb k l = true <-> In k (map fst l).
  Proof.
    unfold ahas. destruct (alookup eqb k l) eqn:E.
    - split; auto. intros _. eapply alookup_key_in, E.
    - apply (alookup_None eqb eqb_ok) in E. split; [discriminate | contradiction].
  Qed.

  Lemma length_aremove_in k (l : list (K * V)) :
    NoDup (map fst l) -> In k (map fst l) -> S (length (aremove eqb k l)) = length l.
  Proof.
    induction l as [|[k' v] l IH]; cbn; [tauto|]. intros Hn. apply NoDup_cons_iff in Hn as (Hn & Hd).
    intros [-> | Hi].
    - rewrite (eqb_rfl eqb eqb_ok). rewrite (aremove_notin eqb eqb_ok); auto.
    - rewrite (eqb_neq eqb eqb_ok) by (intros ->; contradiction). cbn. f_equal. auto.
  Qed.
End AL.

Definition mkid (b : bool) (n : N) : id := if b then IdStr (print_N n) else IdNum n.
Lemma mk_id_mkid s n : mk_id s n = mkid (id_str s) n.
Proof. reflexivity. Qed.

Definition id_n (i : id) : N := match i with IdNum n => n | IdStr s => digits_val s | IdNull => 0 end.
Lemma id_n_mkid b n : id_n (mkid b n) = n.
Proof. destruct b; cbn; auto. apply digits_val_print_N. Qed.
Lemma mkid_inj b n n' : mkid b n = mkid b n' -> n = n'.
Proof. intros H. apply (f_equal id_n) in H. rewrite !id_n_mkid in H. exact H. Qed.

Definition idlt (b : bool) (nx : N) (i : id) : Prop := exists n, n < nx /\ i = mkid b n.
Definition idge (b : bool) (nx : N) (i : id) : Prop := exists n, nx <= n /\ i = mkid b n.

Lemma idlt_mono b nx nx' i : nx <= nx' -> idlt b nx i -> idlt b nx' i.
Proof. intros H (n & Hn & ->). exists n; split; auto; lia. Qed.
Lemma idge_mono b nx nx' i : nx <= nx' -> idge b nx' i -> idge b nx i.
Proof. intros L (n & Hn & ->). exists n. split; auto; lia. Qed.
Lemma idlt_ge_False b nx i : idlt b nx i -> idge b nx i -> False.
Proof. intros (n & Hn & ->) (n' & Hn' & E). apply mkid_inj in E. lia. Qed.
Lemma idlt_id_n b nx i : idlt b nx i -> id_n i < nx.
Proof. intros (n & Hn & ->). rewrite id_n_mkid; auto. Qed.
Lemma idge_id_n b nx i : idge b nx i -> nx <= id_n i.
Proof. intros (n & Hn & ->). rewrite id_n_mkid; auto. Qed.
Lemma mk_id_between s lo hi n : lo <= n < hi -> idge (id_str s) lo (mk_id s n) /\ idlt (id_str s) hi (mk_id s n).
Proof. intros H. split; exists n; split; auto; lia. Qed.

Definition msg_ids (x : f2b) : list id :=
  match x with MRequest i _ _ => [i] | MSubscribe si ui _ _ _ => [si; ui] | _ => [] end.
Definition msg_ranges (x : f2b) : list (N * N) :=
  match x with MBatch lo hi _ _ => [(lo, hi)] | _ => [] end.
(* no front-end call queues a request without a waiter; a waiter-less call entry exists in the tables only as the
   partner of an entry that refers to it (tc_none), which a queued `MRequest _ None` would break on arrival *)
Definition msg_ok (x : f2b) : Prop := match x with MRequest _ None _ => False | _ => True end.
(* the other id a table entry refers to: the reserved unsubscribe id of a (pending) subscription,
   the kept subscribe id (tombstone) of a pending unsubscribe *)
Definition refs (k : kind) : option id :=
  match k with KCall _ => None | KPendSub u _ _ => Some u | KSub u _ _ => Some u | KUnsubP j => Some j end.

Definition qids (Q : list f2b) : list id := flat_map msg_ids Q.
Definition qrngs (Q : list f2b) : list (N * N) := flat_map msg_ranges Q.
Definition ids_of (R : list (id * kind)) (Q : list f2b) : list id := map fst R ++ qids Q.
Definition rngs_of (B : list ((N * N) * handle)) (Q : list f2b) : list (N * N) := map fst B ++ qrngs Q.
Definition rdisj (r1 r2 : N * N) : Prop := snd r1 <= fst r2 \/ snd r2 <= fst r1.
Definition off_rngs (rs : list (N * N)) (i : id) : Prop := forall r, In r rs -> id_n i < fst r \/ snd r <= id_n i.

(* id discipline: R = requests, B = batches, Q = queued messages (queue ++ waiting), nx = id counter *)
Record IdsC (R : list (id * kind)) (B : list ((N * N) * handle)) (Q : list f2b) (nx : N) (b : bool) : Prop := {
  ic_nd_ids : NoDup (ids_of R Q);
  ic_lt_ids : forall i, In i (ids_of R Q) -> idlt b nx i;
  ic_nd_rng : NoDup (rngs_of B Q);
  ic_rng_ok : forall r, In r (rngs_of B Q) -> fst r < snd r /\ snd r <= nx;
  ic_rng_disj : forall r1 r2, In r1 (rngs_of B Q) -> In r2 (rngs_of B Q) -> r1 = r2 \/ rdisj r1 r2;
  ic_id_rng : forall i, In i (ids_of R Q) -> off_rngs (rngs_of B Q) i;
  ic_qok : forall x, In x Q -> msg_ok x
}.

(* table shape: S = subs, ua = unacked.  tc_res: the id an entry refers to was allocated, is not queued, lies in no batch
   range, and is held, if at all, by a waiter-less call entry; tc_uniq: at most one entry refers to it; tc_none: every
   waiter-less call entry is referred to *)
Record TabC (R : list (id * kind)) (S : list (subid * id)) (B : list ((N * N) * handle)) (Q : list f2b)
            (nx : N) (b : bool) (ua : list id) : Prop := {
  tc_nd_subs : NoDup (map fst S);
  tc_nd_subv : NoDup (map snd S);
  tc_subs_a : forall sid i, In (sid, i) S -> exists u ch um, In (i, KSub u ch um) R;
  tc_subs_b : forall i u ch um, In (i, KSub u ch um) R -> exists sid, In (sid, i) S;
  tc_res : forall i k u, In (i, k) R -> refs k = Some u ->
             idlt b nx u /\ ~ In u (qids Q) /\ off_rngs (rngs_of B Q) u /\ (forall k', In (u, k') R -> k' = KCall None);
  tc_uniq : forall i1 k1 i2 k2 u, In (i1, k1) R -> In (i2, k2) R -> refs k1 = Some u -> refs k2 = Some u -> i1 = i2;
  tc_none : forall j, In (j, KCall None) R -> exists i k, In (i, k) R /\ refs k = Some j;
  tc_unsubp : forall u j, In (u, KUnsubP j) R -> In u ua;
  tc_unacked : forall u, In u ua -> exists j, In (u, KUnsubP j) R
}.

Definition InvC (M : mgr) (Q : list f2b) (nx : N) (b : bool) (ua : list id) : Prop :=
  IdsC (requests M) (batches M) Q nx b /\ TabC (requests M) (subs M) (batches M) Q nx b ua /\ NoDup (map fst (nhandlers M)).

Lemma IdsC_nd_keys R B Q nx b : IdsC R B Q nx b -> NoDup (map fst R).
Proof. intros H. apply (ic_nd_ids _ _ _ _ _) in H. apply nodup_app in H. tauto. Qed.
Lemma IdsC_nd_bkeys R B Q nx b : IdsC R B Q nx b -> NoDup (map fst B).
Proof. intros H. apply (ic_nd_rng _ _ _ _ _) in H. apply nodup_app in H. tauto. Qed.
Lemma IdsC_key_notq R B Q nx b i : IdsC R B Q nx b -> In i (map fst R) -> ~ In i (qids Q).
Proof. intros H. apply (ic_nd_ids _ _ _ _ _) in H. apply nodup_app in H. destruct H as (_ & _ & H). apply H. Qed.

Lemma InvC_empty nx b : InvC empty_mgr [] nx b [].
Proof.
  split; [|split]; [constructor | constructor |]; cbn; try constructor; intros; try contradiction; tauto.
Qed.

Ltac inv H := inversion H; subst; clear H.

Lemma ids_of_cons R x Q : Permutation (ids_of R (x :: Q)) (msg_ids x ++ ids_of R Q).
Proof. apply Permutation_app_swap_app. Qed.
Lemma rngs_of_cons B x Q : Permutation (rngs_of B (x :: Q)) (msg_ranges x ++ rngs_of B Q).
Proof. apply Permutation_app_swap_app. Qed.

Lemma IdsC_shrink R B Q nx b R' B' Q' :
  IdsC R B Q nx b ->
  NoDup (ids_of R' Q') -> (forall i, In i (ids_of R' Q') -> In i (ids_of R Q)) ->
  NoDup (rngs_of B' Q') -> (forall r, In r (rngs_of B' Q') -> In r (rngs_of B Q)) ->
  (forall x, In x Q' -> msg_ok x) ->
  IdsC R' B' Q' nx b.
Proof.
  intros [I_nd_ids I_lt_ids I_nd_rng I_rng_ok I_rng_disj I_id_rng I_qok] N1 I1 N2 I2 K. constructor; auto.
  intros i Hi r Hr. apply (I_id_rng i); auto.
Qed.

Lemma IdsC_permute R B Q nx b R' B' Q' :
  IdsC R B Q nx b -> Permutation (ids_of R' Q') (ids_of R Q) -> Permutation (rngs_of B' Q') (rngs_of B Q) ->
  (forall x, In x Q' -> msg_ok x) -> IdsC R' B' Q' nx b.
Proof.
  intros H PI PR K. apply (IdsC_shrink _ _ _ _ _ _ _ _ H); auto.
  - rewrite PI. apply H.
  - intros i. rewrite PI. auto.
  - rewrite PR. apply H.
  - intros r. rewrite PR. auto.
Qed.

Lemma IdsC_rekey R B Q nx b R' :
  IdsC R B Q nx b -> NoDup (map fst R') ->
  (forall i, In i (map fst R') -> In i (map fst R) \/ (idlt b nx i /\ ~ In i (qids Q) /\ off_rngs (rngs_of B Q) i)) ->
  IdsC R' B Q nx b.
Proof.
  intros H N1 I1. pose proof H as [I_nd_ids I_lt_ids I_nd_rng I_rng_ok I_rng_disj I_id_rng I_qok]. constructor; auto; unfold ids_of in *.
  - apply nodup_app. apply nodup_app in I_nd_ids as (a & c & d). repeat split; auto.
    intros x Hx. apply I1 in Hx as [Hx | (_ & Hx & _)]; auto.
  - intros i Hi. apply in_app_iff in Hi as [Hi | Hi].
    + apply I1 in Hi as [Hi | (Hi & _)]; auto. apply I_lt_ids. apply in_app_iff; auto.
    + apply I_lt_ids. apply in_app_iff; auto.
  - intros i Hi. apply in_app_iff in Hi as [Hi | Hi].
    + apply I1 in Hi as [Hi | (_ & _ & Hi)]; auto. apply I_id_rng. apply in_app_iff; auto.
    + apply I_id_rng. apply in_app_iff; auto.
Qed.

Lemma IdsC_subkeys R B Q nx b R' :
  IdsC R B Q nx b -> NoDup (map fst R') -> (forall j k, In (j, k) R' -> In (j, k) R) -> IdsC R' B Q nx b.
Proof.
  intros H N I. apply (IdsC_rekey _ _ _ _ _ _ H N). intros j Hj. left.
  apply in_map_iff in Hj as ([j' k] & <- & Hj). eapply in_key; eauto.
Qed.

Lemma IdsC_front R R' B B' x Q nx b : IdsC R B (x :: Q) nx b ->
  Permutation (map fst R') (msg_ids x ++ map fst R) -> Permutation (map fst B') (msg_ranges x ++ map fst B) ->
  IdsC R' B' Q nx b.
Proof.
  intros H PR PB. apply (IdsC_permute _ _ _ _ _ _ _ _ H).
  - unfold ids_of at 1. rewrite PR, ids_of_cons, <- app_assoc. reflexivity.
  - unfold rngs_of at 1. rewrite PB, rngs_of_cons, <- app_assoc. reflexivity.
  - intros y Hy. apply (ic_qok _ _ _ _ _ H). right; auto.
Qed.

Lemma qids_perm Q Q' : Permutation Q Q' -> Permutation (qids Q) (qids Q').
Proof. apply Permutation_flat_map. Qed.
Lemma qrngs_perm Q Q' : Permutation Q Q' -> Permutation (qrngs Q) (qrngs Q').
Proof. apply Permutation_flat_map. Qed.

Lemma TabC_q R S B B' Q Q' nx b ua :
  (forall i, In i (qids Q') -> In i (qids Q)) -> (forall r, In r (rngs_of B' Q') -> In r (rngs_of B Q)) ->
  TabC R S B Q nx b ua -> TabC R S B' Q' nx b ua.
Proof.
  intros I J [T_nd_subs T_nd_subv T_subs_a T_subs_b T_res T_uniq T_none T_unsubp T_unacked]. constructor; auto.
  intros i k u Hi Hu. destruct (T_res i k u Hi Hu) as (a & c & d & e). repeat split; auto.
  intros r Hr. apply d; auto.
Qed.

Lemma TabC_tail R S B x Q nx b ua : TabC R S B (x :: Q) nx b ua -> TabC R S B Q nx b ua.
Proof.
  apply TabC_q.
  - intros i Hi. apply in_app_iff. auto.
  - intros r Hr. rewrite rngs_of_cons. apply in_app_iff. auto.
Qed.

Lemma InvC_perm M Q Q' nx b ua : Permutation Q Q' -> InvC M Q nx b ua -> InvC M Q' nx b ua.
Proof.
  intros P (H1 & H2 & H3). split; [|split]; auto.
  - apply (IdsC_permute _ _ _ _ _ _ _ _ H1).
    + apply Permutation_app_head, qids_perm. symmetry; auto.
    + apply Permutation_app_head, qrngs_perm. symmetry; auto.
    + intros x Hx. apply (ic_qok _ _ _ _ _ H1). rewrite P. auto.
  - eapply TabC_q; [| |exact H2].
    + intros i. rewrite (qids_perm _ _ P). auto.
    + intros r. unfold rngs_of. rewrite (qrngs_perm _ _ P). auto.
Qed.

Lemma InvC_tail M x Q nx b ua : InvC M (x :: Q) nx b ua -> InvC M Q nx b ua.
Proof.
  intros (H1 & H2 & H3). split; [|split]; auto.
  - apply (IdsC_shrink _ _ _ _ _ _ _ _ H1).
    + pose proof (ic_nd_ids _ _ _ _ _ H1) as N. rewrite ids_of_cons in N. apply nodup_app in N. tauto.
    + intros i Hi. rewrite ids_of_cons. apply in_app_iff; auto.
    + pose proof (ic_nd_rng _ _ _ _ _ H1) as N. rewrite rngs_of_cons in N. apply nodup_app in N. tauto.
    + intros r Hr. rewrite rngs_of_cons. apply in_app_iff; auto.
    + intros y Hy. apply (ic_qok _ _ _ _ _ H1). right; auto.
  - eapply TabC_tail; eauto.
Qed.

Lemma InvC_filter M p Q2 : forall Q1 nx b ua, InvC M (Q1 ++ Q2) nx b ua -> InvC M (Q1 ++ filter p Q2) nx b ua.
Proof.
  induction Q2 as [|x Q2 IH]; intros Q1 nx b ua H; cbn; auto.
  destruct (p x).
  - replace (Q1 ++ x :: filter p Q2) with ((Q1 ++ [x]) ++ filter p Q2) by (rewrite <- app_assoc; reflexivity).
    apply IH. rewrite <- app_assoc. exact H.
  - apply IH. apply (InvC_tail M x). eapply InvC_perm; [|exact H]. symmetry. apply Permutation_middle.
Qed.

(* A message joins the queue while the counter moves from nx to nx'.  Its ids lie in [nx, nx'), so they are new and
   differ from every old id, which lies below nx; it carries at most one range, inside [nx, nx'], and then no ids. *)
Lemma InvC_enq M Q x nx nx' b ua : nx <= nx' -> msg_ok x ->
  NoDup (msg_ids x) -> (forall i, In i (msg_ids x) -> idge b nx i /\ idlt b nx' i) ->
  (forall r, In r (msg_ranges x) -> msg_ranges x = [r] /\ msg_ids x = [] /\ nx <= fst r /\ fst r < snd r /\ snd r <= nx') ->
  InvC M Q nx b ua -> InvC M (x :: Q) nx' b ua.
Proof.
  intros L K N1 F1 F2 ([I_nd_ids I_lt_ids I_nd_rng I_rng_ok I_rng_disj I_id_rng I_qok] &
                       [T_nd_subs T_nd_subv T_subs_a T_subs_b T_res T_uniq T_none T_unsubp T_unacked] & H3).
  assert (EI : forall i, In i (ids_of (requests M) (x :: Q)) <-> In i (msg_ids x) \/ In i (ids_of (requests M) Q)).
  { intros i. rewrite ids_of_cons. apply in_app_iff. }
  assert (ER : forall r, In r (rngs_of (batches M) (x :: Q)) <-> In r (msg_ranges x) \/ In r (rngs_of (batches M) Q)).
  { intros r. rewrite rngs_of_cons. apply in_app_iff. }
  assert (N2 : NoDup (msg_ranges x)).
  { destruct (msg_ranges x) as [|r l]; [constructor|]. destruct (F2 r) as (E & _); [left; auto|]. inv E.
    repeat constructor. intros []. }
  split; [|split]; auto.
  - constructor.
    + rewrite ids_of_cons. apply nodup_app. repeat split; auto.
      intros i Hi Ho. apply F1 in Hi as (Hi & _). apply I_lt_ids in Ho. eapply idlt_ge_False; eauto.
    + intros i Hi. apply EI in Hi as [Hi | Hi]; [apply F1; auto | eapply idlt_mono; eauto].
    + rewrite rngs_of_cons. apply nodup_app. repeat split; auto.
      intros r Hr Ho. apply F2 in Hr. apply I_rng_ok in Ho. lia.
    + intros r Hr. apply ER in Hr as [Hr | Hr]; [apply F2 in Hr | apply I_rng_ok in Hr]; lia.
    + intros r1 r2 Hr1 Hr2. apply ER in Hr1 as [Hr1 | Hr1]; apply ER in Hr2 as [Hr2 | Hr2]; auto.
      * left. apply F2 in Hr1 as (E & _). rewrite E in Hr2. destruct Hr2 as [Hr2 | []]. exact Hr2.
      * right; right. apply F2 in Hr1. apply I_rng_ok in Hr2. lia.
      * right; left. apply I_rng_ok in Hr1. apply F2 in Hr2. lia.
    + intros i Hi r Hr. apply EI in Hi as [Hi | Hi]; apply ER in Hr as [Hr | Hr].
      * apply F2 in Hr as (_ & E & _). rewrite E in Hi. contradiction.
      * right. apply F1 in Hi as (Hi & _). apply idge_id_n in Hi. apply I_rng_ok in Hr. lia.
      * left. apply I_lt_ids, idlt_id_n in Hi. apply F2 in Hr. lia.
      * apply (I_id_rng i); auto.
    + intros y [<- | Hy]; auto.
  - constructor; auto.
    intros i k u Hi Hu. destruct (T_res i k u Hi Hu) as (a & c & d & e). repeat split; auto.
    + eapply idlt_mono; eauto.
    + intros Hx. apply in_app_iff in Hx as [Hx | Hx]; auto. apply F1 in Hx as (Hx & _). eapply idlt_ge_False; eauto.
    + intros r Hr. apply ER in Hr as [Hr | Hr]; auto. left. apply idlt_id_n in a. apply F2 in Hr. lia.
Qed.

Lemma InvC_front_req M Q nx b ua i w raw : InvC M (MRequest i w raw :: Q) nx b ua ->
  ~ In i (map fst (requests M)) /\ InvC (set_requests M ((i, KCall w) :: requests M)) Q nx b ua.
Proof.
  intros (H1 & H2 & H3).
  assert (I1 : IdsC ((i, KCall w) :: requests M) (batches M) Q nx b).
  { apply (IdsC_front _ _ _ _ _ _ _ _ H1); apply Permutation_refl. }
  split. { apply IdsC_nd_keys, NoDup_cons_iff in I1. tauto. }
  split; [|split]; auto; cbn [requests set_requests subs batches].
  assert (W : w <> None).
  { pose proof (ic_qok _ _ _ _ _ H1 _ (or_introl eq_refl)) as K. cbn in K. destruct w; auto; discriminate. }
  (* referred ids are not in the queue *)
  assert (NR : forall j k, In (j, k) (requests M) -> refs k <> Some i).
  { intros j k Hj Hu. destruct (tc_res _ _ _ _ _ _ _ H2 j k i Hj Hu) as (_ & c & _). apply c. left; auto. }
  apply TabC_tail in H2 as [T_nd_subs T_nd_subv T_subs_a T_subs_b T_res T_uniq T_none T_unsubp T_unacked]. constructor; auto.
  - intros sid j Hs. destruct (T_subs_a sid j Hs) as (u & ch & um & Hu). exists u, ch, um. right; auto.
  - intros j u ch um [E | Hj]; [inv E|]. eauto.
  - intros j k u [E | Hj] Hu; [inv E; discriminate|].
    destruct (T_res j k u Hj Hu) as (a & c & d & e). repeat split; auto.
    intros k' [E | Hk]; [inv E|]; auto. exfalso. eapply NR; eauto.
  - intros i1 k1 i2 k2 u [E1 | J1] [E2 | J2] R1 R2; try (inv E1; discriminate); try (inv E2; discriminate). eauto.
  - intros j [E | Hj]; [inv E; congruence|]. destruct (T_none j Hj) as (i2 & k2 & Hi2 & Hr). exists i2, k2. split; auto. right; auto.
  - intros u j [E | Hj]; [inv E|]. eauto.
  - intros u Hu. destruct (T_unacked u Hu) as (j & Hj). exists j. right; auto.
Qed.

(* Two fresh entries come as a pair: (a, k) refers to c, and c is held by a waiter-less call entry.  This is how a pending
   subscription reserves its unsubscribe id, and how an unsubscribe call keeps the subscribe id as a tombstone. *)
Lemma TabC_add_pair R S B Q nx b ua a k c R' ua' :
  TabC R S B Q nx b ua ->
  refs k = Some c -> a <> c -> (forall u ch um, k <> KSub u ch um) ->
  (forall k', ~ In (c, k') R) ->
  (forall j k', In (j, k') R -> refs k' <> Some a /\ refs k' <> Some c) ->
  idlt b nx c -> ~ In c (qids Q) -> off_rngs (rngs_of B Q) c ->
  (forall j k', In (j, k') R' <-> (j = a /\ k' = k) \/ (j = c /\ k' = KCall None) \/ In (j, k') R) ->
  (forall x, In x ua' <-> (x = a /\ exists j, k = KUnsubP j) \/ In x ua) ->
  TabC R' S B Q nx b ua'.
Proof.
  intros [T_nd_subs T_nd_subv T_subs_a T_subs_b T_res T_uniq T_none T_unsubp T_unacked] Rk D NS Fc NR LT NQ OR CR CU. constructor; auto.
  - intros sid j Hs. destruct (T_subs_a sid j Hs) as (u & ch & um & Hu). exists u, ch, um. apply CR; auto.
  - intros j u ch um Hj. apply CR in Hj as [(_ & E) | [(_ & E) | Hj]]; [symmetry in E; destruct (NS _ _ _ E) | discriminate | eauto].
  - intros j k' u Hj Hu. apply CR in Hj as [(-> & ->) | [(-> & ->) | Hj]]; [|discriminate|].
    + assert (u = c) by congruence. subst u. repeat split; auto.
      intros k' Hk. apply CR in Hk as [(E & _) | [(_ & E) | Hk]]; [congruence | auto | destruct (Fc _ Hk)].
    + destruct (T_res j k' u Hj Hu) as (x & y & z & e). destruct (NR j k' Hj) as (n1 & n2). repeat split; auto.
      intros k'' Hk. apply CR in Hk as [(E & _) | [(_ & E) | Hk]]; [congruence | auto | auto].
  - intros i1 k1 i2 k2 u I1 I2 R1 R2.
    apply CR in I1 as [(-> & ->) | [(-> & ->) | I1]]; [|discriminate|];
      apply CR in I2 as [(-> & ->) | [(-> & ->) | I2]]; try discriminate; auto.
    + destruct (NR i2 k2 I2). congruence.
    + destruct (NR i1 k1 I1). congruence.
    + eauto.
  - intros j Hj. apply CR in Hj as [(_ & E) | [(-> & _) | Hj]].
    + rewrite <- E in Rk. discriminate.
    + exists a, k. split; auto. apply CR; auto.
    + destruct (T_none j Hj) as (i2 & k2 & Hi2 & Hr). exists i2, k2. split; auto. apply CR; auto.
  - intros x j Hj. apply CU. apply CR in Hj as [(-> & <-) | [(_ & E) | Hj]]; [left; eauto | discriminate | right; eauto].
  - intros x Hx. apply CU in Hx as [(-> & j & ->) | Hx].
    + exists j. apply CR; auto.
    + destruct (T_unacked x Hx) as (j & Hj). exists j. apply CR; auto.
Qed.

Lemma InvC_front_sub M Q nx b ua si ui um h raw : InvC M (MSubscribe si ui um h raw :: Q) nx b ua ->
  ~ In si (map fst (requests M)) /\ ~ In ui (map fst (requests M)) /\ si <> ui /\
  InvC (set_requests M ((ui, KCall None) :: (si, KPendSub ui h um) :: requests M)) Q nx b ua.
Proof.
  intros (H1 & H2 & H3).
  assert (I1 : IdsC ((ui, KCall None) :: (si, KPendSub ui h um) :: requests M) (batches M) Q nx b).
  { apply (IdsC_front _ _ _ _ _ _ _ _ H1); [apply perm_swap | apply Permutation_refl]. }
  pose proof (ic_nd_ids _ _ _ _ _ I1) as N. cbn [ids_of map fst app] in N.
  apply NoDup_cons_iff in N as (N1 & N2). apply NoDup_cons_iff in N2 as (N3 & _).
  cbn [In] in N1. rewrite in_app_iff in N1, N3.
  assert (D : si <> ui) by (intros ->; tauto).
  split; [tauto|]. split; [tauto|]. split; [exact D|].
  split; [|split]; auto; cbn [requests set_requests subs batches].
  assert (K : In ui (ids_of (requests M) (MSubscribe si ui um h raw :: Q))).
  { rewrite ids_of_cons. right; left; auto. }
  apply (TabC_add_pair _ _ _ _ _ _ _ si (KPendSub ui h um) ui _ _ (TabC_tail _ _ _ _ _ _ _ _ H2) eq_refl D).
  - discriminate.
  - intros k' Hk. apply (in_key _ _ _) in Hk. tauto.
  - (* both ids are in the queued message, so no entry refers to them *)
    intros j k Hj. split; intros Hu; destruct (tc_res _ _ _ _ _ _ _ H2 j k _ Hj Hu) as (_ & c & _); apply c; cbn; auto.
  - apply (ic_lt_ids _ _ _ _ _ H1 _ K).
  - clear - N1. tauto.
  - apply (ic_id_rng _ _ _ _ _ H1 _ K).
  - intros j k'. cbn [In]. split.
    + intros [E | [E | Hj]]; [inv E | inv E |]; auto.
    + intros [(-> & ->) | [(-> & ->) | Hj]]; auto.
  - intros x. split; auto. intros [(_ & j & E) | Hx]; [discriminate | auto].
Qed.

Lemma InvC_front_batch M Q nx b ua lo hi h raw : InvC M (MBatch lo hi h raw :: Q) nx b ua ->
  ~ In (lo, hi) (map fst (batches M)) /\ InvC (set_batches M (((lo, hi), h) :: batches M)) Q nx b ua.
Proof.
  intros (H1 & H2 & H3).
  assert (I1 : IdsC (requests M) (((lo, hi), h) :: batches M) Q nx b).
  { apply (IdsC_front _ _ _ _ _ _ _ _ H1); apply Permutation_refl. }
  split. { apply IdsC_nd_bkeys, NoDup_cons_iff in I1. tauto. }
  split; [|split]; auto; cbn [requests set_batches subs batches].
  eapply TabC_q; [| |exact H2]; auto.
  intros r Hr. rewrite rngs_of_cons. exact Hr.
Qed.

Lemma TabC_rm R S B Q nx b ua (P : id -> Prop) R' S' ua' :
  TabC R S B Q nx b ua ->
  (forall j k, In (j, k) R' <-> In (j, k) R /\ P j) ->
  (forall sid j, In (sid, j) S' <-> In (sid, j) S /\ P j) -> NoDup (map fst S') -> NoDup (map snd S') ->
  (forall x, In x ua' <-> In x ua /\ P x) ->
  (* a waiter-less call entry that stays keeps the entry that refers to it *)
  (forall i k j, In (i, k) R -> refs k = Some j -> P j -> P i) ->
  TabC R' S' B Q nx b ua'.
Proof.
  intros [T_nd_subs T_nd_subv T_subs_a T_subs_b T_res T_uniq T_none T_unsubp T_unacked] CR CS N1 N2 CU CL. constructor; auto.
  - intros sid j Hs. apply CS in Hs as (Hs & Pj). destruct (T_subs_a sid j Hs) as (u & ch & um & Hu). exists u, ch, um. apply CR; auto.
  - intros j u ch um Hj. apply CR in Hj as (Hj & Pj). destruct (T_subs_b _ _ _ _ Hj) as (sid & Hs). exists sid. apply CS; auto.
  - intros j k u Hj Hu. apply CR in Hj as (Hj & _). destruct (T_res j k u Hj Hu) as (a & c & d & e). repeat split; auto.
    intros k' Hk. apply CR in Hk as (Hk & _). auto.
  - intros i1 k1 i2 k2 u I1 I2. apply CR in I1 as (I1 & _). apply CR in I2 as (I2 & _). eauto.
  - intros j Hj. apply CR in Hj as (Hj & Pj). destruct (T_none j Hj) as (i2 & k2 & Hi2 & Hr). exists i2, k2. split; auto.
    apply CR. split; auto. eapply CL; eauto.
  - intros x j Hj. apply CR in Hj as (Hj & Px). apply CU. split; eauto.
  - intros x Hx. apply CU in Hx as (Hx & Px). destruct (T_unacked x Hx) as (j & Hj). exists j. apply CR; auto.
Qed.

Lemma unacked_filter i ua x : In x (filter (fun u => negb (id_eqb i u)) ua) <-> In x ua /\ x <> i.
Proof.
  rewrite filter_In. split; intros (Hx & Hn); split; auto.
  - intros ->. rewrite (eqb_rfl id_eqb id_eqb_ok) in Hn. discriminate.
  - rewrite (eqb_neq id_eqb id_eqb_ok); auto.
Qed.

Lemma not_sub R S B Q nx b ua i k : TabC R S B Q nx b ua -> NoDup (map fst R) -> In (i, k) R ->
  (forall u ch um, k <> KSub u ch um) -> forall sid j, In (sid, j) S <-> In (sid, j) S /\ j <> i.
Proof.
  intros T ND Hi Hk sid j. split; [|tauto]. intros Hs. split; auto. intros ->.
  destruct (tc_subs_a _ _ _ _ _ _ _ T _ _ Hs) as (u & ch & um & Hu).
  apply (Hk u ch um). exact (nodup_keys_fun _ _ _ _ ND Hi Hu).
Qed.

Lemma not_unacked R S B Q nx b ua i k : TabC R S B Q nx b ua -> NoDup (map fst R) -> In (i, k) R ->
  (forall j, k <> KUnsubP j) -> forall x, In x ua <-> In x ua /\ x <> i.
Proof.
  intros T ND Hi Hk x. split; [|tauto]. intros Hx. split; auto. intros ->.
  destruct (tc_unacked _ _ _ _ _ _ _ T i Hx) as (j & Hj).
  apply (Hk j). exact (nodup_keys_fun _ _ _ _ ND Hi Hj).
Qed.

Lemma InvC_resp_call M Q nx b ua i w : InvC M Q nx b ua -> In (i, KCall w) (requests M) ->
  InvC (set_requests M (aremove id_eqb i (requests M))) Q nx b (filter (fun u => negb (id_eqb i u)) ua).
Proof.
  intros (H1 & H2 & H3) Hi. pose proof (IdsC_nd_keys _ _ _ _ _ H1) as ND.
  assert (U : forall k, In (i, k) (requests M) -> k = KCall w).
  { intros k Hk. exact (nodup_keys_fun _ _ _ _ ND Hk Hi). }
  split; [|split]; auto; cbn [requests set_requests subs batches].
  - apply (IdsC_subkeys _ _ _ _ _ _ H1).
    + apply keys_aremove_nodup; auto.
    + intros j k Hj. apply (In_aremove id_eqb id_eqb_ok) in Hj. tauto.
  - apply (TabC_rm _ _ _ _ _ _ _ (fun j => j <> i) _ _ _ H2).
    + intros j k. apply (In_aremove id_eqb id_eqb_ok).
    + eapply not_sub; eauto. discriminate.
    + apply H2.
    + apply H2.
    + apply unacked_filter.
    + intros i2 k2 j Hi2 Hr _ ->. apply U in Hi2. subst k2. discriminate.
Qed.

Lemma TabC_rm_ref R S B Q nx b ua i k0 u R' S' ua' :
  TabC R S B Q nx b ua -> NoDup (map fst R) -> In (i, k0) R -> refs k0 = Some u ->
  (forall j k, In (j, k) R' <-> In (j, k) R /\ j <> i /\ j <> u) ->
  (forall sid j, In (sid, j) S' <-> In (sid, j) S /\ j <> i) -> NoDup (map fst S') -> NoDup (map snd S') ->
  (forall x, In x ua' <-> In x ua /\ x <> i) ->
  TabC R' S' B Q nx b ua'.
Proof.
  intros T ND Hi Hr CR CS N1 N2 CU.
  (* u is held by a waiter-less call entry or by none: no subscription, no pending unsubscribe, no reference *)
  destruct (tc_res _ _ _ _ _ _ _ T i k0 u Hi Hr) as (_ & _ & _ & UK).
  apply (TabC_rm _ _ _ _ _ _ _ (fun j => j <> i /\ j <> u) _ _ _ T); auto.
  - intros sid j. rewrite CS. split; [|tauto]. intros (Hs & Hn). repeat split; auto. intros ->.
    destruct (tc_subs_a _ _ _ _ _ _ _ T _ _ Hs) as (u' & ch & um & Hu). apply UK in Hu. discriminate.
  - intros x. rewrite CU. split; [|tauto]. intros (Hx & Hn). repeat split; auto. intros ->.
    destruct (tc_unacked _ _ _ _ _ _ _ T _ Hx) as (j & Hj). apply UK in Hj. discriminate.
  - intros i2 k2 j Hi2 Hr2 (_ & Hn). split; intros ->.
    + rewrite (nodup_keys_fun _ _ _ _ ND Hi2 Hi) in Hr2. congruence.
    + apply UK in Hi2. subst k2. discriminate.
Qed.

Lemma release_rm M M1 i u : requests M1 = aremove id_eqb i (requests M) -> NoDup (map fst (requests M)) ->
  (forall k, In (u, k) (requests M) -> k = KCall None) ->
  NoDup (map fst (requests (release_reserved u M1))) /\
  forall j k, In (j, k) (requests (release_reserved u M1)) <-> In (j, k) (requests M) /\ j <> i /\ j <> u.
Proof.
  intros E ND UK. unfold release_reserved, req_lookup. rewrite E.
  pose proof (keys_aremove_nodup id_eqb i _ ND) as N1.
  destruct (alookup id_eqb u (aremove id_eqb i (requests M))) as [[[w|]| | |]|] eqn:A;
    try (apply (alookup_In id_eqb id_eqb_ok), (In_aremove id_eqb id_eqb_ok) in A as (A & _); apply UK in A; discriminate).
  - cbn [requests set_requests]. split; [apply keys_aremove_nodup; auto|].
    intros j k. rewrite !(In_aremove id_eqb id_eqb_ok). tauto.
  - rewrite E. split; auto. intros j k. rewrite (In_aremove id_eqb id_eqb_ok). split; [|tauto].
    intros (Hj & Hn). repeat split; auto. intros ->.
    apply (alookup_None id_eqb id_eqb_ok) in A. apply A. apply (keys_aremove id_eqb id_eqb_ok). split; auto. eapply in_key; eauto.
Qed.

Lemma InvC_rm_ref M M1 Q nx b ua ua' i k0 u :
  InvC M Q nx b ua -> In (i, k0) (requests M) -> refs k0 = Some u ->
  requests M1 = aremove id_eqb i (requests M) -> batches M1 = batches M -> nhandlers M1 = nhandlers M ->
  (forall sid j, In (sid, j) (subs M1) <-> In (sid, j) (subs M) /\ j <> i) ->
  NoDup (map fst (subs M1)) -> NoDup (map snd (subs M1)) ->
  (forall x, In x ua' <-> In x ua /\ x <> i) ->
  InvC (release_reserved u M1) Q nx b ua'.
Proof.
  intros (H1 & H2 & H3) Hi Hr ER EB EN CS N1 N2 CU. pose proof (IdsC_nd_keys _ _ _ _ _ H1) as ND.
  destruct (tc_res _ _ _ _ _ _ _ H2 _ _ _ Hi Hr) as (_ & _ & _ & UK).
  destruct (release_frame u M1) as (E1 & E2 & E3). destruct (release_rm M M1 i u ER ND UK) as (N' & CR).
  split; [|split]; rewrite ?E1, ?E2, ?E3, ?EB, ?EN; auto.
  - apply (IdsC_subkeys _ _ _ _ _ _ H1 N'). intros j k Hj. apply CR in Hj. tauto.
  - exact (TabC_rm_ref _ _ _ _ _ _ _ _ _ _ _ _ _ H2 ND Hi Hr CR CS N1 N2 CU).
Qed.

(* a refused / malformed / duplicate subscribe answer *)
Lemma InvC_resp_pend_err M Q nx b ua i u w um : InvC M Q nx b ua -> In (i, KPendSub u w um) (requests M) ->
  InvC (release_reserved u (set_requests M (aremove id_eqb i (requests M)))) Q nx b ua.
Proof.
  intros C Hi. pose proof C as (H1 & H2 & _). pose proof (IdsC_nd_keys _ _ _ _ _ H1) as ND.
  apply (InvC_rm_ref M _ _ _ _ _ _ i (KPendSub u w um) u C Hi); auto; try apply H2.
  - eapply not_sub; eauto. discriminate.
  - eapply not_unacked; eauto. discriminate.
Qed.

(* the unsubscribe acknowledgement *)
Lemma InvC_resp_unsubp M Q nx b ua i sub : InvC M Q nx b ua -> In (i, KUnsubP sub) (requests M) ->
  InvC (release_reserved sub (set_requests M (aremove id_eqb i (requests M)))) Q nx b (filter (fun u => negb (id_eqb i u)) ua).
Proof.
  intros C Hi. pose proof C as (H1 & H2 & _). pose proof (IdsC_nd_keys _ _ _ _ _ H1) as ND.
  apply (InvC_rm_ref M _ _ _ _ _ _ i (KUnsubP sub) sub C Hi); auto; try apply H2.
  - eapply not_sub; eauto. discriminate.
  - apply unacked_filter.
Qed.

Lemma subs_aremove (S : list (subid * id)) sid rid : NoDup (map fst S) -> NoDup (map snd S) -> In (sid, rid) S ->
  (forall sid' j, In (sid', j) (aremove subid_eqb sid S) <-> In (sid', j) S /\ j <> rid) /\
  NoDup (map fst (aremove subid_eqb sid S)) /\ NoDup (map snd (aremove subid_eqb sid S)).
Proof.
  intros N1 N2 Hs. split; [|split].
  - intros sid' j. rewrite (In_aremove subid_eqb subid_eqb_ok). split; intros (H & Hn); split; auto.
    + intros ->. apply Hn. eapply nodup_vals_fun; eauto.
    + intros ->. apply Hn. exact (nodup_keys_fun _ _ _ _ N1 H Hs).
  - apply keys_aremove_nodup; auto.
  - rewrite (aremove_filter subid_eqb). apply nodup_map_filter; auto.
Qed.

(* a server close notification *)
Lemma InvC_close M Q nx b ua sid rid u ch um : InvC M Q nx b ua ->
  In (sid, rid) (subs M) -> In (rid, KSub u ch um) (requests M) ->
  InvC (release_reserved u (set_subs (set_requests M (aremove id_eqb rid (requests M))) (aremove subid_eqb sid (subs M)))) Q nx b ua.
Proof.
  intros C Hs Hi. pose proof C as (H1 & H2 & _). pose proof (IdsC_nd_keys _ _ _ _ _ H1) as ND.
  destruct (subs_aremove (subs M) sid rid) as (CS & N1 & N2); auto; try apply H2.
  apply (InvC_rm_ref M _ _ _ _ _ _ rid (KSub u ch um) u C Hi); auto.
  eapply not_unacked; eauto. discriminate.
Qed.

(* an accepted subscribe answer *)
Lemma InvC_resp_pend_ok M Q nx b ua i u w um sid : InvC M Q nx b ua -> In (i, KPendSub u w um) (requests M) ->
  ~ In sid (map fst (subs M)) ->
  InvC (set_subs (set_requests M ((i, KSub u w um) :: aremove id_eqb i (requests M))) ((sid, i) :: subs M)) Q nx b ua.
Proof.
  intros (H1 & H2 & H3) Hi Hsid. pose proof (IdsC_nd_keys _ _ _ _ _ H1) as ND.
  assert (U : forall k, In (i, k) (requests M) -> k = KPendSub u w um).
  { intros k Hk. exact (nodup_keys_fun _ _ _ _ ND Hk Hi). }
  split; [|split]; auto; cbn [requests set_requests set_subs subs batches].
  - eapply IdsC_rekey; eauto; cbn [map fst].
    + constructor.
      * intros Hx. apply (keys_aremove id_eqb id_eqb_ok) in Hx. tauto.
      * apply keys_aremove_nodup; auto.
    + intros j [<- | Hj]; left.
      * eapply in_key; eauto.
      * apply (keys_aremove id_eqb id_eqb_ok) in Hj. tauto.
  - destruct H2 as [T_nd_subs T_nd_subv T_subs_a T_subs_b T_res T_uniq T_none T_unsubp T_unacked].
    destruct (T_res _ _ _ Hi eq_refl) as (a0 & c0 & d0 & e0).
    assert (PRE : forall j k, In (j, k) ((i, KSub u w um) :: aremove id_eqb i (requests M)) ->
                   exists k0, In (j, k0) (requests M) /\ refs k0 = refs k /\ (k = k0 \/ (j = i /\ k = KSub u w um))).
    { intros j k [E | Hj]; [inv E|].
      - exists (KPendSub u w um). auto.
      - apply (In_aremove id_eqb id_eqb_ok) in Hj as (Hj & _). exists k. auto. }
    constructor; auto.
    + cbn [map fst]. constructor; auto.
    + cbn [map snd]. constructor; auto. intros Hx. apply in_map_iff in Hx as ([sid' j] & E & Hs). cbn in E. subst j.
      destruct (T_subs_a _ _ Hs) as (u' & ch & um' & Hu). apply U in Hu. discriminate.
    + intros sid' j [E | Hs]; [inv E|].
      * exists u, w, um. left; auto.
      * destruct (T_subs_a _ _ Hs) as (u' & ch & um' & Hu). exists u', ch, um'. right.
        apply (In_aremove id_eqb id_eqb_ok). split; auto. intros ->. apply U in Hu. discriminate.
    + intros j u' ch um' [E | Hj]; [inv E|].
      * exists sid. left; auto.
      * apply (In_aremove id_eqb id_eqb_ok) in Hj as (Hj & _). destruct (T_subs_b _ _ _ _ Hj) as (sid' & Hs). exists sid'. right; auto.
    + intros j k u' Hj Hu. destruct (PRE j k Hj) as (k0 & Hk0 & Hr & _). rewrite <- Hr in Hu.
      destruct (T_res j k0 u' Hk0 Hu) as (a & c & d & e). repeat split; auto.
      intros k' [E | Hk]; [inv E|].
      * apply e in Hi. discriminate.
      * apply (In_aremove id_eqb id_eqb_ok) in Hk as (Hk & _). auto.
    + intros i1 k1 i2 k2 u' I1 I2 R1 R2.
      destruct (PRE _ _ I1) as (k1' & J1 & E1 & _). destruct (PRE _ _ I2) as (k2' & J2 & E2 & _).
      rewrite <- E1 in R1. rewrite <- E2 in R2. eauto.
    + intros j [E | Hj]; [inv E|]. apply (In_aremove id_eqb id_eqb_ok) in Hj as (Hj & Hn).
      destruct (T_none j Hj) as (i2 & k2 & Hi2 & Hr).
      destruct (id_eqb i2 i) eqn:E.
      * apply id_eqb_ok in E. subst i2. apply U in Hi2. subst k2. cbn in Hr. inv Hr.
        exists i, (KSub j w um). split; auto. left; auto.
      * exists i2, k2. split; auto. right. apply (In_aremove id_eqb id_eqb_ok). split; auto.
        intros ->. rewrite (eqb_rfl id_eqb id_eqb_ok) in E. discriminate.
    + intros x j [E | Hj]; [inv E|]. apply (In_aremove id_eqb id_eqb_ok) in Hj as (Hj & _). eauto.
    + intros x Hx. destruct (T_unacked x Hx) as (j & Hj). exists j. right.
      apply (In_aremove id_eqb id_eqb_ok). split; auto. intros ->. apply U in Hj. discriminate.
Qed.

(* the send task unsubscribes: the subscription entry becomes a tombstone, the reserved id a pending unsubscribe.
   For the table shape this is a close (subscription and reserved id go) followed by the arrival of the fresh pair
   (u, KUnsubP rid), (rid, KCall None). *)
Lemma InvC_unsub M Q nx b ua sid rid u ch um : InvC M Q nx b ua ->
  In (sid, rid) (subs M) -> In (rid, KSub u ch um) (requests M) ->
  InvC (set_subs (set_requests M (aset id_eqb u (KUnsubP rid) (aset id_eqb rid (KCall None) (requests M))))
                 (aremove subid_eqb sid (subs M))) Q nx b (u :: ua).
Proof.
  intros (H1 & H2 & H3) Hs Hi. pose proof (IdsC_nd_keys _ _ _ _ _ H1) as ND.
  destruct (tc_res _ _ _ _ _ _ _ H2 _ _ _ Hi eq_refl) as (a0 & c0 & d0 & UK).
  assert (D : u <> rid). { intros ->. apply UK in Hi. discriminate. }
  set (R1 := aremove id_eqb u (aremove id_eqb rid (requests M))).
  assert (CR1 : forall j k, In (j, k) R1 <-> In (j, k) (requests M) /\ j <> rid /\ j <> u).
  { intros j k. unfold R1. rewrite !(In_aremove id_eqb id_eqb_ok). tauto. }
  set (R' := aset id_eqb u (KUnsubP rid) (aset id_eqb rid (KCall None) (requests M))).
  assert (CR : forall j k, In (j, k) R' <-> (j = u /\ k = KUnsubP rid) \/ (j = rid /\ k = KCall None) \/ In (j, k) R1).
  { intros j k. unfold R'. rewrite CR1, !(In_aset id_eqb id_eqb_ok). clear - D. split.
    - intros [X | ([X | X] & Y)]; tauto.
    - intros [X | [(-> & ->) | X]]; [tauto | | tauto]. right. split; auto. }
  assert (K : In rid (ids_of (requests M) Q)) by (apply in_app_iff; left; eapply in_key; eauto).
  split; [|split]; auto; cbn [requests set_requests set_subs subs batches]; fold R'.
  - apply (IdsC_rekey _ _ _ _ _ _ H1).
    + unfold R'. repeat apply aset_keys_nodup; auto; exact id_eqb_ok.
    + intros j Hj. apply in_map_iff in Hj as ([j' k] & <- & Hj). cbn [fst].
      apply CR in Hj as [(-> & _) | [(-> & _) | Hj]].
      * right. auto.
      * left. eapply in_key; eauto.
      * left. apply CR1 in Hj as (Hj & _). eapply in_key; eauto.
  - destruct (subs_aremove (subs M) sid rid) as (CS & N1 & N2); auto; try apply H2.
    assert (T1 : TabC R1 (aremove subid_eqb sid (subs M)) (batches M) Q nx b ua).
    { apply (TabC_rm_ref _ _ _ _ _ _ _ _ _ _ _ _ _ H2 ND Hi eq_refl CR1 CS N1 N2). eapply not_unacked; eauto. discriminate. }
    apply (TabC_add_pair _ _ _ _ _ _ _ u (KUnsubP rid) rid _ _ T1); auto.
    + discriminate.
    + intros k' Hk. apply CR1 in Hk. tauto.
    + (* u was referred to by rid only; rid, not being a waiter-less call entry, by none *)
      intros j k' Hj. apply CR1 in Hj as (Hj & Hn & _). split; intros Hr.
      * apply Hn. exact (tc_uniq _ _ _ _ _ _ _ H2 _ _ _ _ _ Hj Hi Hr eq_refl).
      * destruct (tc_res _ _ _ _ _ _ _ H2 _ _ _ Hj Hr) as (_ & _ & _ & e). apply e in Hi. discriminate.
    + apply (ic_lt_ids _ _ _ _ _ H1 _ K).
    + eapply IdsC_key_notq; eauto. eapply in_key; eauto.
    + apply (ic_id_rng _ _ _ _ _ H1 _ K).
    + intros x. cbn [In]. split.
      * intros [<- | Hx]; eauto.
      * intros [(-> & _) | Hx]; auto.
Qed.

Lemma InvC_batch_rm M Q nx b ua k : InvC M Q nx b ua ->
  InvC (set_batches M (aremove range_eqb k (batches M))) Q nx b ua.
Proof.
  intros (H1 & H2 & H3).
  assert (I : forall r, In r (rngs_of (aremove range_eqb k (batches M)) Q) -> In r (rngs_of (batches M) Q)).
  { unfold rngs_of. intros r. rewrite !in_app_iff. intros [Hr | Hr]; auto. left.
    apply (keys_aremove range_eqb range_eqb_ok) in Hr. tauto. }
  split; [|split]; auto; cbn [requests set_batches subs batches].
  - eapply IdsC_shrink; [exact H1|..]; auto.
    + apply H1.
    + pose proof (ic_nd_rng _ _ _ _ _ H1) as N. unfold rngs_of in *. apply nodup_app in N as (N1 & N2 & N3).
      apply nodup_app. repeat split; auto.
      * apply keys_aremove_nodup; auto.
      * intros x Hx. apply (keys_aremove range_eqb range_eqb_ok) in Hx. apply N3. tauto.
    + apply H1.
  - eapply TabC_q; [| |eauto]; auto.
Qed.

Lemma InvC_nh M Q nx b ua nh : InvC M Q nx b ua -> NoDup (map fst nh) -> InvC (set_nhandlers M nh) Q nx b ua.
Proof. intros (H1 & H2 & H3) N. split; [|split]; auto. Qed.

Lemma InvC_quiescent M Q nx b ua : InvC M Q nx b ua ->
  (forall i k, In (i, k) (requests M) -> k = KCall None) -> requests M = [] /\ subs M = [].
Proof.
  intros (H1 & H2 & H3) Hq.
  assert (E : requests M = []).
  { destruct (requests M) as [|[i k] R] eqn:E; auto. exfalso.
    assert (Hk : k = KCall None) by (apply (Hq i); left; auto). subst k.
    destruct (tc_none _ _ _ _ _ _ _ H2 i) as (i2 & k2 & Hi2 & Hr); [left; auto|].
    apply Hq in Hi2. subst. discriminate. }
  split; auto. destruct (subs M) as [|[sid j] S] eqn:E2; auto. exfalso.
  destruct (tc_subs_a _ _ _ _ _ _ _ H2 sid j) as (u & ch & um & Hu); [left; auto|].
  rewrite E in Hu. contradiction.
Qed.

Definition qmsgs (s : st) : list f2b := queue s ++ map fst (waiting s).

Record Inv (s : st) : Prop := {
  inv_core : InvC (m s) (qmsgs s) (next_id s) (id_str s) (unacked s);
  inv_chans : NoDup (map fst (chans s));
  inv_dead : dead s = true -> m s = empty_mgr /\ queue s = [] /\ waiting s = [];
  inv_busy : busy s = true -> gated s = true
}.

Definition usedC (R : list (id * kind)) (Q : list f2b) (i : id) : Prop :=
  In i (map fst R) \/ In i (qids Q) \/ exists j k, In (j, k) R /\ refs k = Some i.
Definition used (s : st) (i : id) : Prop := usedC (requests (m s)) (qmsgs s) i.

(* what a transition may add: only ids at or above the counter.  ext_q says it of the queued ids alone, because a key
   that has left the table must be shown not to sit in the queue either (C18: removed_retired) *)
Record Ext (s s' : st) : Prop := {
  ext_str : id_str s' = id_str s;
  ext_next : next_id s <= next_id s';
  ext_used : forall i, used s' i -> used s i \/ idge (id_str s) (next_id s) i;
  ext_q : forall i, In i (qids (qmsgs s')) -> In i (qids (qmsgs s)) \/ idge (id_str s) (next_id s) i
}.

Lemma Ext_refl s : Ext s s.
Proof. constructor; auto; lia. Qed.

Lemma Ext_trans s1 s2 s3 : Ext s1 s2 -> Ext s2 s3 -> Ext s1 s3.
Proof.
  intros [A_str A_next A_used A_q] [B_str B_next B_used B_q]. constructor.
  - congruence.
  - lia.
  - intros i Hi. apply B_used in Hi as [Hi | Hi]; auto. right. rewrite A_str in Hi. eapply idge_mono; eauto.
  - intros i Hi. apply B_q in Hi as [Hi | Hi]; auto. right. rewrite A_str in Hi. eapply idge_mono; eauto.
Qed.

Definition Good (s s' : st) : Prop := Inv s' /\ Ext s s'.

Lemma Good_trans s1 s2 s3 : Good s1 s2 -> (Inv s2 -> Good s2 s3) -> Good s1 s3.
Proof. intros (I2 & E12) H. destruct (H I2) as (I3 & E23). split; auto. eapply Ext_trans; eauto. Qed.

Lemma Good_refl s : Inv s -> Good s s.
Proof. intros H. split; auto. apply Ext_refl. Qed.

Lemma SameC_qmsgs s s' : SameC s s' -> qmsgs s' = qmsgs s.
Proof. intros C. unfold qmsgs. rewrite (sc_queue _ _ C), (sc_waiting _ _ C). reflexivity. Qed.

(* SameC keeps every field the invariant reads but the channel keys and busy *)
Lemma Good_same s s' : SameC s s' -> NoDup (map fst (chans s')) -> (busy s' = true -> gated s' = true) -> Inv s -> Good s s'.
Proof.
  intros C N B I. pose proof (SameC_qmsgs _ _ C) as Q. split.
  - constructor; auto.
    + rewrite Q, (sc_m _ _ C), (sc_next _ _ C), (sc_str _ _ C), (sc_unacked _ _ C). apply I.
    + rewrite (sc_dead _ _ C), (sc_m _ _ C), (sc_queue _ _ C), (sc_waiting _ _ C). apply I.
  - constructor; unfold used; rewrite ?Q, ?(sc_m _ _ C), ?(sc_str _ _ C), ?(sc_next _ _ C); auto. lia.
Qed.

Lemma set_chan_keys s h c : NoDup (map fst (chans s)) -> NoDup (map fst (chans (set_chan s h c))).
Proof. intros H. st_simpl. apply aset_keys_nodup; auto. exact Neqb_ok. Qed.

Lemma drop_sink_keys s h : NoDup (map fst (chans s)) -> NoDup (map fst (chans (drop_sink s h))).
Proof. intros H. unfold drop_sink. destruct (chan_of s h); auto. apply set_chan_keys; auto. Qed.

Lemma wire_good s raw : Inv s -> Good s (fst (wire s raw)).
Proof.
  intros I. apply Good_same; auto.
  - apply wire_same.
  - rewrite wire_chans. apply (inv_chans _ I).
  - pose proof (inv_busy _ I) as B. unfold wire. destruct (sendfail s); [|destruct (gated s) eqn:G]; st_simpl; auto.
    rewrite G. auto.
Qed.

Lemma enqueue_tagged_perm s msg tag : Permutation (msg :: qmsgs s) (qmsgs (enqueue_tagged s msg tag)).
Proof. unfold qmsgs. rewrite enqueue_tagged_msgs. apply Permutation_cons_append. Qed.

Lemma admit_waiting_qmsgs f : forall s, qmsgs (admit_waiting f s) = qmsgs s.
Proof.
  induction f as [|f IH]; intros s; cbn [admit_waiting]; auto.
  destruct (waiting s) as [|[msg tag] w] eqn:W; auto.
  destruct (Nat.ltb (length (queue s)) (qcap s)); auto.
  rewrite IH. unfold qmsgs. rewrite W. destruct tag; st_simpl; rewrite <- app_assoc; reflexivity.
Qed.

Lemma Good_requeue s s' : SameQ s s' -> Inv s -> dead s = false ->
  InvC (m s) (qmsgs s') (next_id s) (id_str s) (unacked s) ->
  (forall i, In i (qids (qmsgs s')) -> In i (qids (qmsgs s))) -> Good s s'.
Proof.
  intros Q I D C U. split.
  - constructor.
    + rewrite (sq_m _ _ Q), (sq_next _ _ Q), (sq_str _ _ Q), (sq_unacked _ _ Q). exact C.
    + rewrite (sq_chans _ _ Q). apply I.
    + rewrite (sq_dead _ _ Q). congruence.
    + rewrite (sq_busy _ _ Q), (sq_gated _ _ Q). apply I.
  - constructor; [apply Q | rewrite (sq_next _ _ Q); lia | | auto].
    intros i. unfold used, usedC. rewrite (sq_m _ _ Q). intros [H | [H | H]]; auto.
Qed.

Lemma admit_waiting_good f s : Inv s -> Good s (admit_waiting f s).
Proof.
  intros I. destruct (dead s) eqn:D.
  - destruct (inv_dead _ I D) as (_ & _ & W). replace (admit_waiting f s) with s; [apply Good_refl; auto|].
    destruct f; cbn [admit_waiting]; auto. rewrite W. auto.
  - apply (Good_requeue _ _ (admit_waiting_sameq f s) I D); rewrite admit_waiting_qmsgs; auto. apply I.
Qed.

Lemma requeue_plain_good s s' msg : Inv s -> dead s = false -> SameQ s s' ->
  msg_ids msg = [] -> msg_ranges msg = [] -> msg_ok msg ->
  qmsgs s' = qmsgs s \/ Permutation (msg :: qmsgs s) (qmsgs s') -> Good s s'.
Proof.
  intros I D Q E1 E2 K P. apply (Good_requeue _ _ Q I D).
  - destruct P as [-> | P]; [apply I|].
    eapply InvC_perm; [exact P|]. apply InvC_enq with (nx := next_id s); rewrite ?E1, ?E2; auto;
      [lia | constructor | intros ? [] | intros ? [] | apply I].
  - intros i Hi. destruct P as [P | P]; [rewrite P in Hi; auto|].
    rewrite <- (qids_perm _ _ P) in Hi. unfold qids in Hi. cbn [flat_map] in Hi. rewrite E1 in Hi. exact Hi.
Qed.

Lemma enqueue_plain_good s msg tag : Inv s -> dead s = false -> msg_ids msg = [] -> msg_ranges msg = [] -> msg_ok msg ->
  Good s (enqueue_tagged s msg tag).
Proof.
  intros I D E1 E2 K. apply (requeue_plain_good s _ msg); auto; [apply enqueue_tagged_sameq | right; apply enqueue_tagged_perm].
Qed.

Lemma try_enqueue_plain_good s msg : Inv s -> dead s = false -> msg_ids msg = [] -> msg_ranges msg = [] -> msg_ok msg ->
  Good s (try_enqueue s msg).
Proof.
  intros I D E1 E2 K. apply (requeue_plain_good s _ msg); auto; [apply try_enqueue_sameq|].
  unfold try_enqueue, qmsgs. destruct (Nat.ltb (length (queue s)) (qcap s)); auto. right. st_simpl.
  rewrite <- app_assoc. apply Permutation_middle.
Qed.

Lemma finish_unsubs_good s : Inv s -> Good s (fst (finish_unsubs s)).
Proof.
  intros I. apply Good_same; auto; [apply finish_unsubs_same | |];
    destruct (finish_unsubs_shape s) as (cs & -> & N); st_simpl; [apply N|]; apply I.
Qed.

Lemma set_chan_good s h c : Inv s -> Good s (set_chan s h c).
Proof. intros I. apply Good_same; auto; [apply set_chan_same | apply set_chan_keys | ]; apply I. Qed.

Lemma poll_next_good s sh : Inv s -> Good s (fst (poll_next s sh)).
Proof. intros I. destruct (poll_next_cases s sh) as [-> | (c & ->)]; [apply Good_refl | apply set_chan_good]; auto. Qed.

(* what one message of the send task or of the read task establishes *)
Definition GoodL (s s' : st) : Prop := Good s s' /\ dead s' = false.

Lemma GoodL_refl s : Inv s -> dead s = false -> GoodL s s.
Proof. intros I D. split; auto. apply Good_refl; auto. Qed.

Lemma GoodL_trans s1 s2 s3 : GoodL s1 s2 -> (Inv s2 -> dead s2 = false -> GoodL s2 s3) -> GoodL s1 s3.
Proof.
  intros (G & D) H. destruct (H (proj1 G) D) as (G' & D'). split; auto.
  eapply Good_trans; eauto.
Qed.

(* D: the message the send task has taken *)
Lemma GoodL_build s s' D Q' :
  Inv s -> dead s' = false -> id_str s' = id_str s -> next_id s' = next_id s ->
  qmsgs s' = Q' -> qmsgs s = D ++ Q' ->
  NoDup (map fst (chans s')) -> (busy s' = true -> gated s' = true) ->
  InvC (m s') Q' (next_id s) (id_str s) (unacked s') ->
  (forall i, usedC (requests (m s')) Q' i -> used s i) ->
  GoodL s s'.
Proof.
  intros I D' E1 E2 Q1 Q2 N B C U. split; auto. split.
  - constructor; auto; [rewrite Q1, E1, E2; auto | congruence].
  - constructor; auto; try lia.
    + intros i Hi. left. apply U. unfold used in Hi. rewrite Q1 in Hi. exact Hi.
    + intros i Hi. left. rewrite Q1 in Hi. rewrite Q2. unfold qids. rewrite flat_map_app. apply in_app_iff; auto.
Qed.

Lemma GoodL_same s s' : SameC s s' -> NoDup (map fst (chans s')) -> (busy s' = true -> gated s' = true) ->
  Inv s -> dead s = false -> GoodL s s'.
Proof. intros C N B I D. split; [apply Good_same; auto|]. rewrite (sc_dead _ _ C). exact D. Qed.

Lemma wire_goodL s raw : Inv s -> dead s = false -> GoodL s (fst (wire s raw)).
Proof. intros I D. split; [apply wire_good; auto|]. rewrite (sc_dead _ _ (wire_same s raw)). exact D. Qed.

Lemma set_chan_goodL s h c : Inv s -> dead s = false -> GoodL s (set_chan s h c).
Proof. intros I D. split; [apply set_chan_good|]; auto. Qed.

Lemma drop_sink_goodL s h : Inv s -> dead s = false -> GoodL s (drop_sink s h).
Proof.
  intros I D. apply GoodL_same; auto.
  - apply drop_sink_same.
  - apply drop_sink_keys. apply I.
  - destruct (drop_sink_chans s h) as (cs & ->). apply I.
Qed.

Lemma forward_goodL s sid : Inv s -> dead s = false -> GoodL s (forward s (MSubClosed sid)).
Proof.
  intros I D. split.
  - apply enqueue_plain_good; auto. exact Logic.I.
  - unfold forward, enqueue. rewrite (sq_dead _ _ (enqueue_tagged_sameq s (MSubClosed sid) None)). exact D.
Qed.

Lemma usedC_mono R R' Q Q' i :
  (forall j k, In (j, k) R' -> In (j, k) R) -> (forall x, In x (qids Q') -> In x (qids Q)) ->
  usedC R' Q' i -> usedC R Q i.
Proof.
  intros A B [H | [H | (j & k & H & E)]].
  - left. apply in_map_iff in H as ([j k] & <- & H). apply A in H. eapply in_key; eauto.
  - right; left; auto.
  - right; right. exists j, k. auto.
Qed.

Lemma usedC_sub R R' Q Q' :
  (forall j k, In (j, k) R' -> usedC R Q j /\ forall u, refs k = Some u -> usedC R Q u) ->
  (forall x, In x (qids Q') -> usedC R Q x) ->
  forall i, usedC R' Q' i -> usedC R Q i.
Proof.
  intros A B i [H | [H | (j & k & H & E)]].
  - apply in_map_iff in H as ([j k] & <- & H). apply A in H. tauto.
  - auto.
  - apply A in H as (_ & H). auto.
Qed.

Lemma usedC_tail R x Q i : usedC R Q i -> usedC R (x :: Q) i.
Proof.
  intros [H | [H | H]]; [left | right; left | right; right]; auto.
  unfold qids. cbn [flat_map]. apply in_app_iff; auto.
Qed.

Lemma usedC_entry R Q j k : In (j, k) R -> usedC R Q j /\ forall u, refs k = Some u -> usedC R Q u.
Proof. intros H. split; [left; eapply in_key; eauto|]. intros u Hu. right; right. eauto. Qed.

Lemma usedC_front R new x Q :
  (forall j k, In (j, k) new -> In j (msg_ids x) /\ forall u, refs k = Some u -> In u (msg_ids x)) ->
  forall i, usedC (new ++ R) Q i -> usedC R (x :: Q) i.
Proof.
  intros A. apply usedC_sub.
  - intros j k Hj. apply in_app_iff in Hj as [Hj | Hj].
    + apply A in Hj as (H1 & H2). split; [|intros u Hu; apply H2 in Hu]; right; left; apply in_app_iff; auto.
    + destruct (usedC_entry R Q j k Hj) as (H1 & H2). split; [|intros u Hu]; apply usedC_tail; auto.
  - intros y Hy. right; left. apply in_app_iff; auto.
Qed.

(* s is s0 with msg taken off the queue *)
Lemma handle_front_good s0 s msg : Inv s0 -> dead s0 = false -> SameQ s0 s -> qmsgs s0 = msg :: qmsgs s ->
  GoodL s0 (fst (handle_front s msg)).
Proof.
  intros I0 D0 SQ QM.
  assert (D : dead s = false) by (rewrite (sq_dead _ _ SQ); exact D0).
  assert (N : NoDup (map fst (chans s))) by (rewrite (sq_chans _ _ SQ); apply I0).
  assert (B : busy s = true -> gated s = true) by (rewrite (sq_busy _ _ SQ), (sq_gated _ _ SQ); apply I0).
  assert (C : InvC (m s) (msg :: qmsgs s) (next_id s) (id_str s) (unacked s)).
  { rewrite <- QM, (sq_m _ _ SQ), (sq_next _ _ SQ), (sq_str _ _ SQ), (sq_unacked _ _ SQ). apply I0. }
  assert (BUILD : forall s', dead s' = false -> id_str s' = id_str s -> next_id s' = next_id s ->
            queue s' = queue s -> waiting s' = waiting s ->
            NoDup (map fst (chans s')) -> (busy s' = true -> gated s' = true) ->
            InvC (m s') (qmsgs s) (next_id s) (id_str s) (unacked s') ->
            (forall i, usedC (requests (m s')) (qmsgs s) i -> usedC (requests (m s)) (msg :: qmsgs s) i) ->
            GoodL s0 s').
  { intros s' D' E1 E2 E3 E4 N' B' C' U.
    apply GoodL_build with (D := [msg]) (Q' := qmsgs s); auto.
    - rewrite E1. apply SQ.
    - rewrite E2. apply SQ.
    - unfold qmsgs. congruence.
    - rewrite <- (sq_next _ _ SQ), <- (sq_str _ _ SQ). exact C'.
    - intros i Hi. unfold used. rewrite QM, <- (sq_m _ _ SQ). auto. }
  assert (WIRE : forall s' raw, GoodL s0 s' -> GoodL s0 (fst (wire s' raw))).
  { intros s' raw G. eapply GoodL_trans; [exact G|]. intros I' D'. apply wire_goodL; auto. }
  assert (SELF : GoodL s0 s).
  { apply BUILD; auto. - eapply InvC_tail; eauto. - intros i. apply usedC_tail. }
  destruct msg as [lo hi h raw | raw | i w raw | si ui um h raw | me h | me | sid]; cbn [handle_front].
  - (* MBatch *)
    apply InvC_front_batch in C as (F & C).
    apply (ahas_false range_eqb range_eqb_ok) in F. rewrite F.
    apply WIRE. apply BUILD; st_simpl; auto; try (intros i; apply usedC_tail).
  - (* MNotif *) apply WIRE; auto.
  - (* MRequest *)
    apply InvC_front_req in C as (F & C).
    pose proof F as F'. apply (ahas_false id_eqb id_eqb_ok) in F'. rewrite F'.
    apply WIRE. apply BUILD; st_simpl; auto. cbn [requests set_requests].
    apply (usedC_front _ [(i, KCall w)]). intros j k [E | []]. inv E. split; [left; auto | discriminate].
  - (* MSubscribe *)
    apply InvC_front_sub in C as (F1 & F2 & F3 & C).
    pose proof F1 as F1'. apply (ahas_false id_eqb id_eqb_ok) in F1'.
    pose proof F2 as F2'. apply (ahas_false id_eqb id_eqb_ok) in F2'.
    rewrite F1', F2', (eqb_neq id_eqb id_eqb_ok _ _ F3). cbn [negb andb].
    apply WIRE. apply BUILD; st_simpl; auto. cbn [requests set_requests].
    apply (usedC_front _ [(ui, KCall None); (si, KPendSub ui h um)]). cbn [msg_ids In].
    intros j k [E | [E | []]]; inv E; (split; [auto|]); [discriminate | intros u [= <-]; auto].
  - (* MRegister *)
    apply InvC_tail in C.
    destruct (ahas bytes_eqb me (nhandlers (m s))) eqn:A; auto.
    apply (ahas_false bytes_eqb bytes_eqb_eq) in A.
    assert (C' : InvC (set_nhandlers (m s) ((me, h) :: nhandlers (m s))) (qmsgs s) (next_id s) (id_str s) (unacked s)).
    { apply InvC_nh; auto. cbn. constructor; auto. destruct C as (_ & _ & C). auto. }
    destruct (alive s h); cbn [fst]; apply BUILD; st_simpl; auto;
      try (repeat apply aset_keys_nodup; auto; exact Neqb_ok);
      intros i; apply usedC_tail.
  - (* MUnregister *)
    apply InvC_tail in C.
    destruct (alookup bytes_eqb me (nhandlers (m s))) as [ch|] eqn:A; auto. cbn [fst].
    eapply GoodL_trans; [|intros I1 D1; apply drop_sink_goodL; auto].
    apply BUILD; st_simpl; auto; try (intros i; apply usedC_tail).
    apply InvC_nh; auto. apply keys_aremove_nodup. destruct C as (_ & _ & C). auto.
  - (* MSubClosed *)
    apply InvC_tail in C. unfold do_unsubscribe.
    destruct (alookup subid_eqb sid (subs (m s))) as [rid|] eqn:A; auto.
    unfold req_lookup. destruct (alookup id_eqb rid (requests (m s))) as [[w|u w um|u ch um|j]|] eqn:A2; auto.
    apply (alookup_In subid_eqb subid_eqb_ok) in A. apply (alookup_In id_eqb id_eqb_ok) in A2.
    apply WIRE.
    set (m1 := set_subs _ _).
    pose proof (drop_sink_keys (upd_m s m1) ch N) as N1.
    destruct (drop_sink_chans (upd_m s m1) ch) as (cs & E). rewrite E in *.
    apply BUILD; st_simpl; auto.
    + apply InvC_unsub with (ch := ch) (um := um); auto.
    + unfold m1. cbn [requests set_subs set_requests].
      intros i Hi. apply usedC_tail. revert i Hi. apply usedC_sub; auto.
      * destruct (usedC_entry _ (qmsgs s) _ _ A2) as (K1 & K2).
        intros j k Hj. apply (In_aset id_eqb id_eqb_ok) in Hj as [(-> & ->) | (Hj & _)].
        -- split; [apply K2; reflexivity | intros x [= <-]; exact K1].
        -- apply (In_aset id_eqb id_eqb_ok) in Hj as [(-> & ->) | (Hj & _)].
           ++ split; [exact K1 | discriminate].
           ++ apply usedC_entry; auto.
      * intros x Hx. right; left; auto.
Qed.

Definition rres_st (r : rres) : st := match r with ROk s _ => s | RFatal s _ _ => s end.
Definition rres_out (r : rres) : list out := match r with ROk _ o => o | RFatal _ o _ => o end.

(* The read task composes single_response, sub_deliver, sub_close, notif_deliver and batch_response, in a way the
   dispatch decides.  A relation between a state, the outputs emitted and the state reached that holds of doing nothing,
   of each of the five, and of the composition of two steps it holds of, holds of the frame handler for every dispatch. *)
Section ComposeBack.
  Variable R : st -> list out -> st -> Prop.
  Hypothesis R_nil : forall s, R s [] s.
  Hypothesis R_app : forall s1 o1 s2 o2 s3, R s1 o1 s2 -> R s2 o2 s3 -> R s1 (o1 ++ o2) s3.
  Hypothesis R_single : forall s r, R s (rres_out (single_response s r)) (rres_st (single_response s r)).
  Hypothesis R_deliver : forall s sid p, R s [] (sub_deliver s sid p).
  Hypothesis R_close : forall s sid, R s [] (sub_close s sid).
  Hypothesis R_notif : forall s me p, R s [] (notif_deliver s me p).

  Lemma handle_single_with_rel d s x : R s (rres_out (handle_single_with d s x)) (rres_st (handle_single_with d s x)).
  Proof.
    unfold handle_single_with. destruct (reader_of x) as [r|]; [|destruct (d_single_no_reader d); apply R_nil].
    destruct (single_action r (d_single d)) as [a|]; [|apply R_nil].
    destruct a, x; cbn [run_single_action ill_typed rres_out rres_st]; auto.
  Qed.

  Definition loop_rel (s : st) (r : loop_acc + rres) : Prop :=
    match r with inl (s1, _, _, _) => R s [] s1 | inr r => R s (rres_out r) (rres_st r) end.

  Lemma elem_step_rel d s x acc rng got : loop_rel s (elem_step d s x acc rng got).
  Proof.
    unfold elem_step. destruct (reader_of x) as [r|]; [|destruct (d_elem_no_reader d); apply R_nil].
    destruct (elem_action r (d_elem d)) as [[a mark]|]; [|apply R_nil].
    destruct a as [cm|chk|cm| |], x as [rs|me sid p|me sid p|me p|];
      cbn [run_elem_action loop_rel ill_typed rres_out rres_st]; auto.
    - destruct (id_as_number (rs_id rs)); [apply R_nil|]. destruct chk; apply R_nil.
    - destruct cm; [destruct (sub_closes s sid p)|]; cbn [loop_rel rres_out rres_st]; apply R_deliver.
  Qed.

  Lemma array_run_with_rel d : forall ms s acc rng got, loop_rel s (array_run_with d s ms acc rng got).
  Proof.
    induction ms as [|x ms IH]; intros s acc rng got; cbn [array_run_with]; [apply R_nil|].
    pose proof (elem_step_rel d s x acc rng got) as E.
    destruct (elem_step d s x acc rng got) as [[[[s1 acc1] rng1] got1]|r]; [|exact E]. cbn [loop_rel] in E.
    specialize (IH s1 acc1 rng1 got1).
    destruct (array_run_with d s1 ms acc1 rng1 got1) as [[[[s2 ?] ?] ?]|r]; cbn [loop_rel] in *; exact (R_app _ _ _ _ _ E IH).
  Qed.

  Hypothesis R_batch : forall s rs lo hi, R s (rres_out (batch_response s rs lo hi)) (rres_st (batch_response s rs lo hi)).

  Lemma run_post_rel : forall rules s rs rng got, R s (rres_out (run_post rules s rs rng got)) (rres_st (run_post rules s rs rng got)).
  Proof.
    induction rules as [|p rules IH]; intros s rs rng got; cbn [run_post]; [apply R_nil|]. destruct p.
    - destruct rng as [[lo hi]|]; [|apply IH]. destruct (hi =? u64_max); [apply R_nil | apply R_batch].
    - destruct got; [apply IH | apply R_nil].
  Qed.

  Lemma handle_back_with_rel d s fr : R s (rres_out (handle_back_with d s fr)) (rres_st (handle_back_with d s fr)).
  Proof.
    destruct fr as [x|ms|]; cbn [handle_back_with]; [apply handle_single_with_rel | | apply R_nil].
    pose proof (array_run_with_rel d ms s [] None false) as E.
    destruct (array_run_with d s ms [] None false) as [[[[s1 rs] rng] got]|r]; cbn [loop_rel] in E; [|exact E].
    exact (R_app _ _ _ _ _ E (run_post_rel (d_post d) s1 rs rng got)).
  Qed.
End ComposeBack.

Lemma single_response_good s r : Inv s -> dead s = false -> GoodL s (rres_st (single_response s r)).
Proof.
  intros I D. unfold single_response, req_lookup.
  pose proof (inv_core _ I) as C. pose proof (inv_chans _ I) as N. pose proof (inv_busy _ I) as B.
  destruct (alookup id_eqb (rs_id r) (requests (m s))) as [[w|u w um|u ch um|sub]|] eqn:A;
    try (apply GoodL_refl; auto; fail); apply (alookup_In id_eqb id_eqb_ok) in A.
  - (* KCall *)
    cbn [rres_st]. apply GoodL_build with (D := []) (Q' := qmsgs s); st_simpl; auto.
    + eapply InvC_resp_call; eauto.
    + intros i. apply usedC_mono; auto. cbn. intros j k Hj. apply (In_aremove id_eqb id_eqb_ok) in Hj. tauto.
  - (* KPendSub *)
    set (m1 := set_requests (m s) (aremove id_eqb (rs_id r) (requests (m s)))).
    assert (ERR : GoodL s (upd_m s (release_reserved u m1))).
    { apply GoodL_build with (D := []) (Q' := qmsgs s); st_simpl; auto.
      - eapply InvC_resp_pend_err; eauto.
      - intros i. apply usedC_mono; auto. intros j k Hj. apply release_sub in Hj. cbn in Hj.
        apply (In_aremove id_eqb id_eqb_ok) in Hj. tauto. }
    destruct (rs_payload r) as [raw|e]; [|exact ERR].
    destruct (parse_subid raw) as [sid|]; [|exact ERR].
    destruct (ahas subid_eqb sid (subs m1)) eqn:AH; [exact ERR|].
    apply (ahas_false subid_eqb subid_eqb_ok) in AH. cbn [m1 subs set_requests] in AH.
    set (m2 := set_subs _ _).
    assert (OK : GoodL s (upd_m s m2)).
    { change m2 with (set_subs (set_requests (m s) ((rs_id r, KSub u w um) :: aremove id_eqb (rs_id r) (requests (m s))))
                               ((sid, rs_id r) :: subs (m s))).
      apply GoodL_build with (D := []) (Q' := qmsgs s); st_simpl; auto.
      - eapply InvC_resp_pend_ok; eauto.
      - cbn [requests subs set_requests set_subs]. apply usedC_sub.
        + destruct (usedC_entry _ (qmsgs s) _ _ A) as (K1 & K2).
          intros j k [E | Hj].
          * inv E. split; [exact K1 | intros x [= <-]; apply K2; reflexivity].
          * apply (In_aremove id_eqb id_eqb_ok) in Hj as (Hj & _). apply usedC_entry; auto.
        + intros x Hx. right; left; auto. }
    destruct (alive s w); cbn [rres_st];
      (eapply GoodL_trans; [exact OK|]; intros I1 D1;
       eapply GoodL_trans; [apply (set_chan_goodL _ w (new_chan (bufcap s))); auto|]; intros I2 D2).
    + apply GoodL_same; auto; try apply I2. constructor; reflexivity.
    + eapply GoodL_trans; [apply (set_chan_goodL _ w (chan_drop_rx (new_chan (bufcap s)))); auto|]. intros I3 D3.
      apply forward_goodL; auto.
  - (* KUnsubP *)
    set (r1 := aremove id_eqb (rs_id r) (requests (m s))).
    assert (E : set_requests (m s) match alookup id_eqb sub r1 with Some (KCall None) => aremove id_eqb sub r1 | _ => r1 end
                = release_reserved sub (set_requests (m s) r1)).
    { unfold release_reserved, req_lookup. cbn [requests set_requests].
      destruct (alookup id_eqb sub r1) as [[[w|]| | |]|]; reflexivity. }
    rewrite E. cbn [rres_st]. apply GoodL_build with (D := []) (Q' := qmsgs s); st_simpl; auto.
    + eapply InvC_resp_unsubp; eauto.
    + intros i. apply usedC_mono; auto. intros j k Hj. apply release_sub in Hj. cbn in Hj.
      apply (In_aremove id_eqb id_eqb_ok) in Hj. tauto.
Qed.

Lemma sub_deliver_good s sid p : Inv s -> dead s = false -> GoodL s (sub_deliver s sid p).
Proof.
  intros I D. unfold sub_deliver.
  destruct (alookup subid_eqb sid (subs (m s))) as [rid|]; [|apply GoodL_refl; auto].
  destruct (req_lookup rid (m s)) as [[w|u w um|u ch um|sub]|]; try (apply GoodL_refl; auto; fail).
  destruct (chan_of s ch) as [c|]; [|apply GoodL_refl; auto].
  destruct (chan_send c p) as [c' res].
  destruct res; try apply set_chan_goodL; auto;
    (eapply GoodL_trans; [apply set_chan_goodL; auto|]; intros I1 D1; apply forward_goodL; auto).
Qed.

Lemma sub_close_good s sid : Inv s -> dead s = false -> GoodL s (sub_close s sid).
Proof.
  intros I D. unfold sub_close, req_lookup.
  pose proof (inv_core _ I) as C. pose proof (inv_chans _ I) as N. pose proof (inv_busy _ I) as B.
  destruct (alookup subid_eqb sid (subs (m s))) as [rid|] eqn:A1; [|apply GoodL_refl; auto].
  destruct (alookup id_eqb rid (requests (m s))) as [[w|u w um|u ch um|sub]|] eqn:A2; try (apply GoodL_refl; auto; fail).
  apply (alookup_In subid_eqb subid_eqb_ok) in A1. apply (alookup_In id_eqb id_eqb_ok) in A2.
  set (m1 := set_subs _ _).
  eapply GoodL_trans; [|intros I1 D1; apply drop_sink_goodL; auto].
  apply GoodL_build with (D := []) (Q' := qmsgs s); st_simpl; auto.
  - eapply InvC_close; eauto.
  - intros i. apply usedC_mono; auto. intros j k Hj. apply release_sub in Hj. cbn in Hj.
    apply (In_aremove id_eqb id_eqb_ok) in Hj. tauto.
Qed.

Lemma notif_deliver_good s me p : Inv s -> dead s = false -> GoodL s (notif_deliver s me p).
Proof.
  intros I D. unfold notif_deliver.
  destruct (alookup bytes_eqb me (nhandlers (m s))) as [ch|]; [|apply GoodL_refl; auto].
  destruct (chan_of s ch) as [c|]; [|apply GoodL_refl; auto].
  destruct (chan_send c _) as [c' res].
  assert (X : forall s1, Inv s1 -> dead s1 = false ->
              GoodL s1 (drop_sink (upd_m s1 (set_nhandlers (m s1) (aremove bytes_eqb me (nhandlers (m s1))))) ch)).
  { intros s1 I1 D1. eapply GoodL_trans; [|intros I2 D2; apply drop_sink_goodL; auto].
    apply GoodL_build with (D := []) (Q' := qmsgs s1); st_simpl; auto; try apply I1.
    apply InvC_nh; [apply I1|]. apply keys_aremove_nodup. destruct (inv_core _ I1) as (_ & _ & H). exact H. }
  destruct res; try apply set_chan_goodL; auto;
    (eapply GoodL_trans; [apply set_chan_goodL; auto|]; intros I1 D1; apply X; auto).
Qed.

Lemma batch_response_good s rs lo hi : Inv s -> dead s = false -> GoodL s (rres_st (batch_response s rs lo hi)).
Proof.
  intros I D. unfold batch_response.
  destruct (alookup range_eqb (lo, hi) (batches (m s))); [|apply GoodL_refl; auto].
  cbn [rres_st]. apply GoodL_build with (D := []) (Q' := qmsgs s); st_simpl; auto; try apply I.
  apply InvC_batch_rm. apply I.
Qed.

Lemma handle_back_good s fr : Inv s -> dead s = false -> GoodL s (rres_st (handle_back s fr)).
Proof.
  apply (handle_back_with_rel (fun s _ s' => Inv s -> dead s = false -> GoodL s s')).
  - apply GoodL_refl.
  - intros s1 _ s2 _ s3 A B I1 D1. eapply GoodL_trans; [exact (A I1 D1) | exact B].
  - apply single_response_good.
  - apply sub_deliver_good.
  - apply sub_close_good.
  - apply notif_deliver_good.
  - apply batch_response_good.
Qed.

Lemma kill_good s f : Inv s -> Good s (fst (kill s f)).
Proof.
  intros I. unfold kill. cbn [fst]. split.
  - constructor; st_simpl.
    + apply InvC_empty.
    + rewrite map_map. cbn [fst]. apply I.
    + auto.
    + apply I.
  - constructor; st_simpl; auto; try lia.
    + intros i [H | [H | (j & k & H & _)]]; cbn in H; contradiction.
    + cbn. tauto.
Qed.

Lemma alloc_enq_good s nx' msg tag : Inv s -> dead s = false -> next_id s <= nx' -> msg_ok msg ->
  NoDup (msg_ids msg) -> (forall i, In i (msg_ids msg) -> idge (id_str s) (next_id s) i /\ idlt (id_str s) nx' i) ->
  (forall r, In r (msg_ranges msg) ->
     msg_ranges msg = [r] /\ msg_ids msg = [] /\ next_id s <= fst r /\ fst r < snd r /\ snd r <= nx') ->
  Good s (enqueue_tagged (upd_next s nx') msg tag).
Proof.
  intros I D L K N F1 F2. set (s1 := upd_next s nx').
  assert (C : InvC (m s) (msg :: qmsgs s) nx' (id_str s) (unacked s)) by (apply InvC_enq with (nx := next_id s); auto; apply I).
  pose proof (enqueue_tagged_sameq s1 msg tag) as Q. pose proof (enqueue_tagged_perm s1 msg tag) as P.
  change (qmsgs s1) with (qmsgs s) in P.
  assert (QI : forall i, In i (qids (qmsgs (enqueue_tagged s1 msg tag))) ->
                 In i (qids (qmsgs s)) \/ idge (id_str s) (next_id s) i).
  { intros i H. rewrite <- (qids_perm _ _ P) in H. apply in_app_iff in H as [H | H]; auto. right. apply F1; auto. }
  split.
  - constructor.
    + rewrite (sq_m _ _ Q), (sq_next _ _ Q), (sq_str _ _ Q), (sq_unacked _ _ Q). eapply InvC_perm; [exact P|]. exact C.
    + rewrite (sq_chans _ _ Q). apply I.
    + rewrite (sq_dead _ _ Q). intros X. unfold s1 in X. st_simpl. congruence.
    + rewrite (sq_busy _ _ Q), (sq_gated _ _ Q). apply I.
  - constructor; [apply Q | rewrite (sq_next _ _ Q); exact L | | exact QI].
    intros i. unfold used, usedC. rewrite (sq_m _ _ Q). intros [H | [H | H]]; auto. apply QI in H as [H | H]; auto.
Qed.

Lemma close_msg_plain s sh msg : close_msg_of s sh = Some msg -> msg_ids msg = [] /\ msg_ranges msg = [] /\ msg_ok msg.
Proof.
  unfold close_msg_of. destruct (alookup N.eqb sh (subkind s)) as [[sid|me]|]; intros [= <-]; cbn; auto.
Qed.

Lemma apply_good s e : Inv s -> Good s (fst (fst (apply s e))).
Proof.
  intros I.
  (* a Subscription value is given up: its channel is closed from the receiving side *)
  assert (X : forall sh c, Good s (upd_subkind (set_chan s sh c) (aremove N.eqb sh (subkind s)))).
  { intros sh c. eapply Good_trans; [apply set_chan_good; auto|]. intros I1.
    apply Good_same; auto; try apply I1. constructor; reflexivity. }
  unfold apply. destruct (dead s) eqn:D.
  -
    destruct e; cbn [fst]; try (apply Good_refl; auto; fail).
    + pose proof (poll_next_good s sh I) as G. destruct (poll_next s sh); exact G.
    + destruct (close_msg_of s sh); [|apply Good_refl; auto]. destruct (chan_of s sh); [|apply Good_refl; auto]. apply X.
    + destruct (close_msg_of s sh); [|apply Good_refl; auto]. destruct (chan_of s sh); [|apply Good_refl; auto]. apply X.
  - pose proof (inv_core _ I) as C.
    destruct e; cbn [fst].
    + (* FCall *) unfold enqueue. apply alloc_enq_good; cbn [msg_ids msg_ranges msg_ok];
        [exact I | exact D | lia | exact Logic.I | repeat constructor; intros [] | | intros r []].
      intros i [<- | []]. apply mk_id_between. lia.
    + (* FNotify *) unfold enqueue. apply alloc_enq_good; cbn [msg_ids msg_ranges msg_ok];
        [exact I | exact D | lia | exact Logic.I | constructor | intros i [] | intros r []].
    + (* FBatch *) destruct entries as [|e0 es]; [apply Good_refl; auto|].
      unfold enqueue. apply alloc_enq_good; cbn [msg_ids msg_ranges msg_ok];
        [exact I | exact D | lia | exact Logic.I | constructor | intros i [] | ].
      intros r [<- | []]. cbn [fst snd length]. repeat split; auto; lia.
    + (* FSubscribe *) destruct (bytes_eqb sub unsub); [apply Good_refl; auto|]. cbn [fst].
      unfold enqueue. apply alloc_enq_good; cbn [msg_ids msg_ranges msg_ok];
        [exact I | exact D | lia | exact Logic.I | | | intros r []].
      * constructor; [|repeat constructor; intros []]. intros [E | []]. apply mkid_inj in E. lia.
      * intros i [<- | [<- | []]]; apply mk_id_between; lia.
    + (* FSubMethod *) apply enqueue_plain_good; auto. exact Logic.I.
    + (* FNext *) pose proof (poll_next_good s sh I) as G. destruct (poll_next s sh); exact G.
    + (* FUnsub *) destruct (close_msg_of s sh) as [msg|] eqn:CM; [|apply Good_refl; auto]. cbn [fst].
      destruct (close_msg_plain _ _ _ CM) as (E1 & E2 & K).
      set (s1 := upd_unsubw _ _).
      assert (G1 : Good s s1).
      { apply Good_same; auto; unfold s1; st_simpl; try apply I. constructor; reflexivity. }
      eapply Good_trans; [exact G1|]. intros I1. apply enqueue_plain_good; auto.
    + (* FDrop *) destruct (close_msg_of s sh) as [msg|] eqn:CM; [|apply Good_refl; auto].
      destruct (chan_of s sh) as [c|]; [|apply Good_refl; auto]. cbn [fst].
      destruct (close_msg_plain _ _ _ CM) as (E1 & E2 & K).
      eapply Good_trans; [apply (X sh (chan_drop_rx c))|]. intros I1. apply try_enqueue_plain_good; auto.
    + (* FGiveUp *)
      set (p := fun x : f2b => negb (existsb (N.eqb h) (waiters_of_msg x))).
      set (s1 := upd_queue s (queue s) _).
      assert (QM : qmsgs s1 = queue s ++ filter p (map fst (waiting s))).
      { unfold qmsgs, s1. st_simpl. apply f_equal. apply (map_fst_filter p). }
      assert (G1 : Good s s1).
      { assert (Q : SameQ s s1) by (constructor; reflexivity). apply (Good_requeue _ _ Q I D).
        - rewrite QM. apply InvC_filter. exact C.
        - intros i. rewrite QM. unfold qmsgs, qids. rewrite !flat_map_app, !in_app_iff.
          intros [H | H]; auto. right. eapply in_flat_map_filter; eauto. }
      eapply Good_trans; [exact G1|]. intros I1. apply Good_same; auto; st_simpl; try apply I1. constructor; reflexivity.
    + (* Release *) apply Good_same; auto; st_simpl; try apply I; [constructor; reflexivity | discriminate].
    + (* Back *) destruct (dying s); [apply Good_refl; auto|].
      pose proof (handle_back_good s (classify_frame raw) I D) as (G & D').
      destruct (handle_back s (classify_frame raw)) as [s' o | s' o f]; cbn [rres_st fst] in *; auto.
      eapply Good_trans; [exact G|]. intros I'. apply Good_same; auto; st_simpl; try apply I'. constructor; reflexivity.
    + (* Fault *) apply Good_same; auto; st_simpl; try apply I. constructor; reflexivity.
    + (* FailSend *) apply Good_same; auto; st_simpl; try apply I. constructor; reflexivity.
Qed.

Lemma run_cons s e es : run s (e :: es) =
  (fst (run (fst (fst (step s e))) es), (snd (fst (step s e)), snd (step s e)) :: snd (run (fst (fst (step s e))) es)).
Proof.
  cbn [run]. destruct (step s e) as [[s1 o] r]. cbn [fst snd]. destruct (run s1 es); reflexivity.
Qed.

Lemma run_app s es1 es2 : fst (run s (es1 ++ es2)) = fst (run (fst (run s es1)) es2).
Proof.
  revert s. induction es1 as [|e es1 IH]; intros s; [reflexivity|].
  rewrite <- app_comm_cons, !run_cons. cbn [fst]. apply IH.
Qed.

(* settle composes admit_waiting, handle_front on the head of the queue, kill and finish_unsubs.  A relation between a
   state, the outputs emitted and the state reached that holds of doing nothing, of each of the four, and of the
   composition of two steps it holds of, holds of settle.  R_front and R_kill may use the guards under which drain and
   try_kill call handle_front and kill. *)
Section Compose.
  Variable R : st -> list out -> st -> Prop.
  Hypothesis R_nil : forall s, R s [] s.
  Hypothesis R_app : forall s1 o1 s2 o2 s3, R s1 o1 s2 -> R s2 o2 s3 -> R s1 (o1 ++ o2) s3.
  Hypothesis R_admit : forall f s, R s [] (admit_waiting f s).
  Hypothesis R_front : forall s0 msg q, queue s0 = msg :: q -> dead s0 = false -> busy s0 = false -> dying s0 = None ->
    R s0 (snd (handle_front (upd_queue s0 q (waiting s0)) msg)) (fst (handle_front (upd_queue s0 q (waiting s0)) msg)).
  Hypothesis R_kill : forall s f, dying s = Some f -> busy s = false -> dead s = false -> R s (snd (kill s f)) (fst (kill s f)).
  Hypothesis R_fin : forall s, R s (snd (finish_unsubs s)) (fst (finish_unsubs s)).

  Lemma drain_rel f : forall s, R s (snd (drain f s)) (fst (drain f s)).
  Proof.
    induction f as [|f IH]; intros s; cbn [drain]; [apply R_nil|].
    pose proof (R_admit (length (waiting s)) s) as A. set (s0 := admit_waiting (length (waiting s)) s) in *.
    destruct (busy s0 || dead s0 || match dying s0 with Some _ => true | None => false end) eqn:F; [exact A|].
    destruct (queue s0) as [|msg q] eqn:Q; [exact A|].
    apply orb_false_iff in F as (F & DY). apply orb_false_iff in F as (B & D).
    assert (DY' : dying s0 = None) by (destruct (dying s0); [discriminate | reflexivity]).
    pose proof (R_front s0 msg q Q D B DY') as F1.
    destruct (handle_front (upd_queue s0 q (waiting s0)) msg) as [s1 o1].
    specialize (IH s1). destruct (drain f s1) as [s2 o2]. cbn [fst snd] in *.
    exact (R_app _ _ _ _ _ A (R_app _ _ _ _ _ F1 IH)).
  Qed.

  Lemma try_kill_rel s : R s (snd (try_kill s)) (fst (try_kill s)).
  Proof.
    unfold try_kill. destruct (dying s) eqn:DY; [|apply R_nil].
    destruct (busy s || dead s) eqn:F; [apply R_nil|].
    apply orb_false_iff in F as (B & D). apply R_kill; auto.
  Qed.

  Lemma settle_rel s : R s (snd (settle s)) (fst (settle s)).
  Proof.
    unfold settle.
    pose proof (try_kill_rel s) as K1. destruct (try_kill s) as [s1 o1].
    pose proof (drain_rel (S (length (queue s1) + length (waiting s1))) s1) as D2. destruct (drain _ s1) as [s2 o2].
    pose proof (try_kill_rel s2) as K3. destruct (try_kill s2) as [s3 o3].
    pose proof (R_fin s3) as F4. destruct (finish_unsubs s3) as [s4 o4]. cbn [fst snd] in *.
    exact (R_app _ _ _ _ _ K1 (R_app _ _ _ _ _ D2 (R_app _ _ _ _ _ K3 F4))).
  Qed.
End Compose.

(* the case of a state predicate J and a predicate P on single outputs; then also through step and run *)
Section Lift.
  Variables (J : st -> Prop) (P : out -> Prop).
  Hypothesis H_admit : forall f s, J s -> J (admit_waiting f s).
  Hypothesis H_front : forall s0 msg q, J s0 -> queue s0 = msg :: q -> dead s0 = false -> busy s0 = false -> dying s0 = None ->
    J (fst (handle_front (upd_queue s0 q (waiting s0)) msg)) /\ Forall P (snd (handle_front (upd_queue s0 q (waiting s0)) msg)).
  Hypothesis H_kill : forall s f, J s -> dying s = Some f -> busy s = false -> dead s = false ->
    J (fst (kill s f)) /\ Forall P (snd (kill s f)).
  Hypothesis H_fin : forall s, J s -> J (fst (finish_unsubs s)) /\ Forall P (snd (finish_unsubs s)).

  Lemma settle_lift s : J s -> J (fst (settle s)) /\ Forall P (snd (settle s)).
  Proof.
    revert s. apply (settle_rel (fun s o s' => J s -> J s' /\ Forall P o)).
    - intros s Js. split; [exact Js | constructor].
    - intros s1 o1 s2 o2 s3 A B J1. destruct (A J1) as (J2 & P1). destruct (B J2) as (J3 & P2).
      split; [exact J3 | apply Forall_app; auto].
    - intros f s Js. split; [apply H_admit, Js | constructor].
    - intros s0 msg q Q D B DY Js. apply H_front; auto.
    - intros s f DY B D Js. apply H_kill; auto.
    - intros s Js. apply H_fin, Js.
  Qed.

  Hypothesis H_apply : forall s e, J s -> J (fst (fst (apply s e))) /\ Forall P (snd (fst (apply s e))).

  Lemma step_lift s e : J s -> J (fst (fst (step s e))) /\ Forall P (snd (fst (step s e))).
  Proof.
    intros Js. unfold step. destruct (H_apply s e Js) as (J1 & P1). destruct (apply s e) as [[s1 o1] r]. cbn [fst snd] in *.
    destruct (settle_lift s1 J1) as (J2 & P2). destruct (settle s1) as [s2 o2]. cbn [fst snd] in *.
    split; auto. apply Forall_app; auto.
  Qed.

  Lemma run_lift es : forall s, J s -> J (fst (run s es)) /\ Forall (fun x => Forall P (fst x)) (snd (run s es)).
  Proof.
    induction es as [|e es IH]; intros s Js; [split; auto; constructor|].
    rewrite run_cons. cbn [fst snd]. destruct (step_lift s e Js) as (J1 & P1).
    destruct (IH _ J1) as (J2 & P2). split; auto.
  Qed.
End Lift.

Lemma settle_good s : Inv s -> Good s (fst (settle s)).
Proof.
  apply (settle_rel (fun s _ s' => Inv s -> Good s s')).
  - apply Good_refl.
  - intros s1 _ s2 _ s3 A B I1. eapply Good_trans; [exact (A I1) | exact B].
  - intros f s0. apply admit_waiting_good.
  - intros s0 msg q Q D _ _ I0.
    apply (handle_front_good s0 _ msg I0 D); [constructor; reflexivity | unfold qmsgs; st_simpl; rewrite Q; reflexivity].
  - intros s0 f _ _ _. apply kill_good.
  - apply finish_unsubs_good.
Qed.

Theorem step_good s e : Inv s -> Good s (fst (fst (step s e))).
Proof.
  intros I. unfold step.
  pose proof (apply_good s e I) as G1. destruct (apply s e) as [[s1 o1] r]. cbn [fst] in G1.
  pose proof (settle_good s1) as G2. destruct (settle s1) as [s2 o2]. cbn [fst] in *.
  eapply Good_trans; [exact G1|]. auto.
Qed.

Theorem step_inv s e : Inv s -> Inv (fst (fst (step s e))).
Proof. intros I. apply (step_good s e I). Qed.

Theorem init_inv idstr qc bc gate : Inv (init idstr qc bc gate).
Proof.
  constructor; cbn; auto; try discriminate; [apply InvC_empty | constructor].
Qed.

Theorem run_good es : forall s, Inv s -> Good s (fst (run s es)).
Proof.
  induction es as [|e es IH]; intros s I; [apply Good_refl; auto|].
  rewrite run_cons. cbn [fst]. eapply Good_trans; [apply step_good; auto|]. auto.
Qed.

Theorem run_inv es s : Inv s -> Inv (fst (run s es)).
Proof. intros I. apply (run_good es s I). Qed.

Lemma run_app_snd s es1 es2 : snd (run s (es1 ++ es2)) = snd (run s es1) ++ snd (run (fst (run s es1)) es2).
Proof.
  revert s. induction es1 as [|e es1 IH]; intros s; [reflexivity|].
  rewrite <- app_comm_cons, !run_cons. cbn [fst snd]. rewrite IH. reflexivity.
Qed.

Lemma run_length s es : length (snd (run s es)) = length es.
Proof. revert s. induction es as [|e es IH]; intros s; [reflexivity|]. rewrite run_cons. cbn [snd length]. rewrite IH. reflexivity. Qed.

Lemma run_nth s es e rest :
  nth_error (snd (run s (es ++ e :: rest))) (length es) =
  Some (snd (fst (step (fst (run s es)) e)), snd (step (fst (run s es)) e)).
Proof.
  rewrite run_app_snd, nth_error_app2; rewrite run_length; [|lia]. rewrite Nat.sub_diag, run_cons. reflexivity.
Qed.
