(* Proofs about Model/ClientShutdown.v (C09).
   Two invariants of `step VNow`, each proved label by label from what the label writes: `cinv` ties the positions of
   the three tasks to the channel close_tx, the front channel and the recorded reason; `kinv` says what a caller can
   have observed.  From them: the cause is recorded before the front channel closes, the callers' own two steps
   after the shutdown, the measure `mu` (progress), the states in which pending calls wait (VLateDrop) or do not
   wait (VNow) for the transport's close(), the range arithmetic of the frame handler, and the ping layer (its
   runs project to runs of `step`; the inactivity cause needs a stale tick). *)
From JV Require Import Base.Bytes Base.Dec Base.Utf8 Json.Json Json.JsonSer Json.JsonParse Json.JsonWf Model.Wire Model.ClientMgr Model.ClientShutdown.
From JV Require Import Proofs.JsonFacts.
From JV Require Import Proofs.ClientDispatchFacts.

Lemma alookup_aremove_same (h : N) (l : list (N * cpc)) : alookup N.eqb h (aremove N.eqb h l) = None.
Proof. exact (ClientDispatchFacts.alookup_aremove_same N.eqb Neqb_ok h l). Qed.

Lemma get_set s h k c : get_c (set_c s k c) h = if N.eqb h k then Some c else get_c s h.
Proof.
  unfold get_c, set_c, aset. cbn [callers set_callers alookup]. destruct (N.eqb h k) eqn:E; [reflexivity|].
  apply (alookup_aremove_other N.eqb Neqb_ok). intros ->. rewrite N.eqb_refl in E. discriminate E.
Qed.

Lemma get_set_same s h c : get_c (set_c s h c) h = Some c.
Proof. rewrite get_set, N.eqb_refl. reflexivity. Qed.

Lemma get_set_ne s h k x c : get_c s h = Some c -> get_c s k <> Some c -> get_c (set_c s k x) h = Some c.
Proof.
  intros G D. rewrite get_set. destruct (N.eqb h k) eqn:X; [|exact G]. apply N.eqb_eq in X. subst k. contradiction.
Qed.

Definition sp_new (x : spc) : Prop :=
  match x with OCloseFront _ | OClosing _ | OReport _ => False | _ => True end.
Definition sp_closing (x : spc) : Prop := match x with SClosing | SExited => True | _ => False end.
Definition sp_sawclosed (x : spc) : Prop := match x with SCloseFront | SClosing | SExited => True | _ => False end.
Definition sp_reported (x : spc) : Prop :=
  match x with SAwaitClosed | SCloseFront | SClosing | SExited => True | _ => False end.
Definition rp_reported (x : rpc) : Prop := match x with RExiting | RExited => True | _ => False end.
Definition wp_after (x : wpc) : Prop := match x with WStored | WExited => True | _ => False end.

Lemma push_writes s r : exists a b, push s r = set_first (set_slot s a) b /\
  (a = slot s \/ a = Some r) /\ (b = h_first s \/ b = Some r).
Proof.
  unfold push. destruct (rx_closed s).
  - exists (slot s), (h_first s). split; [destruct s; reflexivity | auto].
  - eexists; eexists. split; [reflexivity|]. destruct (h_first s); auto.
Qed.

Lemma pop_writes s : exists q c, pop_to_mgr s = set_callers (set_fqueue s q) c.
Proof.
  unfold pop_to_mgr. destruct (fqueue s) as [|h q]; [exists (fqueue s), (callers s); destruct s; reflexivity|].
  destruct (is_queued _); eexists; eexists; reflexivity.
Qed.

Lemma get_c_set_sp s x h : get_c (set_sp s x) h = get_c s h. Proof. reflexivity. Qed.
Lemma get_c_set_rp s x h : get_c (set_rp s x) h = get_c s h. Proof. reflexivity. Qed.
Lemma get_c_set_wp s x h : get_c (set_wp s x) h = get_c s h. Proof. reflexivity. Qed.

Record cinv (s : state) : Prop := {
  c_new : sp_new (sp s);                                            (* VNow never enters the old epilogue *)
  c_front : front_closed s = true <-> sp_closing (sp s);
  c_sclosed : sp_sawclosed (sp s) -> rx_closed s = true;            (* the send task waited for the watcher *)
  c_rx : rx_closed s = true <-> wp s = WExited;
  (* the watcher goes on with a reason, or because the client was dropped or the clean-exit branch ran;
     an Ok(()) on its way to the watcher has one of these two origins *)
  c_after : wp_after (wp s) -> reason s <> None \/ dropped s = true \/ h_recvend s = true;
  c_got : wp s = WGot None -> dropped s = true \/ h_recvend s = true;
  c_slot : slot s = Some None -> dropped s = true \/ h_recvend s = true;
  c_srep : sp s = SReport None -> rx_closed s = true \/ dropped s = true;
  c_rrep : rp s = RReport None -> rx_closed s = true \/ h_recvend s = true;
  (* the first report is in the buffer, then with the watcher, then it is the reason *)
  c_reason : forall c, reason s = Some c -> wp_after (wp s) /\ h_first s = Some (Some c);
  c_wait : wp s = WWait -> (slot s = None /\ h_first s = None) \/ (exists r, slot s = Some r /\ h_first s = Some r);
  c_gotf : forall r, wp s = WGot r -> h_first s = Some r;
  (* while the watcher waits, the report of a task that has reported stays in the buffer *)
  c_past : wp s = WWait -> sp_reported (sp s) \/ rp_reported (rp s) -> slot s <> None
}.

(* E : enabled _ s l = true, taken apart: its conjuncts, and for each position, buffer or caller entry it inspects
   the one value under which the label is enabled, as an equation named after what it is about:
   Esp : sp s = _, Erp : rp s = _, Ewp : wp s = _, Eslot : slot s = _, Ecaller : get_c s _ = _ (Eq otherwise) *)
Ltac enab E :=
  unfold enabled, sp_is_loop, rp_is_loop, sp_exited, rp_exited, can_push, is_none in E;
  repeat match goal with
  | H : _ && _ = true |- _ => apply andb_prop in H; destruct H
  | H : negb _ = true |- _ => apply negb_true_iff in H
  | H : _ || _ = true |- _ => apply orb_prop in H
  end;
  repeat match goal with
  | H : match ?x with _ => _ end = true |- _ =>
    let Q := lazymatch x with
             | sp _ => fresh "Esp" | rp _ => fresh "Erp" | wp _ => fresh "Ewp" | slot _ => fresh "Eslot"
             | get_c _ _ => fresh "Ecaller" | _ => fresh "Eq"
             end in
    destruct x eqn:Q; try discriminate H
  end.

Ltac fields := cbn [sp rp wp slot rx_closed reason front_closed fqueue callers dropped h_recvend h_first
  set_sp set_rp set_wp set_slot set_rx_closed set_reason set_front_closed set_fqueue set_callers set_dropped set_recvend set_first set_c].

(* what the effect of a label writes, as setters applied to s: push, pop_to_mgr and the branches of the effect *)
Ltac writes s :=
  try destruct (pop_writes s) as (?q & ?c & ->);
  repeat match goal with
  | |- context [push s ?r] => destruct (push_writes s r) as (?a & ?b & -> & ?Wa & ?Wb)
  | |- context [if ?b then _ else _] => destruct b eqn:?
  | |- context [match ?r with Some _ => _ | None => _ end] => destruct r eqn:?
  end.

Ltac known s := repeat match goal with Q : ?f s = _ |- context [?f s] => rewrite Q end.

Lemma cinv_callers s q c : cinv s -> cinv (set_callers (set_fqueue s q) c).
Proof. intros []. constructor; assumption. Qed.

(* The send task moves to x.  The fields of the invariant that speak of sp hold of x if x is like the old value
   under the predicate in question, or for the reason given. *)
Lemma cinv_set_sp s x : cinv s -> sp_new x ->
  (sp_closing x <-> sp_closing (sp s)) ->
  (sp_sawclosed x -> sp_sawclosed (sp s) \/ rx_closed s = true) ->
  (x = SReport None -> rx_closed s = true \/ dropped s = true) ->
  (sp_reported x -> sp_reported (sp s) \/ (wp s = WWait -> slot s <> None)) ->
  cinv (set_sp s x).
Proof.
  intros [] N F C R P. constructor; fields; try assumption.
  - rewrite F. assumption.
  - intro X. destruct (C X); auto.
  - intros W [X|X]; [|apply c_past0; auto]. destruct (P X) as [Y|Y]; [apply c_past0|]; auto.
Qed.

Lemma cinv_set_rp s x : cinv s ->
  (x = RReport None -> rx_closed s = true \/ h_recvend s = true) ->
  (rp_reported x -> rp_reported (rp s) \/ (wp s = WWait -> slot s <> None)) ->
  cinv (set_rp s x).
Proof.
  intros [] R P. constructor; fields; try assumption.
  intros W [X|X]; [apply c_past0; auto|]. destruct (P X) as [Y|Y]; [apply c_past0|]; auto.
Qed.

(* close_tx.send(r) while the buffer is free or the receiver gone; Ok(()) is sent only for a reason *)
Lemma cinv_push s r : cinv s -> can_push s = true ->
  (r = None -> rx_closed s = true \/ dropped s = true \/ h_recvend s = true) -> cinv (push s r).
Proof.
  intros C E R. unfold push. unfold can_push in E. destruct (rx_closed s) eqn:X; [exact C|].
  rewrite orb_false_r in E. destruct (slot s) eqn:SL; [discriminate E|]. destruct C.
  constructor; fields; try assumption.
  - intro H. injection H as ->. destruct (R eq_refl) as [A|A]; [congruence | exact A].
  - intros c H. destruct (c_reason0 c H) as [A B]. rewrite B. split; [exact A | reflexivity].
  - intro W. right. exists r. destruct (c_wait0 W) as [[_ ->]|(r' & A & _)]; [split; reflexivity | congruence].
  - intros r' W. rewrite (c_gotf0 r' W). reflexivity.
  - discriminate.
Qed.

Lemma push_fills s r : cinv s -> wp s = WWait -> slot (push s r) <> None.
Proof. intros C W. unfold push. destruct (rx_closed s) eqn:X; [|discriminate]. apply (c_rx s C) in X. congruence. Qed.

Lemma cinv_read_break s r : cinv s ->
  (r = None -> rx_closed s = true \/ h_recvend s = true) -> cinv (set_rp s (RReport r)).
Proof.
  intros C R. apply cinv_set_rp; [exact C | intro H; injection H as ->; auto | intros []].
Qed.

Lemma cinv_wexit s : cinv s -> reason s <> None \/ dropped s = true \/ h_recvend s = true ->
  cinv (set_wp (set_rx_closed s) WExited).
Proof.
  intros [] A. constructor; fields; try assumption; try discriminate.
  - intros _. reflexivity.
  - split; reflexivity.
  - intros _. exact A.
  - left. reflexivity.
  - left. reflexivity.
  - intros c H. split; [exact I | apply c_reason0, H].
Qed.

Lemma cinv_step s l : cinv s -> cinv (step VNow s l).
Proof.
  intro C. unfold step. destruct (enabled VNow s l) eqn:E; [|exact C].
  pose proof (c_new s C) as N. pose proof (c_srep s C) as RS. pose proof (c_rrep s C) as RR.
  destruct l; cbn [effect after_break old_order no_wait]; enab E;
    try solve [destruct N]. (* the send task at a position of the old epilogue: N is False *)
  - (* LSendOk *) destruct (pop_writes s) as (q & c & ->). apply cinv_callers, C.
  - (* LSendFault *) destruct (pop_writes s) as (q & c & ->). apply cinv_set_sp; fields; known s;
      [apply cinv_callers, C | exact I | reflexivity | intros [] | discriminate | intros []].
  - (* LSNotice *) apply cinv_set_sp; known s; [exact C | exact I | reflexivity | intros [] | auto | intros []].
  - (* LSFrontNone *) apply cinv_set_sp; known s; [exact C | exact I | reflexivity | intros [] | auto | intros []].
  - (* LSReport *) assert (C' : cinv (push s r)).
    { apply cinv_push; [exact C | exact E |]. intros ->. destruct (RS eq_refl); auto. }
    pose proof (push_fills s r C) as F. destruct (push_writes s r) as (a & b & P & _). rewrite P in *.
    apply cinv_set_sp; fields; known s; [exact C' | exact I | reflexivity | intros [] | discriminate | auto].
  - (* LSClosedSeen *) apply cinv_set_sp; known s; [exact C | exact I | reflexivity | auto | discriminate | left; exact I].
  - (* LSCloseFront *) destruct C. rewrite Esp in *. constructor; fields; try assumption; try discriminate.
    split; [intros _; exact I | reflexivity].
  - (* LSTransportClosed *) apply cinv_set_sp; known s; [exact C | exact I | reflexivity | auto | discriminate | left; exact I].
  - (* LRecvFault *) apply cinv_read_break; [exact C | discriminate].
  - (* LPeerClose *) apply cinv_read_break; [exact C | discriminate].
  - (* LInactive *) apply cinv_read_break; [exact C | discriminate].
  - (* LBadFrame *) apply cinv_read_break; [exact C | discriminate].
  - (* LRecvEnd *) change (cinv (set_rp (set_recvend s) (RReport None))). apply cinv_read_break; [|auto].
    destruct C. constructor; fields; auto.
  - (* LAnswer *) apply (cinv_callers s (fqueue s)), C.
  - (* LRNotice *) apply cinv_read_break; auto.
  - (* LRReport *) assert (C' : cinv (push s r)).
    { apply cinv_push; [exact C | exact E |]. intros ->. destruct (RR eq_refl); auto. }
    pose proof (push_fills s r C) as F. destruct (push_writes s r) as (a & b & P & _). rewrite P in *.
    apply cinv_set_rp; fields; [exact C' | discriminate | auto].
  - (* LRExit *) apply cinv_set_rp; known s; [exact C | discriminate | left; exact I].
  - (* LWRecv *) destruct C. rewrite Ewp, Eslot in *. constructor; fields; try assumption; try discriminate.
    + rewrite c_rx0. split; discriminate.
    + intro H. injection H as ->. auto.
    + intros r' H. injection H as <-. destruct (c_wait0 eq_refl) as [[A _]|(r' & A & B)]; congruence.
  - (* LWDropped *) apply cinv_wexit; [exact C | right; left; exact E].
  - (* LWStore *) destruct C. rewrite Ewp in *. pose proof (c_gotf0 r eq_refl) as F.
    destruct r as [c|]; constructor; fields; try assumption; try discriminate.
    + rewrite c_rx0. split; discriminate.
    + intros _. left. discriminate.
    + intros c' H. injection H as <-. split; [exact I | exact F].
    + rewrite c_rx0. split; discriminate.
    + intros _. right. auto.
    + intros c H. destruct (c_reason0 c H) as [[] _].
  - (* LWExit *) apply cinv_wexit; [exact C|]. apply (c_after s C). rewrite Ewp. exact I.
  - (* LClientDrop *) destruct C. constructor; fields; auto.
  - (* LNewCall *) destruct (front_closed s); [apply (cinv_callers s (fqueue s)), C | apply cinv_callers, C].
  - (* LOnDisc *) apply (cinv_callers s (fqueue s)), C.
  - (* LCallerDropped, queued *) apply (cinv_callers s (fqueue s)), C.
  - (* LCallerDropped, in the manager *) apply (cinv_callers s (fqueue s)), C.
  - (* LReadErr *) apply (cinv_callers s (fqueue s)), C.
Qed.

(* the front channel is closed only after the watcher has dropped its receiver, and it does that only for a reason *)
Lemma closed_has_cause s : cinv s -> front_closed s = true ->
  reason s <> None \/ dropped s = true \/ h_recvend s = true.
Proof.
  intros C F. apply (c_front s C) in F.
  assert (X : sp_sawclosed (sp s)) by (destruct (sp s); try contradiction F; exact I).
  apply (c_sclosed s C), (c_rx s C) in X. apply (c_after s C). rewrite X. exact I.
Qed.

Record kinv (s : state) : Prop := {
  k_cause : forall h c, get_c s h = Some (CDone (OCause c)) -> reason s = Some c;
  k_ph : forall h, get_c s h = Some (CDone OPlaceholder) -> h_recvend s = true;
  k_drop : dropped s = true -> forall h c, get_c s h = Some c -> is_done c = true;
  k_gone : forall h, get_c s h = Some CGone -> dropped s = true
}.

Lemma kinv_ext s s' : callers s' = callers s -> reason s' = reason s -> dropped s' = dropped s ->
  (h_recvend s = true -> h_recvend s' = true) -> kinv s -> kinv s'.
Proof.
  intros C R D E [K1 K2 K3 K4]. unfold get_c in *. constructor; unfold get_c; rewrite ?C, ?R, ?D; eauto.
Qed.

Lemma kinv_setc s h x : kinv s ->
  (forall c, x = CDone (OCause c) -> reason s = Some c) ->
  (x = CDone OPlaceholder -> h_recvend s = true) ->
  (dropped s = true -> is_done x = true) -> x <> CGone -> kinv (set_c s h x).
Proof.
  intros [K1 K2 K3 K4] A B C NG. constructor; cbn [reason h_recvend dropped set_c set_callers].
  - intros k c. rewrite get_set. destruct (N.eqb k h); [intro H; inversion H; auto | apply K1].
  - intros k. rewrite get_set. destruct (N.eqb k h); [intro H; inversion H; auto | apply K2].
  - intros D k c. rewrite get_set. destruct (N.eqb k h); [intro H; inversion H; subst; auto | apply K3; exact D].
  - intros k. rewrite get_set. destruct (N.eqb k h); [intro H; inversion H; congruence | apply K4].
Qed.

Lemma kinv_pop s : kinv s -> kinv (pop_to_mgr s).
Proof.
  intro K. unfold pop_to_mgr. destruct (fqueue s) as [|h q]; [exact K|].
  assert (K' : kinv (set_fqueue s q)) by (apply (kinv_ext s); [reflexivity..|auto|exact K]).
  destruct (get_c s h) as [[]|] eqn:G; cbn [is_queued]; try exact K'.
  apply kinv_setc; [exact K'|discriminate|discriminate| |discriminate].
  (* a queued caller: the client has not been dropped *)
  intro D. exact (k_drop s K D h _ G).
Qed.

Lemma kinv_step s l : cinv s -> kinv s -> kinv (step VNow s l).
Proof.
  intros I K. unfold step. destruct (enabled VNow s l) eqn:E; [|exact K].
  (* most labels write neither the callers nor the reason nor the flags *)
  destruct l; cbn [effect after_break no_wait]; enab E;
    repeat match goal with |- context [push s ?r] => destruct (push_writes s r) as (?a & ?b & -> & _) end;
    try solve [apply (kinv_ext s); [reflexivity..|tauto|exact K]].
  - (* LSendOk *) apply kinv_pop; exact K.
  - (* LSendFault *) apply (kinv_ext (pop_to_mgr s)); [reflexivity..|tauto|apply kinv_pop; exact K].
  - (* LAnswer *) apply kinv_setc; [exact K|discriminate|discriminate|reflexivity|discriminate].
  - (* LWStore *) destruct r as [c|]; [|apply (kinv_ext s); [reflexivity..|tauto|exact K]].
    (* a cause is stored: no caller has seen one before *)
    destruct K as [K1 K2 K3 K4]. constructor; cbn [reason h_recvend dropped set_wp set_reason]; auto.
    intros h c' H. apply K1 in H. destruct (c_reason s I _ H) as [A _]. rewrite Ewp in A. contradiction.
  - (* LClientDrop *) destruct K as [K1 K2 K3 K4].
    assert (G : forall h x, get_c (set_dropped (set_callers s (map (fun hc : handle * cpc =>
                   (fst hc, if is_done (snd hc) then snd hc else CGone)) (callers s)))) h = Some x ->
                 is_done x = true /\ (x <> CGone -> get_c s h = Some x)).
    { intros h x. unfold get_c. cbn [callers set_dropped set_callers].
      rewrite (alookup_map_val N.eqb (fun c => if is_done c then c else CGone)).
      destruct (alookup N.eqb h (callers s)) as [c|]; cbn; [|discriminate].
      destruct (is_done c) eqn:D; intro H; inversion H; subst; split; auto; congruence. }
    constructor; cbn [reason h_recvend dropped set_dropped set_callers].
    + intros h c H. apply G in H as [_ H]. apply (K1 h). apply H. discriminate.
    + intros h H. apply G in H as [_ H]. apply (K2 h). apply H. discriminate.
    + intros _ h c H. apply G in H as [H _]. exact H.
    + reflexivity.
  - (* LNewCall *) destruct (front_closed s).
    + apply kinv_setc; [exact K|discriminate|discriminate|congruence|discriminate].
    + apply kinv_setc; [|discriminate|discriminate|cbn; congruence|discriminate].
      apply (kinv_ext s); [reflexivity..|tauto|exact K].
  - (* LOnDisc *) apply kinv_setc; [exact K|discriminate|discriminate|congruence|discriminate].
  - (* LCallerDropped, queued *) apply kinv_setc; [exact K|discriminate|discriminate| |discriminate].
    intro D. pose proof (k_drop s K D _ _ Ecaller) as X. subst. discriminate X.
  - (* LCallerDropped, in the manager *) apply kinv_setc; [exact K|discriminate|discriminate| |discriminate].
    intro D. pose proof (k_drop s K D _ _ Ecaller) as X. subst. discriminate X.
  - (* LReadErr *) assert (F : front_closed s = true) by assumption.
    destruct (get_c s h) as [[]|] eqn:G; try discriminate.
    apply kinv_setc; [exact K| | |reflexivity|discriminate].
    + intros c X. destruct (reason s); inversion X. reflexivity.
    + (* the placeholder: the front channel is closed without a reason *)
      intro X. destruct (reason s) eqn:R; [discriminate|].
      destruct (closed_has_cause s I F) as [A|[A|A]].
      * congruence.
      * pose proof (k_drop _ K A _ _ G). discriminate.
      * exact A.
Qed.

Lemma cinv_init : cinv init.
Proof.
  constructor; cbn; try tauto; try discriminate; try (intros; discriminate).
  - split; [discriminate | tauto].
  - split; discriminate.
Qed.

Lemma inv_run s tr : cinv s -> kinv s -> cinv (run VNow s tr) /\ kinv (run VNow s tr).
Proof.
  revert s. induction tr as [|l tr IH]; intros s C K; [split; assumption|].
  cbn. apply IH; [apply cinv_step; exact C | apply kinv_step; assumption].
Qed.

Lemma reach_inv tr : cinv (run VNow init tr) /\ kinv (run VNow init tr).
Proof. apply inv_run; [exact cinv_init | constructor; cbn; intros; discriminate]. Qed.

Lemma run_app old s a b : run old s (a ++ b) = run old (run old s a) b.
Proof. unfold run. apply fold_left_app. Qed.

Definition is_pending (c : cpc) : bool := match c with CQueued | CInMgr | CReadErr => true | _ => false end.

Lemma step_readerr s h c : get_c s h = Some CReadErr -> front_closed s = true -> reason s = Some c ->
  get_c (step VNow s (LReadErr h)) h = Some (CDone (OCause c)).
Proof.
  intros G F R. unfold step. cbn [enabled]. rewrite G, F. cbn [is_readerr andb effect]. rewrite R. apply get_set_same.
Qed.

Lemma finish_pending s h c x : sp_closing_b (sp s) = true -> rp s = RExited -> front_closed s = true -> reason s = Some c ->
  get_c s h = Some x -> is_pending x = true ->
  get_c (run VNow s [LCallerDropped h; LReadErr h]) h = Some (CDone (OCause c)).
Proof.
  intros S R F Rs G P. cbn [run fold_left].
  assert (E1 : step VNow s (LCallerDropped h) = match x with CReadErr => s | _ => set_c s h CReadErr end).
  { unfold step. cbn [enabled]. unfold sender_let_go, rp_exited. cbn [early_drop]. rewrite G, S, R.
    destruct x; try discriminate P; reflexivity. }
  rewrite E1. destruct x; try discriminate P.
  - apply step_readerr; [apply get_set_same | exact F | exact Rs].
  - apply step_readerr; [apply get_set_same | exact F | exact Rs].
  - apply step_readerr; assumption.
Qed.

Lemma finish_new s h c (l : label) : (l = LNewCall h \/ l = LOnDisc h) ->
  dropped s = false -> front_closed s = true -> reason s = Some c -> get_c s h = None ->
  get_c (run VNow s [l; LReadErr h]) h = Some (CDone (OCause c)).
Proof.
  intros L D F Rs G. cbn. unfold step at 2.
  assert (E : enabled VNow s l = true) by (destruct L; subst l; cbn; rewrite D, G; reflexivity).
  rewrite E.
  assert (X : effect VNow s l = set_c s h CReadErr) by (destruct L; subst l; cbn; rewrite ?F; reflexivity).
  rewrite X. apply step_readerr; [apply get_set_same | exact F | exact Rs].
Qed.

Local Open Scope N_scope.

(* each label moves at most one task, and that one down its list *)
Lemma mu_step (old : variant) s l :
  (mu (step old s l) <= mu s)%nat /\
  (is_proto l = true -> enabled old s l = true -> (mu (step old s l) < mu s)%nat).
Proof.
  unfold step, mu. destruct (enabled old s l) eqn:E; [|split; [lia | discriminate]].
  destruct l; cbn [effect is_proto]; unfold after_break.
  (* the position from which the label is enabled *)
  all: enab E.
  (* the positions after it *)
  all: writes s; fields; known s; cbn [mu_s mu_r mu_w].
  (* the traffic and front-end labels leave them alone; a protocol label lowers one *)
  all: first [split; [apply le_n | discriminate] |
              match goal with |- (?a <= ?b)%nat /\ _ =>
                assert (X : (a < b)%nat) by lia; split; [apply Nat.lt_le_incl, X | intros _ _; exact X] end].
Qed.

Lemma mu_zero s : mu s = 0%nat <-> all_exited s = true.
Proof.
  unfold mu, all_exited, sp_exited, rp_exited. split.
  - intro H. apply Nat.eq_add_0 in H as [H W]. apply Nat.eq_add_0 in H as [S R].
    destruct (sp s); try discriminate S. destruct (rp s); try discriminate R. destruct (wp s); try discriminate W. reflexivity.
  - destruct (sp s); try discriminate. destruct (rp s); try discriminate. destruct (wp s); try discriminate. reflexivity.
Qed.

(* 11 = 5 + 3 + 3, the lengths of the three tasks' lists of positions *)
Lemma mu_bound s : (mu s <= 11)%nat.
Proof.
  assert (mu_s (sp s) <= 5)%nat by (destruct (sp s); cbn; lia).
  assert (mu_r (rp s) <= 3)%nat by (destruct (rp s); cbn; lia).
  assert (mu_w (wp s) <= 3)%nat by (destruct (wp s); cbn; lia).
  unfold mu. lia.
Qed.

Lemma next_proto_sound old slow s l : next_proto old slow s = Some l -> is_proto l = true /\ enabled old s l = true.
Proof.
  unfold next_proto.
  repeat match goal with
  | |- context [if enabled old s ?x then _ else _] => destruct (enabled old s x) eqn:?; [intro H; inversion H; subst; split; [reflexivity | assumption]|]
  | |- context [if slow then _ else _] => destruct slow
  end; discriminate.
Qed.

(* no deadlock: once the shutdown has started, some protocol step is enabled until all three tasks are gone
   (the completion of the transport's close() counts as a protocol step: slow = false) *)
Lemma next_proto_none s : cinv s -> started s = true -> next_proto VNow false s = None -> all_exited s = true.
Proof.
  intros C St. unfold next_proto.
  repeat match goal with
  | |- context [if enabled VNow s ?x then _ else _] => destruct (enabled VNow s x) eqn:?; [discriminate|]
  end. intros _.
  pose proof (c_new s C) as N. pose proof (c_rx s C) as RX. pose proof (c_past s C) as P.
  unfold enabled, started, all_exited, sp_is_loop, rp_is_loop, sp_exited, rp_exited, can_push, is_none in *.
  (* LWStore and LWExit are disabled: the watcher waits or is gone *)
  destruct (wp s) eqn:W; try discriminate.
  - (* it waits: the buffer is empty (LWRecv) and the client alive (LWDropped), so a task that has left its loop can
       report, and one that has reported (c_past) would have filled the buffer: both are in their loops *)
    destruct (slot s) eqn:SL; try discriminate. destruct (dropped s) eqn:D; try discriminate.
    assert (X : rx_closed s = false) by (destruct (rx_closed s); [destruct RX as [A _]; discriminate (A eq_refl) | reflexivity]).
    rewrite X in *. cbn in *.
    destruct (sp s) eqn:S; try discriminate; try contradiction;
    try (exfalso; apply P; [reflexivity | left; exact I | reflexivity]).
    destruct (rp s) eqn:R; try discriminate;
    try (exfalso; apply P; [reflexivity | right; exact I | reflexivity]).
  - (* it is gone: close_tx is closed, every position but the last has an enabled label *)
    assert (X : rx_closed s = true) by (apply RX; reflexivity). rewrite X in *.
    destruct (sp s); cbn in *; rewrite ?orb_true_r in *; try discriminate; try contradiction.
    destruct (rp s); cbn in *; rewrite ?orb_true_r in *; try discriminate. reflexivity.
Qed.

Lemma lt_started s : (mu s < 11)%nat -> started s = true.
Proof.
  unfold mu, started, sp_is_loop, rp_is_loop.
  destruct (sp s); try reflexivity. destruct (rp s); try reflexivity. destruct (wp s); try reflexivity.
  cbn. lia.
Qed.

Lemma drive_exits fuel : forall s, cinv s -> started s = true -> (mu s <= fuel)%nat ->
  all_exited (drive VNow false fuel s) = true.
Proof.
  induction fuel as [|f IH]; intros s C St Le.
  - cbn. apply mu_zero. lia.
  - cbn. destruct (next_proto VNow false s) as [l|] eqn:N.
    + destruct (next_proto_sound _ _ _ _ N) as [P E].
      destruct (mu_step VNow s l) as [_ Lt]. specialize (Lt P E). pose proof (mu_bound s).
      apply IH; [apply cinv_step; exact C | apply lt_started; lia | lia].
    + apply next_proto_none; assumption.
Qed.

Theorem progress : forall tr, let s := run VNow init tr in
  started s = true ->
  (mu s <= 11)%nat /\
  (forall l, (mu (step VNow s l) <= mu s)%nat) /\
  (forall l, is_proto l = true -> enabled VNow s l = true -> (mu (step VNow s l) < mu s)%nat) /\
  (mu s = 0%nat <-> all_exited s = true) /\
  ((mu s > 0)%nat -> exists l, is_proto l = true /\ enabled VNow s l = true) /\
  all_exited (drive VNow false (mu s) s) = true.
Proof.
  intros tr s St. destruct (reach_inv tr) as [C _]. fold s in C.
  split; [apply mu_bound|]. split; [intro l; apply (mu_step VNow s l)|].
  split; [intro l; apply (mu_step VNow s l)|]. split; [apply mu_zero|].
  split; [|apply drive_exits; auto].
  intro Pos. destruct (next_proto VNow false s) as [l|] eqn:N.
  - exists l. eapply next_proto_sound; exact N.
  - apply (next_proto_none s C St) in N. apply mu_zero in N. lia.
Qed.

(* BEFORE the repair (VLateDrop: queue and manager handle dropped only when send_task returns): while the
   transport's close() has not completed, calls registered in the manager stay pending *)
Lemma blocked_step s l h : l <> LSTransportClosed -> l <> LClientDrop ->
  sp s = SClosing -> rp s <> RLoop -> get_c s h = Some CInMgr ->
  let s' := step VLateDrop s l in sp s' = SClosing /\ rp s' <> RLoop /\ get_c s' h = Some CInMgr.
Proof.
  intros N1 N2 S R G. unfold step. destruct (enabled VLateDrop s l) eqn:E; [|auto].
  destruct l; try congruence; cbn [effect after_break old_order no_wait].
  all: enab E.
  (* disabled: the labels of the send task (it is inside close()), those of the read task's loop, and LCallerDropped
     (VLateDrop: the sender lets go only when it has exited) *)
  all: try discriminate S.
  all: try contradiction (R eq_refl).
  all: try (unfold sender_let_go, sp_exited in *; cbn [early_drop] in *; rewrite S in *; discriminate).
  (* the others leave sp alone and rp outside its loop *)
  all: writes s; fields.
  all: split; [exact S|].
  all: split; [assumption || discriminate|].
  (* and the watcher's and the read task's do not write the callers *)
  all: try exact G.
  (* LNewCall, LOnDisc, LReadErr are about another caller *)
  all: apply get_set_ne; [exact G | intro X; unfold get_c in *; cbn [callers set_fqueue] in X; rewrite X in *; discriminate].
Qed.

Lemma blocked_run tr : forall s h, ~ In LSTransportClosed tr -> ~ In LClientDrop tr ->
  sp s = SClosing -> rp s <> RLoop -> get_c s h = Some CInMgr ->
  let s' := run VLateDrop s tr in sp s' = SClosing /\ get_c s' h = Some CInMgr.
Proof.
  induction tr as [|l tr IH]; intros s h N1 N2 S R G; [split; assumption|].
  cbn. destruct (blocked_step s l h) as (S'&R'&G'); auto.
  - intro X; apply N1; left; auto.
  - intro X; apply N2; left; auto.
  - apply IH; auto; intro X; [apply N1 | apply N2]; right; exact X.
Qed.

(* non-vacuity: such a state is reachable with the cause already recorded and the front channel closed *)
Definition tr_blocked : list label :=
  [LNewCall 1; LSendOk; LRecvFault; LRReport; LWRecv; LWStore; LWExit; LRExit; LSNotice; LSReport; LSClosedSeen; LSCloseFront].

Lemma blocked_witness : let s := run VLateDrop init tr_blocked in
  sp s = SClosing /\ rp s = RExited /\ get_c s 1 = Some CInMgr /\ reason s = Some CRecv /\ front_closed s = true.
Proof. vm_compute. repeat split. Qed.

(* AFTER the repair (VNow): nothing pending waits for the transport's close() *)
Definition live (c : cause) (h : handle) (s : state) : Prop :=
  cinv s /\ sp_closing_b (sp s) = true /\ rp s = RExited /\ reason s = Some c /\ front_closed s = true /\
  (get_c s h = Some CQueued \/ get_c s h = Some CInMgr \/ get_c s h = Some CReadErr \/ get_c s h = Some (CDone (OCause c))).

Lemma live_step c h s l : l <> LClientDrop -> live c h s -> live c h (step VNow s l).
Proof.
  intros NL (C & S & R & Rs & F & G).
  split; [apply cinv_step; exact C|].
  unfold step. destruct (enabled VNow s l) eqn:E; [|repeat split; assumption].
  pose proof (proj1 (c_reason s C c Rs)) as W.
  destruct l; try congruence; cbn [effect after_break old_order no_wait].
  all: enab E.
  (* disabled: the send task is closing or gone, the read task gone, the watcher past the store *)
  all: try discriminate S.
  all: try discriminate R.
  all: try solve [destruct W].
  (* LSTransportClosed and LWExit keep the control part, the front-end labels do not write it *)
  all: rewrite ?F, ?Rs; fields.
  all: split; [assumption || reflexivity|].
  all: split; [exact R|]. all: split; [exact Rs|]. all: split; [exact F|].
  all: try exact G.
  (* LNewCall, LOnDisc, LCallerDropped, LReadErr of caller h0: if it is h, its new entry is one of the four *)
  all: rewrite get_set; destruct (N.eqb h h0); [|exact G].
  all: first [right; right; left; reflexivity | right; right; right; reflexivity].
Qed.

Lemma live_run c h tr : forall s, ~ In LClientDrop tr -> live c h s -> live c h (run VNow s tr).
Proof.
  induction tr as [|l tr IH]; intros s N L; [exact L|].
  cbn. apply IH; [intro X; apply N; right; exact X|]. apply live_step; [intro X; apply N; left; auto | exact L].
Qed.

Lemma live_finish c h s : live c h s ->
  get_c (run VNow s [LCallerDropped h; LReadErr h]) h = Some (CDone (OCause c)).
Proof.
  intros (C & S & R & Rs & F & [G|[G|[G|G]]]).
  - exact (finish_pending s h c _ S R F Rs G eq_refl).
  - exact (finish_pending s h c _ S R F Rs G eq_refl).
  - exact (finish_pending s h c _ S R F Rs G eq_refl).
  - (* completed with the cause already: neither of its two labels is enabled *)
    cbn [run fold_left]. unfold step. cbn [enabled]. rewrite G. cbn [is_readerr andb]. rewrite G. exact G.
Qed.

(* a schedule for the OLD send_task epilogue (close the front channel, close the transport, then report): call 2 is
   made in the window.  The witness of C09_old_order_refuted_old and the run of C09_same_schedule_new_order. *)
Definition tr_old : list label := [LNewCall 1; LSendFault; LSCloseFront; LNewCall 2; LReadErr 2].

(* The arithmetic of the frame handler: ids are at most u64::MAX, so the id range of an array frame is too. *)
Definition id_ok (i : id) : Prop := match i with IdNum n => n <= u64_max | _ => True end.
Definition elem_ok (x : inmsg) : Prop := match x with IResp r => id_ok (rs_id r) | _ => True end.

Lemma parse_text_wf t v : parse_text t = Some v -> wf v = true.
Proof.
  unfold parse_text. destruct (parse_value _ _ t) as [[v' r]|] eqn:E; [|discriminate].
  destruct (skip_ws r); [|discriminate]. intro H; inversion H; subst.
  apply parse_value_wf in E; [tauto | unfold depth_limit; lia].
Qed.

Lemma parse_id_ok t i : parse_id t = Some i -> id_ok i.
Proof.
  unfold parse_id. destruct (parse_text t) as [v|] eqn:E; [|discriminate].
  apply parse_text_wf in E. destruct v as [| |[n|n|l]| | |]; cbn; try discriminate; intro H; inversion H; subst; cbn; auto.
  cbn in E. apply N.leb_le. exact E.
Qed.

Lemma parse_response_members_ok m r : parse_response_members m = Some r -> id_ok (rs_id r).
Proof.
  unfold parse_response_members.
  destruct (field_of k_id m) as [|v|]; try discriminate.
  destruct (parse_id v) as [i|] eqn:E; [|discriminate]. apply parse_id_ok in E.
  repeat match goal with
  | |- match ?x with _ => _ end = Some _ -> _ => destruct x; try discriminate
  end; intro H; inversion H; subst; exact E.
Qed.

Lemma try_reader_ok rd t x : try_reader rd t = Some x -> elem_ok x.
Proof.
  destruct rd; cbn [try_reader].
  - destruct (parse_response t) as [r|] eqn:E; [|discriminate]. intro H; inversion H; subst. cbn.
    unfold parse_response in E. destruct (object_members t); [|discriminate].
    eapply parse_response_members_ok; exact E.
  - destruct (parse_sub_notif k_result t) as [[[? ?] ?]|]; [|discriminate]. intro H; inversion H; subst. exact I.
  - destruct (parse_sub_notif k_error t) as [[[? ?] ?]|]; [|discriminate]. intro H; inversion H; subst. exact I.
  - destruct (parse_notification t) as [[? ?]|]; [|discriminate]. intro H; inversion H; subst. exact I.
Qed.

Lemma classify_with_ok rs t : elem_ok (classify_with rs t).
Proof.
  induction rs as [|rd rs IH]; cbn [classify_with]; [exact I|].
  destruct (try_reader rd t) as [x|] eqn:E; [eapply try_reader_ok; exact E | exact IH].
Qed.

Lemma classify_frame_ok raw ms : classify_frame raw = FArray ms -> Forall elem_ok ms.
Proof.
  rewrite classify_frame_now. destruct (drop_while is_ascii_ws raw) as [|c t]; [discriminate|].
  destruct (beqb c x7b); [discriminate|]. destruct (beqb c x5b); [|discriminate].
  destruct (raw_array raw) as [ts|]; [|discriminate]. intro H; inversion H; subst.
  apply Forall_forall. intros x Hx. apply in_map_iff in Hx as (t' & <- & _). apply classify_with_ok.
Qed.

Lemma id_as_number_ok i n : id_ok i -> id_as_number i = Some n -> n <= u64_max.
Proof.
  destruct i as [|m|s]; cbn; [discriminate | intros H E; inversion E; subst; exact H |].
  intros _. destruct (match s with [] => s | c :: t => if beqb c x2b then t else s end) as [|c t]; [discriminate|].
  destruct (all_digits (c :: t)); [|discriminate].
  destruct (digits_val (c :: t) <=? u64_max) eqn:E; [|discriminate].
  intro H. injection H as <-. apply N.leb_le. exact E.
Qed.

Definition rng_ok (r : option (N * N)) : Prop :=
  match r with Some (lo, hi) => lo <= hi /\ hi <= u64_max | None => True end.

Lemma array_loop_rng ms : forall s acc rng got s' rs rng' got',
  Forall elem_ok ms -> rng_ok rng ->
  array_loop s ms acc rng got = inl (s', rs, rng', got') -> rng_ok rng'.
Proof.
  induction ms as [|x ms IH]; intros s acc rng got s' rs rng' got' F R E.
  - cbn in E. inversion E; subst. exact R.
  - inversion F as [|? ? Fx Fms]; subst. cbn [array_loop] in E. destruct x.
    + destruct (id_as_number (rs_id r)) as [n|] eqn:En; [|discriminate].
      apply (id_as_number_ok _ _ Fx) in En.
      eapply IH; [exact Fms | | exact E].
      destruct rng as [[lo hi]|]; cbn in *; [|split; [apply N.le_refl | exact En]].
      destruct R as [R1 R2]. destruct (n <? lo) eqn:A, (hi <? n) eqn:B;
        try apply N.ltb_lt in A; try apply N.ltb_lt in B; try apply N.ltb_ge in A; try apply N.ltb_ge in B; lia.
    + eapply IH; eauto.
    + eapply IH; eauto.
    + eapply IH; eauto.
    + discriminate.
Qed.

Lemma frame_range_ok s raw lo hi : frame_range s (classify_frame raw) = Some (lo, hi) -> lo <= hi /\ hi <= u64_max.
Proof.
  unfold frame_range. destruct (classify_frame raw) as [|ms|] eqn:C; try discriminate.
  apply classify_frame_ok in C. rewrite array_run_now.
  destruct (array_loop s ms [] None false) as [[[[s' rs] [r|]] g]|[s' f]] eqn:E; cbn [loop_exit]; try discriminate.
  intro H; inversion H; subst. exact (array_loop_rng ms s [] None false _ _ _ _ C I E).
Qed.

(* handle_back computes `range.end + 1` exactly where range_end_now does *)
Lemma handle_back_range s fr lo hi : frame_range s fr = Some (lo, hi) ->
  exists s' rs, handle_back s fr =
    if hi =? u64_max then RFatal s' [] FNotPending else batch_response s' rs lo (hi + 1).
Proof.
  rewrite handle_back_now. unfold frame_range, handle_back_ref. destruct fr as [|ms|]; try discriminate.
  rewrite array_run_now.
  destruct (array_loop s ms [] None false) as [[[[s' rs] [[lo' hi']|]] g]|[s' f]]; cbn [loop_exit]; try discriminate.
  intro H; inversion H; subst. exists s', rs. reflexivity.
Qed.

(* the OLD code: `range.end += 1` unconditionally *)
Lemma old_overflow : range_end_old (ClientMgr.init false 4 4 false) (classify_frame overflow_frame) = Some 18446744073709551616
  /\ ~ (18446744073709551616 <= u64_max)
  /\ range_end_now (ClientMgr.init false 4 4 false) (classify_frame overflow_frame) = None
  /\ exists s', handle_back (ClientMgr.init false 4 4 false) (classify_frame overflow_frame) = RFatal s' [] FNotPending.
Proof.
  split; [vm_compute; reflexivity|]. split; [unfold u64_max; lia|]. split; [vm_compute; reflexivity|].
  eexists. vm_compute. reflexivity.
Qed.

(* The ping layer: each of its labels stands for zero or one base label (base_of). *)
Lemma pstep_base old p l : pb (pstep old p l) = run old (pb p) (base_of old p l).
Proof.
  unfold pstep, base_of. destruct (penabled old p l) eqn:E; [|reflexivity].
  destruct l as [l'|[|]| |stale]; cbn [peffect]; try reflexivity.
  unfold is_inactive. cbn [fst snd]. destruct (p_max _ <=? _); reflexivity.
Qed.

Lemma prun_base old tr : forall p, pb (prun old p tr) = run old (pb p) (base_trace old p tr).
Proof.
  induction tr as [|l tr IH]; intro p; [reflexivity|].
  cbn [prun fold_left base_trace]. change (fold_left (pstep old) tr (pstep old p l)) with (prun old (pstep old p l) tr).
  rewrite IH, pstep_base, run_app. reflexivity.
Qed.

Lemma prun_app old p a b : prun old p (a ++ b) = prun old (prun old p a) b.
Proof. unfold prun. apply fold_left_app. Qed.

Lemma pstep_max old p l : p_max (pstep old p l) = p_max p.
Proof.
  unfold pstep. destruct (penabled old p l); [|reflexivity].
  destruct l as [l'|[|]| |stale]; cbn [peffect]; try reflexivity.
  - destruct (is_received l'); reflexivity.
  - unfold is_inactive. destruct (_ <=? _); reflexivity.
Qed.

Lemma prun_max old tr : forall p, p_max (prun old p tr) = p_max p.
Proof. induction tr as [|l tr IH]; intro p; [reflexivity|]. cbn. unfold prun in IH. rewrite IH. apply pstep_max. Qed.

(* the count is cumulative: it grows by one with every stale tick the read task processes *)
Definition tick_weight (old : variant) (p : pstate) (l : plabel) : N :=
  match l with LInactTick true => if penabled old p l then 1 else 0 | _ => 0 end.

Lemma pstep_count old p l : p_count (pstep old p l) = p_count p + tick_weight old p l.
Proof.
  unfold pstep, tick_weight. destruct (penabled old p l) eqn:E.
  - destruct l as [l'|[|]| |[|]]; cbn [peffect]; rewrite ?N.add_0_r; try reflexivity.
    + destruct (is_received l'); reflexivity.
    + unfold is_inactive. destruct (_ <=? _); reflexivity.
    + unfold is_inactive. destruct (_ <=? _); reflexivity.
  - destruct l as [l'|[|]| |[|]]; rewrite ?N.add_0_r; reflexivity.
Qed.

Lemma prun_count old tr : forall p, p_count (prun old p tr) = p_count p + stale_ticks old p tr.
Proof.
  induction tr as [|l tr IH]; intro p; [cbn; rewrite N.add_0_r; reflexivity|].
  cbn [prun fold_left stale_ticks]. change (fold_left (pstep old) tr (pstep old p l)) with (prun old (pstep old p l) tr).
  rewrite IH, pstep_count. unfold tick_weight. lia.
Qed.

(* the results in flight: with the send task, the read task, the watcher, in the buffer of close_tx, as first report *)
Definition sp_res (x : spc) : option res :=
  match x with SReport r | OCloseFront r | OClosing r | OReport r => Some r | _ => None end.
Definition rp_res (x : rpc) : option res := match x with RReport r => Some r | _ => None end.
Definition wp_res (x : wpc) : option res := match x with WGot r => Some r | _ => None end.

Definition rclean (o : option res) : Prop := o <> Some (Some CInactive).
Record clean (s : state) : Prop := {
  cl_sp : rclean (sp_res (sp s));
  cl_rp : rclean (rp_res (rp s));
  cl_wp : rclean (wp_res (wp s));
  cl_slot : rclean (slot s);
  cl_first : rclean (h_first s);
  cl_reason : reason s <> Some CInactive
}.

Lemma clean_init : clean init.
Proof. constructor; discriminate. Qed.

(* a step moves results from one of these places to another; the new ones are not the inactivity cause *)
Lemma clean_step old s l : l <> LInactive -> clean s -> clean (step old s l).
Proof.
  intros NL [C1 C2 C3 C4 C5 C6]. unfold step. destruct (enabled old s l) eqn:E; [|constructor; assumption].
  destruct l; try congruence; cbn [effect]; unfold after_break.
  all: enab E; writes s.
  all: constructor; fields; known s; cbn [sp_res rp_res wp_res].
  (* a place that keeps its result, or takes that of another place *)
  all: try assumption.
  (* a place that is emptied, or takes a new result: Ok(()) or a cause other than the inactivity one *)
  all: try discriminate.
  (* LSReport, LRReport: the buffer and the first report, as they were or the task's result *)
  all: try (match goal with W : _ \/ _ |- rclean ?x => destruct W as [->| ->]; assumption end).
  (* LWStore: the reason is the cause the watcher holds *)
  intro H. apply C3. cbn. rewrite H. reflexivity.
Qed.

Lemma clean_run old tr : forall s, ~ In LInactive tr -> clean s -> clean (run old s tr).
Proof.
  induction tr as [|l tr IH]; intros s N C; [exact C|].
  cbn. apply IH; [intro X; apply N; right; exact X|]. apply clean_step; [intro X; apply N; left; auto | exact C].
Qed.

Lemma never_step old p l : 0 < p_max p -> tick_weight old p l = 0 -> p_count p = 0 -> clean (pb p) ->
  p_count (pstep old p l) = 0 /\ clean (pb (pstep old p l)).
Proof.
  intros M W Z C. split; [rewrite pstep_count, W, Z; reflexivity|].
  rewrite pstep_base. apply clean_run; [|exact C].
  unfold base_of. destruct (penabled old p l) eqn:E; [|intros []].
  destruct l as [l'|[|]| |[|]]; cbn [In]; try tauto.
  - intros [X|[]]. subst l'. discriminate E.
  - intros [X|[]]. discriminate X.
  - unfold tick_weight in W. rewrite E in W. discriminate W.
  - unfold is_inactive. cbn [snd set_active p_count p_max]. rewrite Z.
    destruct (p_max p <=? 0) eqn:L; [apply N.leb_le in L; lia | intros []].
Qed.

Lemma never_run old tr : forall p, 0 < p_max p -> stale_ticks old p tr = 0 -> p_count p = 0 -> clean (pb p) ->
  p_count (prun old p tr) = 0 /\ clean (pb (prun old p tr)).
Proof.
  induction tr as [|l tr IH]; intros p M S Z C; [split; assumption|].
  cbn [stale_ticks] in S. assert (W : tick_weight old p l = 0) by (unfold tick_weight; lia).
  assert (S' : stale_ticks old (pstep old p l) tr = 0) by lia.
  destruct (never_step old p l M W Z C) as [Z' C'].
  cbn [prun fold_left]. apply IH; auto. rewrite pstep_max. exact M.
Qed.

Lemma no_stale_label old tr : forall p, (forall l, In l tr -> l <> LInactTick true) -> stale_ticks old p tr = 0.
Proof.
  induction tr as [|l tr IH]; intros p H; [reflexivity|].
  cbn [stale_ticks]. rewrite IH; [|intros l' X; apply H; right; exact X].
  destruct l as [l'|[|]| |[|]]; try reflexivity. exfalso. apply (H (LInactTick true)); [left|]; reflexivity.
Qed.

Lemma regular_no_stale old tr : forall p, regular old p tr -> stale_ticks old p tr = 0.
Proof.
  induction tr as [|l tr IH]; intros p R; [reflexivity|]. destruct R as [R1 R2].
  cbn [stale_ticks]. rewrite (IH _ R2).
  destruct l as [l'|[|]| |[|]]; try reflexivity.
  cbn [N.add]. destruct (penabled old p (LInactTick true)) eqn:E; [|reflexivity].
  destruct (R1 true eq_refl eq_refl) as [A T]. cbn in T. rewrite A in T. discriminate T.
Qed.

Lemma started_loop s : started s = false <-> sp s = SLoop /\ rp s = RLoop /\ wp s = WWait /\ dropped s = false.
Proof.
  unfold started, sp_is_loop, rp_is_loop. split.
  - intro H. apply orb_false_elim in H as [H D]. apply orb_false_elim in H as [H W]. apply orb_false_elim in H as [S R].
    destruct (sp s); try discriminate S. destruct (rp s); try discriminate R. destruct (wp s); try discriminate W. auto.
  - intros (-> & -> & -> & ->). reflexivity.
Qed.

Lemma quiet_step s l : started (step VNow s l) = false ->
  started s = false /\ h_first (step VNow s l) = h_first s /\ h_recvend (step VNow s l) = h_recvend s.
Proof.
  unfold step. destruct (enabled VNow s l) eqn:E; [|tauto].
  rewrite !started_loop.
  destruct l; cbn [effect after_break old_order no_wait].
  all: enab E; writes s; fields; intros (S & R & W & D).
  (* a protocol step leaves its task outside the loop, the drop of the client sets the flag *)
  all: try discriminate.
  (* the other labels write none of these fields *)
  all: auto.
Qed.

Lemma quiet_run tr : forall s, started (run VNow s tr) = false ->
  started s = false /\ h_first (run VNow s tr) = h_first s /\ h_recvend (run VNow s tr) = h_recvend s.
Proof.
  induction tr as [|l tr IH]; intros s H; [auto|].
  cbn [run fold_left] in *. destruct (IH _ H) as (A & B & C). destruct (quiet_step s l A) as (A' & B' & C').
  unfold run in *. split; [exact A'|]. split; congruence.
Qed.

Lemma up_state tr : let s := run VNow init tr in started s = false ->
  sp s = SLoop /\ rp s = RLoop /\ wp s = WWait /\ slot s = None /\ rx_closed s = false /\ reason s = None /\
  front_closed s = false /\ dropped s = false /\ h_first s = None /\ h_recvend s = false.
Proof.
  intros s St. destruct (quiet_run tr init St) as (_ & F & E). cbn in F, E. fold s in F, E.
  destruct (reach_inv tr) as [C _]. fold s in C.
  apply started_loop in St as (S & R & W & D).
  assert (SL : slot s = None).
  { destruct (c_wait s C W) as [[A _]|[r [_ B]]]; [exact A | congruence]. }
  assert (RX : rx_closed s = false).
  { destruct (rx_closed s) eqn:X; [|reflexivity]. apply (c_rx s C) in X. congruence. }
  assert (RS : reason s = None).
  { destruct (reason s) as [c|] eqn:Q; [|reflexivity]. destruct (c_reason s C c Q) as [A _]. rewrite W in A. contradiction. }
  assert (FC : front_closed s = false).
  { destruct (front_closed s) eqn:X; [|reflexivity]. apply (c_front s C) in X. rewrite S in X. contradiction. }
  repeat split; assumption.
Qed.

Lemma drive_is_run old slow f : forall s, exists tr, drive old slow f s = run old s tr.
Proof.
  induction f as [|f IH]; intro s; [exists []; reflexivity|].
  cbn [drive]. destruct (next_proto old slow s) as [l|]; [|exists []; reflexivity].
  destruct (IH (step old s l)) as [tr E]. exists (l :: tr). exact E.
Qed.

(* the inactivity arm breaks in a connection that is up: the protocol runs to its end with that cause *)
Lemma inactive_drive s : sp s = SLoop -> rp s = RLoop -> wp s = WWait -> slot s = None -> rx_closed s = false ->
  reason s = None -> front_closed s = false -> dropped s = false -> h_first s = None ->
  let s1 := step VNow s LInactive in
  let s2 := drive VNow false (mu s1) s1 in
  rp s1 = RReport (Some CInactive) /\ all_exited s2 = true /\ sp s2 = SExited /\ rp s2 = RExited /\
  reason s2 = Some CInactive /\ h_first s2 = Some (Some CInactive) /\ front_closed s2 = true /\ dropped s2 = false /\
  h_recvend s2 = h_recvend s /\ callers s2 = callers s /\ fqueue s2 = fqueue s.
Proof.
  (* by evaluation: the nine hypotheses make every field that `enabled` reads on this run a constant (the protocol labels
     read neither the callers nor the front queue nor h_recvend, which stay variables), so `drive` computes: the ten
     protocol steps LRReport, LWRecv, LWStore, LWExit, LSNotice, LSReport, LSClosedSeen, LSCloseFront,
     LSTransportClosed, LRExit in the order of next_proto *)
  destruct s; cbn [ClientShutdown.sp ClientShutdown.rp ClientShutdown.wp ClientShutdown.slot ClientShutdown.rx_closed
                   ClientShutdown.reason ClientShutdown.front_closed ClientShutdown.dropped ClientShutdown.h_first].
  intros; subst. cbv. repeat split; reflexivity.
Qed.

(* the run of Example C09_inactivity_nonvacuous (Props/C09.v): a connection that is up after one stale tick *)
Definition tr_ping_up : list plabel :=
  [LBase (LNewCall 1); LBase LSendOk; LPingTick true; LInactTick true; LPong; LInactTick false; LBase (LNewCall 2); LBase (LNewCall 3);
   LBase LSendOk; LBase (LAnswer 2)].

