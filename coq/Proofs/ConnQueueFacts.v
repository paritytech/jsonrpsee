(* Facts about ONE connection's bounded outgoing queue (Model/ConnQueue.v), for ALL histories, capacities and numbers
   of subscriptions.  Two invariants, each shown to be preserved by every function of the model:
     `Inv` / `Spec`   what the frame sequence (popped ++ queued) may contain: every function extends it by a `Good`
                      increment; `run_spec` chains that over any list of steps from `init`;
     `Line`           the bound on the queue and the discipline of the line of waiting sends.

   The model interprets a LIST of accept steps.  `Line` holds for every list.  What `Inv` needs of the list is the
   boolean `head_ok`:
       ATableInsert* ; ASendToSink ; (no further ASendToSink, at most one ANotifyCall) ... ABuildSink
   i.e. the accepting response is handed to the queue BEFORE the subscribe call is notified and before the handler gets
   its sink, and once it is in the queue nothing in accept can wait or fail any more.  The lemmas about `Inv` take
   `head_ok steps = true` as a hypothesis; Props/C04.v instantiates them with the constant
   Gen/AcceptOrderGen.accept_steps and `accept_steps_head_ok`, which discharges the hypothesis BY COMPUTATION
   (`eq_refl`): it stops compiling when the order read from the source changes to one with ANotifyCall before
   ASendToSink.  `bounded`, the last lemma, is the first half of `Line` at that constant. *)
From JV Require Import Base.Bytes Base.Dec Model.Wire Model.AcceptSteps Gen.AcceptOrderGen Model.ConnQueue.
Local Arguments N.eqb : simpl never.
Local Arguments N.add : simpl never.
Local Arguments N.of_nat : simpl never.

Fixpoint ann (l : list frame) : list N :=
  match l with
  | [] => []
  | FSubOk _ sd :: l' => sd :: ann l'
  | _ :: l' => ann l'
  end.

Lemma ann_app l1 l2 : ann (l1 ++ l2) = ann l1 ++ ann l2.
Proof. induction l1 as [|f l1 IH]; [reflexivity|]. destruct f; cbn; rewrite ?IH; reflexivity. Qed.

Lemma in_ann l sd : In sd (ann l) <-> exists c, In (FSubOk c sd) l.
Proof.
  induction l as [|f l IH]; cbn.
  - split; [tauto | intros [c []]].
  - split.
    + intro H. assert (H' : (exists c, f = FSubOk c sd) \/ In sd (ann l)).
      { destruct f; cbn in H; auto. destruct H as [-> | H]; [left; eexists; reflexivity | auto]. }
      destruct H' as [[c ->] | H']; [exists c; left; reflexivity|].
      apply IH in H'. destruct H' as [c Hc]. exists c; right; exact Hc.
    + intros [c [-> | H]]; [cbn; left; reflexivity|].
      assert (In sd (ann l)) by (apply IH; exists c; exact H). destruct f; cbn; auto.
Qed.

Lemma frame_sid_cases f sd : frame_sid f = Some sd -> notif_sid f = Some sd \/ exists c, f = FSubOk c sd.
Proof. destruct f; cbn; intro H; try discriminate H; injection H as ->; eauto. Qed.

(* every notification of the increment d names a subscription announced in fs or earlier in d *)
Fixpoint nbl (fs d : list frame) : Prop :=
  match d with
  | [] => True
  | f :: d' => (forall sd, notif_sid f = Some sd -> In sd (ann fs)) /\ nbl (fs ++ [f]) d'
  end.

Lemma nbl_app d1 : forall fs d2, nbl fs d1 -> nbl (fs ++ d1) d2 -> nbl fs (d1 ++ d2).
Proof.
  induction d1 as [|f d1 IH]; intros fs d2 H1 H2; [rewrite app_nil_r in H2; exact H2|].
  destruct H1 as [Hf H1]. split; [exact Hf|]. apply IH; [exact H1|]. rewrite <- app_assoc. exact H2.
Qed.

Lemma nbl_split d : forall fs pre f post sd,
  nbl fs d -> d = pre ++ f :: post -> notif_sid f = Some sd -> In sd (ann (fs ++ pre)).
Proof.
  induction d as [|g d IH]; intros fs pre f post sd H E Hs; [destruct pre; discriminate|].
  destruct H as [Hg H]. destruct pre as [|p pre]; injection E as -> E.
  - rewrite app_nil_r. apply Hg, Hs.
  - change (p :: pre) with ([p] ++ pre). rewrite app_assoc. exact (IH _ _ _ _ _ H E Hs).
Qed.

Lemma filter_map_app {A B} (f : A -> option B) l1 l2 : filter_map f (l1 ++ l2) = filter_map f l1 ++ filter_map f l2.
Proof. induction l1 as [|a l1 IH]; cbn; [reflexivity|]. destruct (f a); cbn; rewrite IH; reflexivity. Qed.

Lemma nth_error_upd {A} (l : list A) g : forall h h',
  nth_error (upd l h g) h' = if Nat.eqb h' h then option_map g (nth_error l h) else nth_error l h'.
Proof.
  induction l as [|a l IH]; intros h h'.
  - destruct h, h'; cbn; try reflexivity. destruct (Nat.eqb h' h); reflexivity.
  - destruct h, h'; cbn; try reflexivity. apply IH.
Qed.

Fixpoint tail_ok (l : list accept_step) (notified : bool) : bool :=
  match l with
  | [] => false
  | ABuildSink :: _ => true
  | ASendToSink :: _ => false
  | ANotifyCall :: l' => negb notified && tail_ok l' true
  | ATableInsert :: l' => tail_ok l' notified
  end.
Fixpoint head_ok (l : list accept_step) : bool :=
  match l with
  | ATableInsert :: l' => head_ok l'
  | ASendToSink :: l' => tail_ok l' false
  | _ => false
  end.

Definition active (x : hstate) : bool := match x with HActive | HSendParked _ => true | _ => false end.
Definition needs (b : sub) : bool := s_armed b || active (s_h b).
Definition quiet (outs : list out) : Prop := forall h, filter_map (ok_item h) outs = [].

Section Facts.
Variables (cap : nat) (base : N).

Notation sid := (ConnQueue.sid base).
Notation room := (ConnQueue.room cap).
Notation wframe := (ConnQueue.wframe base).
Notation post := (ConnQueue.post cap base).
Notation forward := (ConnQueue.forward cap base).
Notation fire := (ConnQueue.fire cap base).
Notation call_answered := (ConnQueue.call_answered cap base).
Notation call_dropped := (ConnQueue.call_dropped cap base).
Notation do_return := (ConnQueue.do_return cap base).
Notation accept_fail := (ConnQueue.accept_fail cap base).
Notation accept_run := (ConnQueue.accept_run cap base).
Notation rej_finish := (ConnQueue.rej_finish cap base).
Notation resume := (ConnQueue.resume cap base).
Notation wake := (ConnQueue.wake cap base).
Notation fail_all := (ConnQueue.fail_all cap base).
Notation step_with := (ConnQueue.step_with cap base).
Notation run_with := (ConnQueue.run_with cap base).

Lemma sid_inj h h' : sid h = sid h' -> h = h'.
Proof. unfold ConnQueue.sid. intro H. apply Nat2N.inj. lia. Qed.

Lemma sid_eqb h h' : N.eqb (sid h) (sid h') = Nat.eqb h h'.
Proof.
  destruct (Nat.eqb h h') eqn:E.
  - apply Nat.eqb_eq in E. subst. apply N.eqb_refl.
  - apply N.eqb_neq. intro H. apply sid_inj in H. apply Nat.eqb_neq in E. contradiction.
Qed.

(* a waiter is harmless: its frame, should it get into the queue, is announced already; a parked accept has only
   steps left that cannot wait or fail *)
Definition wgood (a : list N) (k : wkind) : Prop :=
  match k with
  | KAcc _ _ tx rest => tail_ok rest (negb tx) = true
  | KRej _ _ _ => True
  | KSend h _ => In (sid h) a
  | KPlain f => match f with FSubOk _ _ | FNotif _ _ => False | FClosing sd _ _ => In sd a | _ => True end
  end.

Lemma wgood_mono a a' k : incl a a' -> wgood a k -> wgood a' k.
Proof. intros Hi. destruct k as [| | |f]; cbn; auto. destruct f; auto. Qed.

Record Inv (s : st) : Prop := mkInv {
  inv_sub : forall h b, get s h = Some b -> needs b = true -> In (sid h) (ann (frames s));
  inv_w : forall k, In k (waiters s) -> wgood (ann (frames s)) k
}.

Lemma Inv_same s s' :
  frames s' = frames s -> subs s' = subs s -> incl (waiters s') (waiters s) -> Inv s -> Inv s'.
Proof.
  intros Ef Es Hw [I1 I2]. constructor; rewrite Ef.
  - intros h b Hg. apply I1. unfold get in *. rewrite <- Es. exact Hg.
  - intros k Hk. apply I2, Hw, Hk.
Qed.

Lemma Inv_with_table t s : Inv s -> Inv (with_table t s).
Proof. apply Inv_same; [reflexivity | reflexivity | apply incl_refl]. Qed.

Lemma Inv_leave h s : Inv s -> Inv (leave h s).
Proof. apply Inv_same; [reflexivity | reflexivity |]. intros k Hk. apply filter_In in Hk. apply Hk. Qed.

Lemma frames_enq f s : frames (enq f s) = frames s ++ [f].
Proof. unfold frames, enq. cbn. apply app_assoc. Qed.

Lemma ann_enq_incl f s : incl (ann (frames s)) (ann (frames (enq f s))).
Proof. rewrite frames_enq, ann_app. apply incl_appl, incl_refl. Qed.

Lemma Inv_enq f s : Inv s -> Inv (enq f s).
Proof.
  intros [I1 I2]. constructor.
  - intros h b Hg Hn. apply ann_enq_incl. exact (I1 h b Hg Hn).
  - intros k Hk. eapply wgood_mono; [apply ann_enq_incl | apply I2, Hk].
Qed.

Lemma Inv_park k s : Inv s -> wgood (ann (frames s)) k -> Inv (park k s).
Proof.
  intros [I1 I2] Hk. constructor; [exact I1|].
  intros k' Hin. cbn in Hin. apply in_app_or in Hin. destruct Hin as [Hin | [<- | []]]; [apply I2, Hin | exact Hk].
Qed.

Lemma get_with_sub h g s h' :
  get (with_sub h g s) h' = if Nat.eqb h' h then option_map g (get s h) else get s h'.
Proof. unfold get, with_sub. cbn. apply nth_error_upd. Qed.

Lemma Inv_with_sub h g s :
  Inv s -> (forall b, get s h = Some b -> needs (g b) = true -> needs b = true \/ In (sid h) (ann (frames s))) ->
  Inv (with_sub h g s).
Proof.
  intros [I1 I2] Hg. constructor; [|exact I2].
  intros h' b' Hget Hn. change (frames (with_sub h g s)) with (frames s).
  rewrite get_with_sub in Hget. destruct (Nat.eqb h' h) eqn:E.
  - apply Nat.eqb_eq in E. subst h'. destruct (get s h) as [b|] eqn:Eb; [|discriminate].
    cbn in Hget. inversion Hget; subst b'. destruct (Hg b eq_refl Hn) as [H | H]; [eapply I1; eauto | exact H].
  - eapply I1; eauto.
Qed.

Lemma Inv_set_h_inactive h x s : active x = false -> Inv s -> Inv (with_sub h (set_h x) s).
Proof.
  intros Hx I. apply Inv_with_sub; [exact I|]. intros b _ Hn. left.
  unfold needs in *. cbn in Hn. rewrite Hx, orb_false_r in Hn. rewrite Hn. reflexivity.
Qed.

Lemma Inv_set_h_announced h x s : In (sid h) (ann (frames s)) -> Inv s -> Inv (with_sub h (set_h x) s).
Proof. intros Ha I. apply Inv_with_sub; auto. Qed.

Lemma active_announced s h b : Inv s -> get s h = Some b -> active (s_h b) = true -> In (sid h) (ann (frames s)).
Proof. intros I Eb Ha. apply (inv_sub _ I h b Eb). unfold needs. rewrite Ha. apply orb_true_r. Qed.

(* d is a good continuation of the frame sequence fs, reported as outs *)
Record Good (fs : list frame) (outs : list out) (d : list frame) : Prop := mkGood {
  g_nb : nbl fs d;
  g_fifo : forall h, filter_map (plain_item (sid h)) d = filter_map (ok_item h) outs;
  g_acc : forall h, In (sid h) (ann d) -> In (OAcc h ROk) outs
}.

(* r = (state, reports) is a possible outcome from s; s matters through its frames only *)
Definition Spec (s : st) (r : st * list out) : Prop :=
  Inv (fst r) /\ exists d, frames (fst r) = frames s ++ d /\ Good (frames s) (snd r) d.

Lemma Good_nil fs outs : quiet outs -> Good fs outs [].
Proof. intro Q. constructor; [exact Logic.I | intro h; symmetry; apply Q | intros h []]. Qed.

Lemma Good_app fs o1 o2 d1 d2 : Good fs o1 d1 -> Good (fs ++ d1) o2 d2 -> Good fs (o1 ++ o2) (d1 ++ d2).
Proof.
  intros [N1 F1 A1] [N2 F2 A2]. constructor.
  - apply nbl_app; assumption.
  - intro h. rewrite !filter_map_app, F1, F2. reflexivity.
  - intros h Hh. rewrite ann_app in Hh. apply in_app_or in Hh. apply in_or_app.
    destruct Hh as [Hh | Hh]; [left; apply A1 | right; apply A2]; exact Hh.
Qed.

Lemma Spec_src s0 s r : frames s0 = frames s -> Spec s0 r -> Spec s r.
Proof. unfold Spec. intros -> S. exact S. Qed.

Lemma Spec_grow s r : Spec s r -> incl (ann (frames s)) (ann (frames (fst r))).
Proof. intros [_ [d [E _]]]. rewrite E, ann_app. apply incl_appl, incl_refl. Qed.

Lemma Spec_quiet s s' outs : frames s' = frames s -> Inv s' -> quiet outs -> Spec s (s', outs).
Proof. intros E I Q. split; [exact I|]. exists []. split; [rewrite app_nil_r; exact E | apply Good_nil, Q]. Qed.

Lemma Spec_refl s outs : Inv s -> quiet outs -> Spec s (s, outs).
Proof. apply Spec_quiet. reflexivity. Qed.

(* nothing happens: the state (invariant I) is left alone and the reports written out hold no Ok send, which is
   seen by computation *)
Ltac unchanged I := apply Spec_refl; [exact I | intro; reflexivity].

Lemma Spec_bind s r1 r2 : Spec s r1 -> Spec (fst r1) r2 -> Spec s (fst r2, snd r1 ++ snd r2).
Proof.
  intros [_ [d1 [E1 G1]]] [I2 [d2 [E2 G2]]]. split; [exact I2|]. exists (d1 ++ d2). rewrite E1 in E2, G2. split.
  - rewrite app_assoc. exact E2.
  - exact (Good_app _ _ _ _ _ G1 G2).
Qed.

Lemma Spec_cons s r o : Spec s r -> quiet [o] -> Spec s (fst r, o :: snd r).
Proof.
  intros [I [d [E G]]] Q. split; [exact I|]. exists d. split; [exact E|].
  apply (Good_app _ [o] _ [] d); [apply Good_nil, Q | rewrite app_nil_r; exact G].
Qed.

Lemma Spec_enq s f outs :
  Inv s ->
  (forall sd, notif_sid f = Some sd -> In sd (ann (frames s))) ->
  (forall h, filter_map (plain_item (sid h)) [f] = filter_map (ok_item h) outs) ->
  (forall h, In (sid h) (ann [f]) -> In (OAcc h ROk) outs) ->
  Spec s (enq f s, outs).
Proof.
  intros I H1 H2 H3. split; [apply Inv_enq, I|]. exists [f]. split; [apply frames_enq|].
  constructor; [split; [exact H1 | exact Logic.I] | exact H2 | exact H3].
Qed.

Lemma plain_enq_spec s f outs :
  Inv s -> wgood (ann (frames s)) (KPlain f) -> quiet outs -> Spec s (enq f s, outs).
Proof.
  intros I Hw Q. apply Spec_enq; [exact I | | |].
  - intros sd Hs. destruct f; cbn in *; try discriminate; try contradiction. inversion Hs; subst. exact Hw.
  - intro h. rewrite Q. destruct f; cbn in *; try reflexivity; contradiction.
  - intros h Hh. destruct f; cbn in *; contradiction.
Qed.

Lemma forward_spec s f outs :
  Inv s -> wgood (ann (frames s)) (KPlain f) -> quiet outs -> Spec s (forward f s, outs).
Proof.
  intros I Hw Q. unfold ConnQueue.forward, ConnQueue.post.
  destruct (closed s); [exact (Spec_refl s outs I Q)|].
  destruct (room s); cbn [fst].
  - apply plain_enq_spec; auto.
  - apply Spec_quiet; [reflexivity | apply Inv_park; auto | exact Q].
Qed.

Lemma fire_spec s h cv outs :
  Inv s -> In (sid h) (ann (frames s)) -> quiet outs -> Spec s (fire h cv s, outs).
Proof.
  intros I Ha Q. unfold ConnQueue.fire. destruct cv; cbn [closing_frame]; [exact (Spec_refl s outs I Q) | |];
    apply forward_spec; auto.
Qed.

Lemma call_answered_spec s h success f :
  Inv s -> (success = true -> In (sid h) (ann (frames s))) -> Spec s (call_answered h success f s).
Proof.
  intros I Hs. unfold ConnQueue.call_answered. destruct (get s h) as [b|]; [|unchanged I].
  destruct success.
  - specialize (Hs eq_refl).
    assert (I0 : Inv (with_sub h set_armed s)) by (apply Inv_with_sub; auto).
    destruct (s_ret b) as [cv|].
    + apply (fire_spec (with_sub h set_armed s)); [exact I0 | exact Hs | intro; reflexivity].
    + apply Spec_quiet; [reflexivity | exact I0 | intro; reflexivity].
  - apply Spec_quiet; [reflexivity | apply Inv_set_h_inactive; [reflexivity | exact I] | intro; reflexivity].
Qed.

Lemma call_dropped_spec s h : Inv s -> Spec s (call_dropped h s).
Proof.
  intro I. unfold ConnQueue.call_dropped. destruct (get s h) as [b|]; [|unchanged I].
  apply (forward_spec (with_sub h (set_h HGone) s)); [apply Inv_set_h_inactive; [reflexivity | exact I] | exact Logic.I | intro; reflexivity].
Qed.

Lemma do_return_spec s h cv : Inv s -> Spec s (do_return h cv s).
Proof.
  intro I. unfold ConnQueue.do_return. destruct (get s h) as [b|] eqn:Eb; [|unchanged I].
  set (s1 := with_sub h (set_ret cv) s).
  assert (I1 : Inv s1).
  { apply Inv_with_sub; [exact I|]. intros b' _ Hn. left. unfold needs in *. cbn in Hn. rewrite orb_false_r in Hn. rewrite Hn. reflexivity. }
  set (s2 := match s_h b with HActive => with_table (rm h (table s1)) s1 | _ => s1 end).
  assert (E2 : frames s2 = frames s) by (unfold s2; destruct (s_h b); reflexivity).
  assert (I2 : Inv s2) by (unfold s2; destruct (s_h b); try exact I1; apply Inv_with_table, I1).
  assert (S3 : Spec s (if s_armed b then fire h cv s2 else s2, [])).
  { apply (Spec_src s2); [exact E2|]. destruct (s_armed b) eqn:Ea; [|unchanged I2].
    apply fire_spec; [exact I2 | | intro; reflexivity]. rewrite E2. apply (inv_sub _ I h b Eb). unfold needs. rewrite Ea. reflexivity. }
  destruct (s_h b); try exact S3.
  apply (Spec_bind _ _ _ S3). apply call_dropped_spec. apply S3.
Qed.

Lemma accept_fail_spec s h tx : Inv s -> Spec s (accept_fail h tx s).
Proof.
  intro I. unfold ConnQueue.accept_fail.
  assert (I1 : Inv (with_sub h (set_h HIdle) s)) by (apply Inv_set_h_inactive; auto).
  apply Spec_cons; [|intro; reflexivity]. destruct tx.
  - apply (call_dropped_spec (with_sub h (set_h HIdle) s)), I1.
  - apply Spec_quiet; [reflexivity | exact I1 | intro; reflexivity].
Qed.

Lemma rej_finish_spec s h c code : Inv s -> Spec s (rej_finish h c code s).
Proof.
  intro I. unfold ConnQueue.rej_finish. apply Spec_cons; [|intro; reflexivity].
  apply (call_answered_spec (with_sub h (set_h HIdle) s)); [apply Inv_set_h_inactive; auto | discriminate].
Qed.

Lemma rej_enq_spec s h c code : Inv s -> Spec s (rej_finish h c code (enq (FRejected c code) s)).
Proof.
  intro I. assert (S1 : Spec s (enq (FRejected c code) s, [])) by (apply plain_enq_spec; [exact I | exact Logic.I | intro; reflexivity]).
  exact (Spec_bind _ _ _ S1 (rej_finish_spec _ h c code (proj1 S1))).
Qed.

(* accept once its answer is in the queue: it runs to the end and reports Ok *)
Lemma accept_run_tail h c l : forall tx s,
  Inv s -> In (sid h) (ann (frames s)) -> tail_ok l (negb tx) = true ->
  Spec s (accept_run l h c tx s) /\ In (OAcc h ROk) (snd (accept_run l h c tx s)).
Proof.
  induction l as [|a l IH]; intros tx s I Ha Ht; [discriminate|].
  destruct a; cbn [tail_ok] in Ht; cbn [ConnQueue.accept_run].
  - discriminate.
  - destruct tx; [|discriminate]. cbn in Ht.
    pose proof (call_answered_spec s h true (FSubOk c (sid h)) I (fun _ => Ha)) as S1.
    destruct (IH false (fst (call_answered h true (FSubOk c (sid h)) s))) as [S2 Hin];
      [apply S1 | exact (Spec_grow _ _ S1 _ Ha) | exact Ht |].
    split; [apply (Spec_bind _ _ _ S1 S2) | cbn [snd]; apply in_or_app; right; exact Hin].
  - apply (IH tx (with_table (h :: rm h (table s)) s)); [apply Inv_with_table, I | exact Ha | exact Ht].
  - split; [|left; reflexivity]. apply Spec_quiet; [reflexivity | apply Inv_set_h_announced; auto | intro; reflexivity].
Qed.

(* the accepting response of h goes into the queue and accept runs on: the increment starts with the response and
   accept reports Ok in it *)
Lemma accept_resume s h c tx rest :
  Inv s -> tail_ok rest (negb tx) = true -> Spec s (accept_run rest h c tx (enq (FSubOk c (sid h)) s)).
Proof.
  intros I Ht.
  destruct (accept_run_tail h c rest tx (enq (FSubOk c (sid h)) s)) as [[I2 [d [E [N F A]]]] Hin];
    [apply Inv_enq, I | rewrite frames_enq, ann_app; apply in_or_app; right; left; reflexivity | exact Ht |].
  rewrite frames_enq in E, N. split; [exact I2|]. exists (FSubOk c (sid h) :: d). split.
  - rewrite E, <- app_assoc. reflexivity.
  - constructor.
    + split; [discriminate | exact N].
    + exact F.
    + intros h' [Hh | Hh]; [apply sid_inj in Hh; subst h'; exact Hin | apply A, Hh].
Qed.

Lemma accept_run_head h c l : forall s, Inv s -> head_ok l = true -> Spec s (accept_run l h c true s).
Proof.
  induction l as [|a l IH]; intros s I Hh; [discriminate|].
  destruct a; cbn [head_ok] in Hh; try discriminate; cbn [ConnQueue.accept_run].
  - unfold ConnQueue.post. destruct (closed s); [apply accept_fail_spec; exact I|].
    destruct (room s).
    + apply accept_resume; auto.
    + apply Spec_quiet; [reflexivity | apply Inv_set_h_inactive; [reflexivity | apply Inv_park; [exact I | exact Hh]] | intro; reflexivity].
  - apply (IH (with_table (h :: rm h (table s)) s)); [apply Inv_with_table, I | exact Hh].
Qed.

Lemma notif_enq_spec s h x o :
  Inv s -> In (sid h) (ann (frames s)) -> (o = OSend h x ROk \/ o = OTry h x ROk) ->
  Spec s (enq (FNotif (sid h) x) s, [o]).
Proof.
  intros I Ha Ho. apply Spec_enq; [exact I | | |].
  - intros sd Hs. inversion Hs; subst. exact Ha.
  - intro h'. cbn. rewrite sid_eqb. destruct Ho as [-> | ->]; cbn; destruct (Nat.eqb h h'); reflexivity.
  - intros h' [].
Qed.

Lemma wake_spec s : Inv s -> Spec s (wake s).
Proof.
  intro I. unfold ConnQueue.wake. destruct (waiters s) as [|k ws] eqn:Ew; [unchanged I|].
  destruct (negb (closed s) && room s); [|unchanged I].
  set (s0 := with_waiters ws s).
  assert (I0 : Inv s0).
  { apply (Inv_same s); [reflexivity | reflexivity | | exact I]. cbn. rewrite Ew. apply incl_tl, incl_refl. }
  assert (Hk : wgood (ann (frames s0)) k) by (apply (inv_w _ I); rewrite Ew; left; reflexivity).
  apply (Spec_src s0); [reflexivity|].
  destruct k as [h c tx rest | h c code | h x | f]; cbn [ConnQueue.resume ConnQueue.wframe].
  - apply accept_resume; auto.
  - apply rej_enq_spec, I0.
  - destruct (notif_enq_spec s0 h x (OSend h x ROk) I0 Hk (or_introl eq_refl)) as [I1 S1].
    split; [|exact S1]. apply Inv_set_h_announced; [apply ann_enq_incl, Hk | exact I1].
  - apply plain_enq_spec; [exact I0 | exact Hk | intro; reflexivity].
Qed.

Lemma fail_all_spec ws : forall s, Inv s -> (forall k, In k ws -> wgood (ann (frames s)) k) -> Spec s (fail_all ws s).
Proof.
  induction ws as [|k ws IH]; intros s I Hw; [unchanged I|].
  cbn [ConnQueue.fail_all].
  assert (S1 : Spec s (resume k false s)).
  { pose proof (Hw k (or_introl eq_refl)) as Hk.
    destruct k as [h c tx rest | h c code | h x | f]; cbn [ConnQueue.resume].
    - apply accept_fail_spec; auto.
    - apply rej_finish_spec; auto.
    - apply Spec_quiet; [reflexivity | apply Inv_set_h_announced; [exact Hk | exact I] | intro; reflexivity].
    - unchanged I. }
  apply (Spec_bind _ _ _ S1). apply IH; [apply S1|].
  intros k' Hk'. eapply wgood_mono; [exact (Spec_grow _ _ S1)|]. apply Hw. right. exact Hk'.
Qed.

(* a parked handler leaves the line for state y and returns in the same poll, or not *)
Lemma unpark_spec s h y ret : Inv s -> active y = false \/ In (sid h) (ann (frames s)) ->
  Spec s (match ret with
          | Some cv => do_return h cv (with_sub h (set_h y) (leave h s))
          | None => (with_sub h (set_h y) (leave h s), [])
          end).
Proof.
  intros I Hy. set (s1 := with_sub h (set_h y) (leave h s)).
  assert (I1 : Inv s1).
  { destruct Hy as [Hy | Hy]; [apply Inv_set_h_inactive | apply Inv_set_h_announced]; auto using Inv_leave. }
  apply (Spec_src s1); [reflexivity|]. destruct ret; [apply do_return_spec, I1 | unchanged I1].
Qed.

Lemma get_app_new s x h b :
  nth_error (subs s ++ [x]) h = Some b -> get s h = Some b \/ b = x.
Proof.
  unfold get. intro H. destruct (Nat.lt_ge_cases h (length (subs s))) as [Hl | Hl].
  - rewrite nth_error_app1 in H; auto.
  - rewrite nth_error_app2 in H; auto. destruct (h - length (subs s)); cbn in H; [inversion H; auto | destruct n; discriminate].
Qed.

Lemma step_spec steps s o : head_ok steps = true -> Inv s -> Spec s (step_with steps s o).
Proof.
  intros Hs I. destruct o as [c | h | h code | h x | h x | h ret | h cv | c h | c | |]; cbn [ConnQueue.step_with].
  - (* Subscribe: the new entry needs no announcement *)
    apply Spec_quiet; [reflexivity | | intro; reflexivity]. constructor; [|exact (inv_w _ I)].
    intros h b Hg Hn. unfold get in Hg. cbn in Hg. apply get_app_new in Hg.
    destruct Hg as [Hg | ->]; [exact (inv_sub _ I h b Hg Hn) | discriminate].
  - (* Acc *)
    destruct (get s h) as [b|]; [|unchanged I].
    destruct (s_h b); try unchanged I.
    apply accept_run_head; auto.
  - (* Rej *)
    destruct (get s h) as [b|]; [|unchanged I].
    destruct (s_h b); try unchanged I.
    unfold ConnQueue.post. destruct (closed s); [apply rej_finish_spec; exact I|].
    destruct (room s).
    + apply rej_enq_spec, I.
    + apply Spec_quiet; [reflexivity | apply Inv_set_h_inactive; [reflexivity | apply Inv_park; [exact I | exact Logic.I]] | intro; reflexivity].
  - (* Send *)
    destruct (get s h) as [b|] eqn:Eb; [|unchanged I].
    destruct (s_h b) eqn:Eh; try unchanged I.
    assert (Ha : In (sid h) (ann (frames s))) by (apply (active_announced s h b I Eb); rewrite Eh; reflexivity).
    destruct (closed s || negb (in_table h s)); [unchanged I|].
    unfold ConnQueue.post. destruct (closed s); [unchanged I|].
    destruct (room s).
    + apply notif_enq_spec; auto.
    + apply Spec_quiet; [reflexivity | apply Inv_set_h_announced; [exact Ha | apply Inv_park; [exact I | exact Ha]] | intro; reflexivity].
  - (* Try *)
    destruct (get s h) as [b|] eqn:Eb; [|unchanged I].
    destruct (s_h b) eqn:Eh; try unchanged I.
    destruct (closed s || negb (in_table h s)); [unchanged I|].
    destruct (room s); [|unchanged I].
    apply notif_enq_spec; auto. apply (active_announced s h b I Eb). rewrite Eh. reflexivity.
  - (* Cancel: a cancelled accept or reject drops the oneshot of the call unless accept has used it already *)
    destruct (get s h) as [b|] eqn:Eb; [|unchanged I].
    pose proof (unpark_spec s h HIdle ret I (or_introl eq_refl)) as S1.
    destruct (s_h b) as [|[|]| | |x| |] eqn:Eh; try unchanged I; cbv zeta.
    + apply (Spec_cons s (_, _)); [|intro; reflexivity]. apply (Spec_bind _ _ _ S1), call_dropped_spec, S1.
    + cbn [fst snd]. rewrite app_nil_r. apply Spec_cons; [exact S1 | intro; reflexivity].
    + apply (Spec_cons s (_, _)); [|intro; reflexivity]. apply (Spec_bind _ _ _ S1), call_dropped_spec, S1.
    + apply Spec_cons; [|intro; reflexivity]. apply unpark_spec; [exact I | right].
      apply (active_announced s h b I Eb). rewrite Eh. reflexivity.
  - (* Ret *)
    destruct (get s h) as [b|]; [|unchanged I].
    destruct (s_h b); cbn [parked_state]; try unchanged I;
      (apply Spec_cons; [apply do_return_spec, I | intro; reflexivity]).
  - (* Unsub *)
    apply (forward_spec (with_table (rm h (table s)) s)); [apply Inv_with_table, I | exact Logic.I | intro; reflexivity].
  - (* Call *)
    apply forward_spec; [exact I | exact Logic.I | intro; reflexivity].
  - (* W: the writer takes the oldest frame, which frees a place *)
    destruct (closed s); [unchanged I|].
    destruct (q s) as [|f q'] eqn:Eq; [unchanged I|].
    set (s0 := mkSt q' (popped s ++ [f]) false (waiters s) (subs s) (table s)).
    assert (E0 : frames s0 = frames s) by (unfold frames, s0; cbn; rewrite Eq, <- app_assoc; reflexivity).
    apply Spec_cons; [|intro; reflexivity]. apply (Spec_src s0); [exact E0|].
    apply wake_spec, (Inv_same s); [exact E0 | reflexivity | apply incl_refl | exact I].
  - (* Close *)
    set (s0 := mkSt (q s) (popped s) true [] (subs s) (table s)).
    apply Spec_cons; [|intro; reflexivity]. apply (Spec_src s0); [reflexivity|]. apply fail_all_spec; [|exact (inv_w _ I)].
    apply (Inv_same s); [reflexivity | reflexivity | intros k [] | exact I].
Qed.

Lemma run_spec steps : head_ok steps = true -> forall ops s, Inv s ->
  Spec s (fst (run_with steps s ops), concat (snd (run_with steps s ops))).
Proof.
  intros Hs. induction ops as [|o ops IH]; intros s I; [unchanged I|].
  cbn [ConnQueue.run_with]. cbv zeta. cbn [fst snd concat].
  pose proof (step_spec steps s o Hs I) as S1. exact (Spec_bind _ _ _ S1 (IH _ (proj1 S1))).
Qed.

Lemma connq_run_init steps ops : head_ok steps = true ->
  Good [] (concat (snd (run_with steps init ops))) (frames (fst (run_with steps init ops))).
Proof.
  intros Hs. assert (I : Inv init) by (constructor; [intros [|h] b Hg; discriminate Hg | intros k []]).
  destruct (run_spec steps Hs ops init I) as [_ [d [E G]]]. cbn [fst] in E. rewrite E. exact G.
Qed.

Lemma nothing_before_accept_response steps ops : head_ok steps = true ->
  forall pre f post sd, frames (fst (run_with steps init ops)) = pre ++ f :: post -> notif_sid f = Some sd ->
  exists c, In (FSubOk c sd) pre.
Proof.
  intros Hs pre f post sd E Hn. apply in_ann.
  exact (nbl_split _ [] pre f post sd (g_nb _ _ _ (connq_run_init steps ops Hs)) E Hn).
Qed.

Lemma never_accepted_is_silent steps ops h : head_ok steps = true ->
  ~ In (OAcc h ROk) (concat (snd (run_with steps init ops))) ->
  forall f, In f (frames (fst (run_with steps init ops))) -> frame_sid f <> Some (sid h).
Proof.
  intros Hs Hno f Hin Hf. apply Hno, (g_acc _ _ _ (connq_run_init steps ops Hs)), in_ann.
  destruct (frame_sid_cases f _ Hf) as [Hn | [c ->]]; [|exists c; exact Hin].
  apply in_split in Hin. destruct Hin as [pre [post E]].
  destruct (nothing_before_accept_response steps ops Hs pre f post _ E Hn) as [c Hc].
  exists c. rewrite E. apply in_or_app. left. exact Hc.
Qed.

Lemma fifo_per_subscription steps ops h : head_ok steps = true ->
  filter_map (plain_item (sid h)) (frames (fst (run_with steps init ops))) = oklog h (snd (run_with steps init ops)).
Proof. intros Hs. apply (g_fifo _ _ _ (connq_run_init steps ops Hs)). Qed.

(* the bound, and the line of waiting sends: somebody waits only while the channel is open and FULL (so one W wakes
   exactly the first of the line, and nobody is left waiting next to a free place); holds for every list of accept
   steps *)
Definition Line (s : st) : Prop :=
  length (q s) <= cap /\ (waiters s <> [] -> closed s = false /\ length (q s) = cap).

Lemma Line_same s s' : q s' = q s -> closed s' = closed s -> waiters s' = waiters s -> Line s -> Line s'.
Proof. unfold Line. intros -> -> ->. tauto. Qed.

(* a free place means that nobody waits *)
Lemma Line_enq f s : Line s -> room s = true -> Line (enq f s).
Proof.
  intros [L1 L2] Er. unfold ConnQueue.room in Er. apply Nat.ltb_lt in Er. split; cbn; rewrite app_length; cbn; [lia|].
  intro Hw. destruct (L2 Hw) as [_ Hl]. lia.
Qed.

Lemma Line_post k s : Line s -> Line (fst (post k s)).
Proof.
  intros L. unfold ConnQueue.post. destruct (closed s) eqn:Ec; [exact L|].
  destruct (room s) eqn:Er; cbn [fst]; [apply Line_enq; assumption|].
  unfold ConnQueue.room in Er. apply Nat.ltb_ge in Er. destruct L as [L1 _].
  split; cbn; [exact L1|]. intros _. split; [exact Ec | lia].
Qed.

Lemma Line_fire h cv s : Line s -> Line (fire h cv s).
Proof. intro L. unfold ConnQueue.fire. destruct (closing_frame (sid h) cv); [apply Line_post|]; exact L. Qed.

Lemma Line_with_sub h g s : Line s -> Line (with_sub h g s).
Proof. apply Line_same; reflexivity. Qed.

Lemma Line_with_table t s : Line s -> Line (with_table t s).
Proof. apply Line_same; reflexivity. Qed.

Lemma Line_call_answered h ok f s : Line s -> Line (fst (call_answered h ok f s)).
Proof.
  intro L. unfold ConnQueue.call_answered. destruct (get s h) as [b|]; [|exact L]. cbn [fst].
  destruct ok; [|apply Line_with_sub, L]. destruct (s_ret b); [apply Line_fire|]; apply Line_with_sub, L.
Qed.

Lemma Line_call_dropped h s : Line s -> Line (fst (call_dropped h s)).
Proof.
  intro L. unfold ConnQueue.call_dropped. destruct (get s h) as [b|]; [|exact L]. cbn [fst].
  apply Line_post, Line_with_sub, L.
Qed.

Lemma Line_do_return h cv s : Line s -> Line (fst (do_return h cv s)).
Proof.
  intro L. unfold ConnQueue.do_return. destruct (get s h) as [b|]; [|exact L].
  set (s1 := with_sub h (set_ret cv) s).
  assert (L1 : Line s1) by apply Line_with_sub, L.
  set (s2 := match s_h b with HActive => with_table (rm h (table s1)) s1 | _ => s1 end).
  assert (L2 : Line s2) by (unfold s2; destruct (s_h b); try exact L1; apply Line_with_table, L1).
  assert (L3 : Line (if s_armed b then fire h cv s2 else s2)) by (destruct (s_armed b); [apply Line_fire|]; exact L2).
  destruct (s_h b); try exact L3. apply Line_call_dropped, L3.
Qed.

Lemma Line_accept_fail h tx s : Line s -> Line (fst (accept_fail h tx s)).
Proof.
  intro L. unfold ConnQueue.accept_fail. cbn [fst]. destruct tx; [apply Line_call_dropped|]; apply Line_with_sub, L.
Qed.

Lemma Line_rej_finish h c code s : Line s -> Line (fst (rej_finish h c code s)).
Proof. intro L. unfold ConnQueue.rej_finish. cbn [fst]. apply Line_call_answered, Line_with_sub, L. Qed.

Lemma Line_accept_run h c l : forall tx s, Line s -> Line (fst (accept_run l h c tx s)).
Proof.
  induction l as [|a l IH]; intros tx s L; cbn [ConnQueue.accept_run]; [apply Line_accept_fail, L|].
  destruct a.
  - pose proof (Line_post (KAcc h c tx l) s L) as Lp. destruct (post (KAcc h c tx l) s) as [s1 [| |]]; cbn [fst] in *.
    + apply Line_accept_fail, Lp.
    + apply IH, Lp.
    + apply Line_with_sub, Lp.
  - destruct tx; [|apply Line_accept_fail, L]. cbn [fst]. apply IH, Line_call_answered, L.
  - apply IH, Line_with_table, L.
  - apply Line_with_sub, L.
Qed.

Lemma Line_resume k ok s : Line s -> Line (fst (resume k ok s)).
Proof.
  intro L. destruct k; cbn [ConnQueue.resume].
  - destruct ok; [apply Line_accept_run | apply Line_accept_fail]; exact L.
  - apply Line_rej_finish, L.
  - apply Line_with_sub, L.
  - exact L.
Qed.

Lemma Line_fail_all ws : forall s, Line s -> Line (fst (fail_all ws s)).
Proof. induction ws as [|k ws IH]; intros s L; cbn [ConnQueue.fail_all fst]; [exact L|]. apply IH, Line_resume, L. Qed.

Lemma Line_leave h s : Line s -> Line (leave h s).
Proof.
  intros [L1 L2]. split; [exact L1|]. cbn. intro Hw. apply L2. intro E. rewrite E in Hw. apply Hw. reflexivity.
Qed.

Lemma Line_unpark h y ret s : Line s ->
  Line (fst (match ret with
             | Some cv => do_return h cv (with_sub h (set_h y) (leave h s))
             | None => (with_sub h (set_h y) (leave h s), [])
             end)).
Proof. intro L. destruct ret; [apply Line_do_return|]; apply Line_with_sub, Line_leave, L. Qed.

Lemma Line_step steps s o : Line s -> Line (fst (step_with steps s o)).
Proof.
  intro L. destruct o as [c | h | h code | h x | h x | h ret | h cv | c h | c | |]; cbn [ConnQueue.step_with].
  - revert L. apply Line_same; reflexivity.
  - destruct (get s h) as [b|]; [|exact L]. destruct (s_h b); try exact L. apply Line_accept_run, L.
  - destruct (get s h) as [b|]; [|exact L]. destruct (s_h b); try exact L.
    pose proof (Line_post (KRej h (s_call b) code) s L) as Lp.
    destruct (post (KRej h (s_call b) code) s) as [s1 [| |]]; cbn [fst] in *;
      [apply Line_rej_finish, Lp | apply Line_rej_finish, Lp | apply Line_with_sub, Lp].
  - destruct (get s h) as [b|]; [|exact L]. destruct (s_h b); try exact L.
    destruct (closed s || negb (in_table h s)); [exact L|].
    pose proof (Line_post (KSend h x) s L) as Lp.
    destruct (post (KSend h x) s) as [s1 [| |]]; cbn [fst] in *; [exact Lp | exact Lp | apply Line_with_sub, Lp].
  - destruct (get s h) as [b|]; [|exact L]. destruct (s_h b); try exact L.
    destruct (closed s || negb (in_table h s)); [exact L|].
    destruct (room s) eqn:Er; [apply Line_enq; assumption | exact L].
  - destruct (get s h) as [b|]; [|exact L].
    destruct (s_h b) as [|[|]| | | | |]; cbn [fst]; try exact L; try apply Line_call_dropped; apply Line_unpark, L.
  - destruct (get s h) as [b|]; [|exact L].
    destruct (s_h b); cbn [parked_state fst]; try exact L; apply Line_do_return, L.
  - cbn [fst]. apply Line_post, Line_with_table, L.
  - cbn [fst]. apply Line_post, L.
  - destruct (closed s) eqn:Ec; [exact L|]. destruct (q s) as [|f q'] eqn:Eq; [exact L|]. cbn [fst].
    destruct L as [L1 L2]. unfold ConnQueue.wake. cbn [waiters closed].
    destruct (waiters s) as [|k ws] eqn:Ew.
    + cbn [fst]. split; cbn; [rewrite Eq in L1; cbn in L1; lia | intro H; contradiction H; reflexivity].
    + destruct L2 as [_ Hl]; [discriminate|]. rewrite Eq in Hl. cbn in Hl.
      assert (Er : room (mkSt q' (popped s ++ [f]) false (k :: ws) (subs s) (table s)) = true).
      { unfold ConnQueue.room. cbn. apply Nat.ltb_lt. lia. }
      rewrite Er. cbn [negb andb]. apply Line_resume. split; cbn; rewrite app_length; cbn; [lia|].
      intros _. split; [reflexivity | lia].
  - cbn [fst]. apply Line_fail_all. destruct L as [L1 _]. split; cbn; [exact L1 | intro H; contradiction H; reflexivity].
Qed.

Lemma Line_run steps ops : forall s, Line s -> Line (fst (run_with steps s ops)).
Proof.
  induction ops as [|o ops IH]; intros s L; cbn [ConnQueue.run_with]; cbv zeta; cbn [fst]; [exact L|].
  apply IH, Line_step, L.
Qed.

Lemma waits_only_when_full steps ops : Line (fst (run_with steps init ops)).
Proof. apply Line_run. split; cbn; [lia | intro H; contradiction H; reflexivity]. Qed.

End Facts.

(* checked by computation on the constant generated from the source *)
Lemma accept_steps_head_ok : head_ok accept_steps = true.
Proof. reflexivity. Qed.

Lemma bounded : forall cap base ops, length (q (fst (run cap base init ops))) <= cap.
Proof. intros cap base ops. exact (proj1 (waits_only_when_full cap base accept_steps ops)). Qed.
