(* C11: facts about Model/ConnGuard.v.  The central invariant ties the semaphore counter to the phases:
     s_avail s + served s = c_max c
   on every state of every trace under configuration c (`guard_inv`, `trace_counter`). *)
From Coq Require Import List NArith Bool Lia Arith.
From JV Require Import Gen.ConnGuardGen Model.ConnGuard.
Import ListNotations.
Local Open Scope N_scope.
#[local] Arguments N.add : simpl never.
#[local] Arguments N.sub : simpl never.
#[local] Arguments N.mul : simpl never.
#[local] Arguments N.ltb : simpl never.
#[local] Arguments N.leb : simpl never.
#[local] Arguments N.eqb : simpl never.

Lemma guard_upd_same : forall l i f, nth_error (upd l i f) i = option_map f (nth_error l i).
Proof. induction l as [|a t IH]; intros [|i] f; cbn; auto. Qed.

Lemma guard_upd_other : forall l i j f, i <> j -> nth_error (upd l i f) j = nth_error l j.
Proof.
  induction l as [|a t IH]; intros [|i] [|j] f H; cbn; auto; try congruence.
Qed.

Lemma upd_length : forall l i f, length (upd l i f) = length l.
Proof. induction l as [|a t IH]; intros [|i] f; cbn; auto. Qed.

Lemma count_app2 : forall l m, count_holding (l ++ m) = count_holding l + count_holding m.
Proof. induction l as [|x t IH]; intro m; cbn; [lia | rewrite IH; lia]. Qed.

Lemma count_app : forall l a, count_holding (l ++ [a]) = count_holding l + N.b2n (holding (a_phase a)).
Proof. intros l a. rewrite count_app2. cbn. destruct (holding _); cbn; lia. Qed.

Lemma count_upd : forall l i f x, nth_error l i = Some x ->
  count_holding (upd l i f) + N.b2n (holding (a_phase x)) = count_holding l + N.b2n (holding (a_phase (f x))).
Proof.
  induction l as [|a t IH]; intros [|i] f x H; cbn in *; try discriminate.
  - injection H as ->. unfold N.b2n. destruct (holding (a_phase x)), (holding (a_phase (f x))); lia.
  - specialize (IH i f x H). lia.
Qed.

Lemma total_upd_same : forall l i f, (forall x, a_handlers (f x) = a_handlers x) -> total_handlers (upd l i f) = total_handlers l.
Proof. induction l as [|a t IH]; intros [|i] f H; cbn; auto. - now rewrite H. - now rewrite IH. Qed.

Definition guard_inv (c : cfg) (s : state) : Prop := s_cfg s = c /\ s_avail s + served s = c_max c.

Lemma keep_served : forall s i f x, get s i = Some x -> holding (a_phase (f x)) = holding (a_phase x) ->
  served (keep s i f) = served s /\ s_avail (keep s i f) = s_avail s.
Proof.
  intros s i f x G H. unfold served, keep; cbn. pose proof (count_upd (s_att s) i f x G) as C. rewrite H in C.
  repeat split. lia.
Qed.

Lemma release_served : forall s i f x, get s i = Some x -> holding (a_phase x) = true -> holding (a_phase (f x)) = false ->
  served (release s i f) + 1 = served s /\ s_avail (release s i f) = s_avail s + 1.
Proof.
  intros s i f x G H1 H2. unfold served, release; cbn. pose proof (count_upd (s_att s) i f x G) as C.
  rewrite H1, H2 in C. cbn in C. repeat split. lia.
Qed.

(* `step` read as a relation.  Apart from try_acquire, a step overwrites one attempt that is live (it holds the permit, or
   a handler of it is still running), and either the permit stays where it is or it is dropped; the status written, if
   any, is never 429.  The guards carry the names they get in a case analysis (`destruct (guard_step_shape s a)`); the
   proofs below and in Props/C11.v use them. *)
Inductive guard_step_to (s : state) : act -> state -> Prop :=
| GIdle a : guard_step_to s a s
| GRefuse k (Z : s_avail s = 0) :
    guard_step_to s (Acquire k)
      {| s_cfg := s_cfg s; s_avail := s_avail s;
         s_att := s_att s ++ [{| a_kind := k; a_phase := PDone; a_status := status_refused; a_handlers := 0; a_pending := 0 |}] |}
| GAdmit k (Z : s_avail s <> 0) :
    guard_step_to s (Acquire k)
      {| s_cfg := s_cfg s; s_avail := s_avail s - 1;
         s_att := s_att s ++ [{| a_kind := k; a_phase := PCall; a_status := 0; a_handlers := 0; a_pending := 0 |}] |}
| GKeep a i x f (G : get s i = Some x) (Live : holding (a_phase x) = true \/ a_pending x <> 0)
    (Hf : holding (a_phase (f x)) = holding (a_phase x))
    (Sf : a_status (f x) = a_status x \/ a_status (f x) <> status_refused) : guard_step_to s a (keep s i f)
| GRelease a i x f (G : get s i = Some x) (Hx : holding (a_phase x) = true) (Hf : a_phase (f x) = PDone)
    (Sf : a_status (f x) = a_status x \/ a_status (f x) <> status_refused) : guard_step_to s a (release s i f).

Lemma guard_step_shape : forall s a, guard_step_to s a (step s a).
Proof.
  intros s a.
  destruct a as [k | i | i | i | i | i ok | i | i c | i | i]; unfold step;
    [destruct (N.eqb_spec (s_avail s) 0); [now apply GRefuse | now apply GAdmit] | ..];
    (destruct (get s i) as [x|] eqn:G; [| apply GIdle]).
  - destruct (a_phase x) eqn:P; try apply GIdle.
    destruct (c_ws (s_cfg s) && is_upgrade (a_kind x)).
    + destruct (a_kind x); [apply (GRelease _ _ _ _ _ G) | apply (GRelease _ _ _ _ _ G) | apply (GKeep _ _ _ _ _ G) |
                            apply (GRelease _ _ _ _ _ G)]; cbn; rewrite ?P; auto; right; discriminate.
    + destruct (c_http (s_cfg s) && _); [apply (GKeep _ _ _ _ _ G) | apply (GRelease _ _ _ _ _ G)]; cbn; rewrite ?P; auto.
      right. discriminate.
  - destruct (a_phase x) eqn:P, (a_kind x); try apply GIdle; apply (GKeep _ _ _ _ _ G); cbn; rewrite ?P; auto.
  - destruct (a_phase x) eqn:P; try apply GIdle. apply (GRelease _ _ _ _ _ G); cbn; rewrite ?P; auto.
    right. now destruct (a_kind x).
  - destruct (a_phase x) eqn:P; try apply GIdle. apply (GRelease _ _ _ _ _ G); cbn; rewrite ?P; auto.
  - destruct (a_phase x) eqn:P; try apply GIdle.
    destruct ok; [apply (GKeep _ _ _ _ _ G) | apply (GRelease _ _ _ _ _ G)]; cbn; rewrite ?P; auto.
  - destruct (N.eqb_spec (a_pending x) 0); [apply GIdle |]. apply (GKeep _ _ _ _ _ G); cbn; auto.
  - destruct (a_phase x) eqn:P; try apply GIdle. apply (GKeep _ _ _ _ _ G); cbn; rewrite ?P; auto.
  - destruct (a_phase x) as [| | | | c' |] eqn:P; try apply GIdle.
    destruct (shutdown_blocked c' x); [apply GIdle |]. apply (GRelease _ _ _ _ _ G); cbn; rewrite ?P; auto.
  - destruct (a_phase x) eqn:P; try apply GIdle. apply (GRelease _ _ _ _ _ G); cbn; rewrite ?P; auto.
Qed.

Lemma step_cfg : forall s a, s_cfg (step s a) = s_cfg s.
Proof. intros s a. destruct (guard_step_shape s a); reflexivity. Qed.

Lemma guard_step_inv : forall c s a, guard_inv c s -> guard_inv c (step s a).
Proof.
  intros c s a [E I]. split; [now rewrite step_cfg |]. destruct (guard_step_shape s a); try exact I.
  - unfold served in *; cbn. rewrite count_app. cbn. lia.
  - unfold served in *; cbn. rewrite count_app. cbn. lia.
  - destruct (keep_served s i f x G Hf) as (A & B). now rewrite A, B.
  - destruct (release_served s i f x G Hx) as (A & B); [now rewrite Hf |]. rewrite B. lia.
Qed.

Lemma guard_init_inv : forall c, guard_inv c (init c).
Proof. intro c. unfold guard_inv, served; cbn. split; [reflexivity | lia]. Qed.

Lemma states_from_guard_inv : forall c tr s, guard_inv c s -> Forall (guard_inv c) (states_from s tr).
Proof.
  induction tr as [|a t IH]; intros s I; cbn; constructor; auto. apply IH, guard_step_inv, I.
Qed.

Lemma last_state_in : forall tr s, In (run_from s tr) (states_from s tr).
Proof. induction tr as [|a t IH]; intro s; [left; reflexivity | right; apply (IH (step s a))]. Qed.

Lemma trace_counter : forall c tr s, In s (trace_states c tr) -> s_avail s + served s = c_max c.
Proof. intros c tr s H. pose proof (states_from_guard_inv c tr _ (guard_init_inv c)) as F. rewrite Forall_forall in F. apply (F s H). Qed.

Lemma run_counter : forall c tr, s_avail (run c tr) + served (run c tr) = c_max c.
Proof. intros c tr. apply (trace_counter c tr), last_state_in. Qed.

Lemma run_from_app : forall t1 t2 s, run_from s (t1 ++ t2) = run_from (run_from s t1) t2.
Proof. intros. unfold run_from. apply fold_left_app. Qed.

Lemma bound_run : forall c tr, served (run c tr) <= c_max c.
Proof. intros. pose proof (run_counter c tr). lia. Qed.

Lemma get_app_new : forall s a, nth_error (s_att s ++ [a]) (length (s_att s)) = Some a.
Proof. intros. rewrite nth_error_app2, Nat.sub_diag; auto. Qed.

Definition refused_ok (s : state) : Prop :=
  forall i x, get s i = Some x -> a_status x = status_refused -> a_phase x = PDone /\ a_handlers x = 0 /\ a_pending x = 0.

(* `get` reads only the attempts, which `keep` and `release` overwrite alike *)
Lemma get_touched : forall s s' i f j, s_att s' = upd (s_att s) i f ->
  get s' j = if Nat.eqb i j then option_map f (get s i) else get s j.
Proof.
  intros s s' i f j E. unfold get. rewrite E. destruct (Nat.eqb_spec i j) as [->|Ne]; [apply guard_upd_same | now apply guard_upd_other].
Qed.
Definition get_keep s i f j := get_touched s (keep s i f) i f j eq_refl.
Definition get_release s i f j := get_touched s (release s i f) i f j eq_refl.

Lemma get_touched_same : forall s s' i f x, s_att s' = upd (s_att s) i f -> get s i = Some x -> get s' i = Some (f x).
Proof. intros s s' i f x E H. now rewrite (get_touched s s' i f i E), Nat.eqb_refl, H. Qed.
Definition get_keep_same s i f x := get_touched_same s (keep s i f) i f x eq_refl.
Definition get_release_same s i f x := get_touched_same s (release s i f) i f x eq_refl.

Lemma get_acquire : forall (l : list attempt) a j x, nth_error (l ++ [a]) j = Some x ->
  (nth_error l j = Some x) \/ (j = length l /\ x = a).
Proof.
  intros l a j x H. destruct (Nat.lt_ge_cases j (length l)) as [L|L].
  - rewrite nth_error_app1 in H by exact L. now left.
  - rewrite nth_error_app2 in H by exact L. destruct (j - length l)%nat eqn:E; cbn in H.
    + injection H as <-. right. split; [lia | reflexivity].
    + destruct n; discriminate.
Qed.

Lemma live_not_refused : forall s i x, refused_ok s -> get s i = Some x ->
  holding (a_phase x) = true \/ a_pending x <> 0 -> a_status x <> status_refused.
Proof. intros s i x R G L E. destruct (R i x G E) as (P & _ & Q). rewrite P in L. now destruct L. Qed.

Lemma step_refused_ok : forall s a, refused_ok s -> refused_ok (step s a).
Proof.
  intros s a R. destruct (guard_step_shape s a); try exact R; intros j y Gy Sy.
  - unfold get in Gy; cbn in Gy. apply get_acquire in Gy as [Gy | [_ ->]]; [exact (R j y Gy Sy) | cbn; auto].
  - unfold get in Gy; cbn in Gy. apply get_acquire in Gy as [Gy | [_ ->]]; [exact (R j y Gy Sy) | discriminate Sy].
  - rewrite get_keep in Gy. destruct (Nat.eqb_spec i j) as [<- |]; [| exact (R j y Gy Sy)].
    rewrite G in Gy. injection Gy as <-. elim (live_not_refused s i x R G Live). destruct Sf; congruence.
  - rewrite get_release in Gy. destruct (Nat.eqb_spec i j) as [<- |]; [| exact (R j y Gy Sy)].
    rewrite G in Gy. injection Gy as <-. elim (live_not_refused s i x R G (or_introl Hx)). destruct Sf; congruence.
Qed.

Lemma run_from_refused_ok : forall tr s, refused_ok s -> refused_ok (run_from s tr).
Proof. induction tr as [|a t IH]; intros s R; [exact R | apply (IH (step s a)), step_refused_ok, R]. Qed.

Lemma run_refused_ok : forall c tr, refused_ok (run c tr).
Proof. intros. apply run_from_refused_ok. intros i x H. unfold get in H; cbn in H. destruct i; discriminate. Qed.

Lemma step_status_stable : forall s a i x, get s i = Some x -> a_status x <> status_refused ->
  exists y, get (step s a) i = Some y /\ a_status y <> status_refused.
Proof.
  intros s a j x0 G0 S0.
  assert (L : (j < length (s_att s))%nat) by (apply nth_error_Some; unfold get in G0; congruence).
  destruct (guard_step_shape s a).
  - eauto.
  - exists x0. split; [| exact S0]. unfold get; cbn. now rewrite nth_error_app1.
  - exists x0. split; [| exact S0]. unfold get; cbn. now rewrite nth_error_app1.
  - rewrite get_keep. destruct (Nat.eqb_spec i j) as [-> |]; [| eauto].
    rewrite G. eexists; split; [reflexivity |]. rewrite G0 in G. injection G as <-. destruct Sf; congruence.
  - rewrite get_release. destruct (Nat.eqb_spec i j) as [-> |]; [| eauto].
    rewrite G. eexists; split; [reflexivity |]. rewrite G0 in G. injection G as <-. destruct Sf; congruence.
Qed.

Lemma run_from_status_stable : forall tr s i x, get s i = Some x -> a_status x <> status_refused ->
  exists y, get (run_from s tr) i = Some y /\ a_status y <> status_refused.
Proof.
  induction tr as [|a t IH]; intros s i x G S; cbn; [eauto |].
  destruct (step_status_stable s a i x G S) as (y & Gy & Sy). eauto.
Qed.

Lemma terminated_served0 : forall l, forallb (fun x => negb (holding (a_phase x))) l = true -> count_holding l = 0.
Proof.
  induction l as [|a t IH]; cbn; auto. intro H. apply andb_true_iff in H as [A B]. rewrite (IH B).
  destruct (holding (a_phase a)); [discriminate | reflexivity].
Qed.

Definition fresh (k : kind) : attempt := {| a_kind := k; a_phase := PCall; a_status := 0; a_handlers := 0; a_pending := 0 |}.

Lemma acquire_many : forall ks s, N.of_nat (length ks) <= s_avail s ->
  s_avail (run_from s (map Acquire ks)) = s_avail s - N.of_nat (length ks) /\
  s_att (run_from s (map Acquire ks)) = s_att s ++ map fresh ks.
Proof.
  induction ks as [|k t IH]; intros s H.
  - cbn. rewrite app_nil_r. split; [lia | reflexivity].
  - cbn [map run_from fold_left]. cbn [length] in H.
    assert (E : step s (Acquire k) = {| s_cfg := s_cfg s; s_avail := s_avail s - 1; s_att := s_att s ++ [fresh k] |}).
    { unfold step. destruct (N.eqb_spec (s_avail s) 0); [lia | reflexivity]. }
    fold (run_from (step s (Acquire k)) (map Acquire t)). rewrite E.
    destruct (IH {| s_cfg := s_cfg s; s_avail := s_avail s - 1; s_att := s_att s ++ [fresh k] |}) as [A B]; [cbn; lia |].
    rewrite A, B. cbn [s_avail s_att length]. split; [lia | now rewrite <- app_assoc].
Qed.

(* from any state, these five actions end attempt i whatever phase it is in *)
Definition finish_acts (i : nat) : list act := [Dispatch i; DropFut i; Upgrade i false; WsEnd i CError; WsPeerGone i].

(* how far along the way out an attempt is (an attempt that does not exist is out) *)
Definition rank (p : phase) : nat :=
  match p with PCall => 0 | PHttp => 1 | PWsPending => 2 | PWsSession => 3 | PWsClosing _ => 4 | PDone => 5 end.
Definition rank_at (s : state) (i : nat) : nat := match get s i with Some x => rank (a_phase x) | None => 5 end.

(* the j-th of the finishing actions takes an attempt that is at least j steps along one step further, whatever the
   configuration and the kind of the request *)
Lemma finish_rank : forall s i j a, nth_error (finish_acts i) j = Some a -> (j <= rank_at s i)%nat ->
  (S j <= rank_at (step s a) i)%nat.
Proof.
  intros s i j a A R. unfold rank_at in *.
  destruct j as [|[|[|[|[|j]]]]]; [injection A as <- .. | destruct j; discriminate A].
  (* an absent attempt stays absent; an attempt in another phase than the one the action moves is left alone *)
  all: unfold step; (destruct (get s i) as [x|] eqn:G; [| rewrite G; cbn; lia]);
    destruct (a_phase x) eqn:P; cbn in R; try lia; try (rewrite G, P; cbn; lia).
  - (* Dispatch, from PCall *)
    destruct (c_ws (s_cfg s)), (c_http (s_cfg s)), (a_kind x); cbn;
      rewrite ?(get_release_same _ _ _ _ G), ?(get_keep_same _ _ _ _ G); cbn; lia.
  - (* DropFut, from PHttp *) rewrite (get_release_same _ _ _ _ G). cbn. lia.
  - (* Upgrade false, from PWsPending *) rewrite (get_release_same _ _ _ _ G). cbn. lia.
  - (* WsEnd, from PWsSession *) rewrite (get_keep_same _ _ _ _ G). cbn. lia.
  - (* WsPeerGone, from PWsClosing *) rewrite (get_release_same _ _ _ _ G). cbn. lia.
Qed.

Lemma not_blocked_without_pending : forall c x, a_pending x = 0 -> shutdown_blocked c x = false.
Proof. intros c x H. unfold shutdown_blocked. rewrite H. apply andb_false_r. Qed.

Lemma not_blocked_unless_stopped : forall c x, c <> CStopped -> shutdown_blocked c x = false.
Proof. intros c x H. unfold shutdown_blocked, gen_waits_for_pending. destruct c; try reflexivity. contradiction. Qed.

