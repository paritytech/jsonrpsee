(* The ORDER in which the readers are tried on an element of an array (the loop of the `[` arm of handle_recv_message), as read from the source
   (Gen/ClientDispatchGen.client_elem_dispatch), and the classifier it gives.  See Proofs/ClientDispatchFacts.v. *)
From JV Require Import Base.Bytes Base.Dec Model.Wire Model.ClientMgr Model.ClientDispatch Gen.ClientDispatchGen.

Lemma classify_elem_now t :
  classify_elem t = classify_with [TryResponse; TrySubResponse; TrySubError; TryNotification] t.
Proof. reflexivity. Qed.
