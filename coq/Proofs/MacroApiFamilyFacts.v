(* C17: the checkers behind the two statements about the compiled family, C17_by_name_keys_agree and
   C17_option_spellings_are_optional (Props/C17.v, where the generated constants are described and the checkers are
   run), and their soundness. *)
From Coq Require Import List Bool Lia.
From JV Require Import Base.Bytes Model.MacroApi Proofs.MacroApiFacts Gen.MacroApiGen.
Import ListNotations.

Fixpoint forall2b {A B : Type} (f : A -> B -> bool) (l : list A) (r : list B) : bool :=
  match l, r with
  | [], [] => true
  | x :: l', y :: r' => f x y && forall2b f l' r'
  | _, _ => false
  end.

Lemma forall2b_sound {A B : Type} (f : A -> B -> bool) (P : A -> B -> Prop) :
  forall l r, (forall x y, In x l -> f x y = true -> P x y) -> forall2b f l r = true -> Forall2 P l r.
Proof.
  induction l as [|x l IH]; intros [|y r] Hf H; cbn [forall2b] in H; try discriminate; [constructor|].
  apply andb_true_iff in H as [H1 H2]. constructor.
  - apply Hf; [left; reflexivity | exact H1].
  - apply IH; [|exact H2]. intros x' y' Hin. apply Hf. right. exact Hin.
Qed.

Lemma forallb_eq {A : Type} (f g : A -> bool) l : (forall x, f x = g x) -> forallb f l = forallb g l.
Proof. intro E. induction l as [|x l IH]; [reflexivity|]. cbn [forallb]. rewrite E, IH. reflexivity. Qed.

Fixpoint keys_eqb (a b : list bytes) : bool :=
  match a, b with
  | [], [] => true
  | x :: a', y :: b' => bytes_eqb x y && keys_eqb a' b'
  | _, _ => false
  end.

Lemma keys_eqb_eq a : forall b, keys_eqb a b = true -> a = b.
Proof.
  induction a as [|x a IH]; intros [|y b] H; cbn [keys_eqb] in H; try discriminate; [reflexivity|].
  apply andb_true_iff in H as [H1 H2]. apply bytes_eqb_eq in H1. subst. f_equal. apply IH, H2.
Qed.

Fixpoint disjointb (kss : list (list bytes)) : bool :=
  match kss with
  | [] => true
  | ks :: r => forallb (fun k => forallb (fun kq => negb (existsb (bytes_eqb k) kq)) r) ks && disjointb r
  end.

Lemma disjointb_sound kss : disjointb kss = true -> keys_disjoint kss.
Proof.
  induction kss as [|ks r IH]; intros D i j ki kj k Hi Hj Ki Kj.
  - destruct i; discriminate Hi.
  - cbn [disjointb] in D. apply andb_true_iff in D as [D0 D1]. rewrite forallb_forall in D0.
    assert (X : forall kq k', In kq r -> In k' ks -> In k' kq -> False).
    { intros kq k' Hq Hp Hk. specialize (D0 _ Hp). rewrite forallb_forall in D0. specialize (D0 _ Hq).
      apply negb_true_iff in D0. rewrite <- not_true_iff_false in D0. apply D0, existsb_exists.
      exists k'. split; [exact Hk | apply bytes_eqb_refl]. }
    destruct i as [|i], j as [|j]; cbn [nth_error] in Hi, Hj.
    + reflexivity.
    + exfalso. injection Hi as <-. exact (X kj k (nth_error_In _ _ Hj) Ki Kj).
    + exfalso. injection Hj as <-. exact (X ki k (nth_error_In _ _ Hi) Kj Ki).
    + f_equal. exact (IH D1 i j ki kj k Hi Hj Ki Kj).
Qed.

Lemma params_distinct_keys {ty : Type} (ps : list (param ty)) : params_distinct ps = disjointb (map keys_of ps).
Proof.
  induction ps as [|p r IH]; [reflexivity|]. cbn [params_distinct map disjointb]. rewrite IH. f_equal.
  induction (keys_of p) as [|k ks IHk]; [reflexivity|]. cbn [forallb]. rewrite IHk. f_equal.
  clear. induction r as [|q r IHr]; [reflexivity|]. cbn [map forallb]. rewrite IHr. reflexivity.
Qed.

(* one parameter against its generated row: the client's key is the model's p_name, the server's keys are the model's
   keys_of, and the client's key is among the server's *)
Definition key_row_ok (p : param jty) (kp : bytes * list bytes) : bool :=
  bytes_eqb (fst kp) (p_name p) && keys_eqb (snd kp) (keys_of p) && existsb (bytes_eqb (fst kp)) (snd kp).

(* one trait function: every row, and distinct keys unless its parameter names are `neg` (the family's labelled
   negative example) *)
Definition key_rows_ok (neg : list bytes) (ps : list (param jty)) (kps : list (bytes * list bytes)) : bool :=
  forall2b key_row_ok ps kps && (disjointb (map snd kps) || keys_eqb (map p_name ps) neg).

Definition family_keys_ok (neg : list bytes) (fam : list japi) (keys : list (list (list (bytes * list bytes)))) : bool :=
  forall2b (fun a ks => forall2b (key_rows_ok neg) (item_params a) ks) fam keys.

Definition row_agrees (p : param jty) (kp : bytes * list bytes) : Prop :=
  fst kp = p_name p /\ snd kp = keys_of p /\ In (fst kp) (snd kp).

Lemma key_row_ok_sound p kp : key_row_ok p kp = true -> row_agrees p kp.
Proof.
  unfold key_row_ok. intro H. apply andb_true_iff in H as [H H3]. apply andb_true_iff in H as [H1 H2].
  apply bytes_eqb_eq in H1. apply keys_eqb_eq in H2. apply existsb_exists in H3 as (k & Hk & E).
  apply bytes_eqb_eq in E. subst k. repeat split; assumption.
Qed.

Lemma key_rows_ok_sound neg ps kps : key_rows_ok neg ps kps = true ->
  Forall2 row_agrees ps kps /\ (map p_name ps = neg \/ keys_disjoint (map snd kps)).
Proof.
  unfold key_rows_ok. intro H. apply andb_true_iff in H as [H1 H2]. split.
  - apply (forall2b_sound key_row_ok); [|exact H1]. intros x y _. apply key_row_ok_sound.
  - apply orb_true_iff in H2 as [D|N]; [right; apply disjointb_sound, D | left; apply keys_eqb_eq, N].
Qed.

Lemma family_keys_ok_sound neg fam keys : family_keys_ok neg fam keys = true ->
  Forall2 (fun (a : japi) (ks : list (list (bytes * list bytes))) =>
    Forall2 (fun ps kps => Forall2 row_agrees ps kps /\ (map p_name ps = neg \/ keys_disjoint (map snd kps)))
            (item_params a) ks) fam keys.
Proof.
  unfold family_keys_ok. apply forall2b_sound. intros a ks _. apply forall2b_sound. intros ps kps _. apply key_rows_ok_sound.
Qed.

(* Gen.MacroApiGen.family_options: per parameter (path segments of the declared type as spelled, the decision of the rule
   the translator read from helpers.rs).  One row: the decision is the p_opt of the description (so it is what the model's
   positional decoder uses), and a standard spelling of Option is decided optional. *)
Definition opt_row_ok (p : param jty) (r : list bytes * bool) : bool :=
  Bool.eqb (snd r) (p_opt p) && implb (is_std_option (fst r)) (p_opt p).

Definition family_options_ok (fam : list japi) (rows : list (list (list (list bytes * bool)))) : bool :=
  forall2b (fun a rs => forall2b (forall2b opt_row_ok) (item_params a) rs) fam rows.

Lemma opt_row_ok_sound p r : opt_row_ok p r = true -> snd r = p_opt p /\ (is_std_option (fst r) = true -> p_opt p = true).
Proof.
  unfold opt_row_ok. intro H. apply andb_true_iff in H as [H1 H2]. apply Bool.eqb_prop in H1. split; [exact H1|].
  intro E. rewrite E in H2. exact H2.
Qed.

Lemma family_options_ok_sound fam rows : family_options_ok fam rows = true ->
  Forall2 (fun (a : japi) (rs : list (list (list bytes * bool))) =>
    Forall2 (fun (ps : list (param jty)) (r : list (list bytes * bool)) =>
      Forall2 (fun (p : param jty) (x : list bytes * bool) => snd x = p_opt p /\ (is_std_option (fst x) = true -> p_opt p = true)) ps r)
    (item_params a) rs) fam rows.
Proof.
  unfold family_options_ok. apply forall2b_sound. intros a rs _. apply forall2b_sound. intros ps r _.
  apply forall2b_sound. intros p x _. apply opt_row_ok_sound.
Qed.
