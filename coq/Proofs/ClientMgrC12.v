(* C12 (WebSocket / async client side): the batch fill loop of Model/ClientMgr.v is positional.
   `fill` is the loop of `batch_response`; `last_with k rs` is the last response of the reply that carries id k
   (after the code's own id normalisation `id_as_number`); `resps ms` are the responses of an array frame.
   Two facts carry the rest: slot j of the filled vector is the last response with id lo+j, else the placeholder
   (`fill_spec`, `filled_entry`; shared with the HTTP client, Proofs/HttpBatchFacts.v), and the read task on an array frame
   calls `batch_response` for exactly [least id, greatest id + 1) of its responses (`handle_back_array`). *)
From Coq Require Import List NArith ZArith Bool Lia Permutation.
From JV Require Import Base.Bytes Base.Dec Model.Wire Model.ClientMgr Model.HttpBatch.
From JV Require Import Proofs.ClientDispatchFacts.
Import ListNotations.
Local Open Scope N_scope.
Local Arguments N.add : simpl never.
Local Arguments N.sub : simpl never.
Local Arguments N.mul : simpl never.
Local Arguments N.ltb : simpl never.
Local Arguments N.leb : simpl never.
Local Arguments N.eqb : simpl never.

Definition rid_num (r : response) : option N := id_as_number (rs_id r).

Definition fill (lo : N) (rs slots : list response) : list response :=
  fold_left (fun acc r => match id_as_number (rs_id r) with
                          | Some n => set_nth (N.to_nat (n - lo)) r acc
                          | None => acc end) rs slots.

Definition has_id (k : N) (r : response) : bool :=
  match rid_num r with Some n => n =? k | None => false end.

Definition last_with (k : N) (rs : list response) : option response := find (has_id k) (rev rs).

Definition entry_of (lo : N) (rs : list response) (j : nat) : response :=
  match last_with (lo + N.of_nat j) rs with Some r => r | None => placeholder end.

Definition resps (ms : list inmsg) : list response :=
  flat_map (fun x => match x with IResp r => [r] | _ => [] end) ms.

Lemma nth_set_nth {A} (x d : A) : forall k l j,
  nth j (set_nth k x l) d = if (Nat.eqb j k && Nat.ltb k (length l))%bool then x else nth j l d.
Proof.
  induction k; intros [|y l] j; simpl.
  - destruct j; simpl; rewrite ?andb_false_r; reflexivity.
  - destruct j; reflexivity.
  - destruct j; simpl; rewrite ?andb_false_r; reflexivity.
  - destruct j; simpl; [reflexivity|]. rewrite IHk. reflexivity.
Qed.

Lemma fill_app lo rs1 rs2 slots : fill lo (rs1 ++ rs2) slots = fill lo rs2 (fill lo rs1 slots).
Proof. unfold fill. apply fold_left_app. Qed.

Lemma fill_length lo : forall rs slots, length (fill lo rs slots) = length slots.
Proof.
  induction rs as [|r rs IH]; intro slots; [reflexivity|].
  unfold fill in *. simpl. rewrite IH. destruct (id_as_number (rs_id r)); [apply set_nth_length | reflexivity].
Qed.

Lemma last_with_snoc k rs r : last_with k (rs ++ [r]) = if has_id k r then Some r else last_with k rs.
Proof. unfold last_with. rewrite rev_app_distr. reflexivity. Qed.

Lemma fill_spec lo d : forall rs slots,
  (forall r n, In r rs -> rid_num r = Some n -> lo <= n) ->
  forall j, (j < length slots)%nat ->
  nth j (fill lo rs slots) d = match last_with (lo + N.of_nat j) rs with Some r => r | None => nth j slots d end.
Proof.
  induction rs as [|r rs IH] using rev_ind; intros slots Hge j Hj; [reflexivity|].
  rewrite fill_app, last_with_snoc. unfold has_id.
  assert (Hge' : forall r n, In r rs -> rid_num r = Some n -> lo <= n).
  { intros r0 n0 Hin. apply Hge. apply in_or_app. now left. }
  specialize (IH slots Hge' j Hj).
  assert (Hr := Hge r). unfold rid_num in *.
  unfold fill at 1. simpl.
  destruct (id_as_number (rs_id r)) as [n|] eqn:En; [|exact IH].
  assert (Hn : lo <= n) by (apply Hr; [apply in_or_app; right; now left | reflexivity]).
  rewrite nth_set_nth, fill_length.
  destruct (n =? lo + N.of_nat j) eqn:E.
  - apply N.eqb_eq in E. subst n.
    replace (N.to_nat (lo + N.of_nat j - lo)) with j by lia.
    rewrite Nat.eqb_refl. simpl. apply Nat.ltb_lt in Hj. rewrite Hj. reflexivity.
  - apply N.eqb_neq in E.
    replace (Nat.eqb j (N.to_nat (n - lo))) with false; [exact IH|].
    symmetry. apply Nat.eqb_neq. lia.
Qed.

Lemma nth_repeat_ph j n : nth j (repeat placeholder n) placeholder = placeholder.
Proof. revert j; induction n; intros [|j]; simpl; auto. Qed.

Lemma find_has_id k l r : find (has_id k) l = Some r -> In r l /\ rid_num r = Some k.
Proof.
  intro H. apply find_some in H as [Hin Hh]. split; [exact Hin|].
  unfold has_id in Hh. destruct (rid_num r) as [n|]; [|discriminate]. apply N.eqb_eq in Hh. now subst.
Qed.

Lemma last_with_some k rs r : last_with k rs = Some r -> In r rs /\ rid_num r = Some k.
Proof. intro H. apply find_has_id in H as [H1 H2]. split; [now apply in_rev|exact H2]. Qed.

Lemma last_with_none k rs : last_with k rs = None -> forall r, In r rs -> rid_num r <> Some k.
Proof.
  intros H r Hin E. unfold last_with in H.
  assert (Hh := find_none _ _ H r). rewrite <- in_rev in Hh. specialize (Hh Hin).
  unfold has_id in Hh. rewrite E, N.eqb_refl in Hh. discriminate.
Qed.

Definition filled_of (lo : N) (n : nat) (rs : list response) : list response := fill lo rs (repeat placeholder n).

Lemma filled_length lo n rs : length (filled_of lo n rs) = n.
Proof. unfold filled_of. rewrite fill_length. apply repeat_length. Qed.

Lemma filled_entry lo n rs :
  (forall r k, In r rs -> rid_num r = Some k -> lo <= k) ->
  forall j, (j < n)%nat -> nth j (filled_of lo n rs) placeholder = entry_of lo rs j.
Proof.
  intros Hge j Hj. unfold filled_of, entry_of.
  rewrite (fill_spec lo placeholder rs _ Hge j) by (now rewrite repeat_length).
  rewrite nth_repeat_ph. reflexivity.
Qed.

Lemma batch_response_eq s rs lo hi h :
  alookup range_eqb (lo, hi) (batches (m s)) = Some h ->
  batch_response s rs lo hi =
  ROk (upd_m s (set_batches (m s) (aremove range_eqb (lo, hi) (batches (m s)))))
      (complete s h (CBatch (filled_of lo (N.to_nat (hi - lo)) rs))).
Proof. intro H. unfold batch_response. rewrite H. reflexivity. Qed.

Lemma batch_response_unknown s rs lo hi :
  alookup range_eqb (lo, hi) (batches (m s)) = None -> batch_response s rs lo hi = RFatal s [] FNotPending.
Proof. intro H. unfold batch_response. rewrite H. reflexivity. Qed.

(* witness data of C12_lower_bound_needed (Props/C12.v): a reply with an id below lo and a state in which the batch
   (lo, hi) of waiter h is pending.  (`batch_response` is only ever called with lo = the least id of rs.) *)
Definition resp_of (n : N) : response := {| rs_jsonrpc := true; rs_payload := PResult [x31]; rs_id := IdNum n |}.
Definition st_with_batch (lo hi h : N) : st :=
  upd_m (init false 4 4 false) (set_batches empty_mgr [((lo, hi), h)]).

Lemma find_unique {A} (p : A -> bool) r : forall l,
  (forall x, In x l -> p x = true -> x = r) -> In r l -> p r = true -> find p l = Some r.
Proof.
  induction l as [|a l IH]; intros Hu Hin Hp; [destruct Hin|]. simpl.
  destruct (p a) eqn:Ea.
  - f_equal. apply Hu; [now left|exact Ea].
  - apply IH; [intros x Hx; apply Hu; now right | | exact Hp].
    destruct Hin as [->|Hin]; [congruence|exact Hin].
Qed.

Lemma last_with_unique k rs r :
  NoDup (map rid_num rs) -> In r rs -> rid_num r = Some k -> last_with k rs = Some r.
Proof.
  intros Hnd Hin E. unfold last_with. apply find_unique.
  - intros x Hx Hp. apply in_rev in Hx. unfold has_id in Hp.
    destruct (rid_num x) as [n|] eqn:Ex; [|discriminate]. apply N.eqb_eq in Hp. subst n.
    apply (NoDup_map_inj_in rid_num rs); auto. congruence.
  - now apply in_rev in Hin.
  - unfold has_id. rewrite E. apply N.eqb_refl.
Qed.

Definition ids_of_range (lo : N) (n : nat) : list (option N) := map (fun j => Some (lo + N.of_nat j)) (seq 0 n).

Lemma ids_of_range_NoDup lo n : NoDup (ids_of_range lo n).
Proof.
  unfold ids_of_range. apply FinFun.Injective_map_NoDup; [|apply seq_NoDup].
  intros a b E. injection E. lia.
Qed.

Lemma in_ids_of_range lo n x : In x (ids_of_range lo n) <-> exists j, (j < n)%nat /\ x = Some (lo + N.of_nat j).
Proof.
  unfold ids_of_range. rewrite in_map_iff. split.
  - intros [j [E Hj]]. apply in_seq in Hj. exists j. split; [lia|now symmetry].
  - intros [j [Hj E]]. exists j. split; [now symmetry|]. apply in_seq. lia.
Qed.

Lemma filled_complete lo n rs :
  Permutation (map rid_num rs) (ids_of_range lo n) ->
  (forall r k, In r rs -> rid_num r = Some k -> lo <= k < lo + N.of_nat n) /\
  (forall j r, (j < n)%nat -> In r rs -> rid_num r = Some (lo + N.of_nat j) ->
     nth j (filled_of lo n rs) placeholder = r) /\
  (forall j, (j < n)%nat ->
     exists r, In r rs /\ rid_num r = Some (lo + N.of_nat j) /\ nth j (filled_of lo n rs) placeholder = r) /\
  Permutation (filled_of lo n rs) rs.
Proof.
  intro Hp.
  assert (Hnd : NoDup (map rid_num rs)).
  { apply (Permutation_NoDup (Permutation_sym Hp)). apply ids_of_range_NoDup. }
  assert (Hin : forall r k, In r rs -> rid_num r = Some k -> lo <= k < lo + N.of_nat n).
  { intros r k Hin E. assert (Hi : In (rid_num r) (ids_of_range lo n)).
    { apply (Permutation_in _ Hp). now apply in_map. }
    apply in_ids_of_range in Hi as [j [Hj Ej]]. rewrite E in Ej. injection Ej. lia. }
  assert (Hge : forall r k, In r rs -> rid_num r = Some k -> lo <= k).
  { intros r k H1 H2. apply (Hin r k H1 H2). }
  assert (Hex : forall j, (j < n)%nat -> exists r, In r rs /\ rid_num r = Some (lo + N.of_nat j)).
  { intros j Hj. assert (Hi : In (Some (lo + N.of_nat j)) (map rid_num rs)).
    { apply (Permutation_in _ (Permutation_sym Hp)). apply in_ids_of_range. eauto. }
    apply in_map_iff in Hi as [r [E Hi]]. eauto. }
  assert (Hpos : forall j r, (j < n)%nat -> In r rs -> rid_num r = Some (lo + N.of_nat j) ->
                 nth j (filled_of lo n rs) placeholder = r).
  { intros j r Hj Hi E. rewrite (filled_entry lo n rs Hge j Hj). unfold entry_of.
    now rewrite (last_with_unique _ rs r Hnd Hi E). }
  split; [exact Hin|]. split; [exact Hpos|]. split.
  - intros j Hj. destruct (Hex j Hj) as [r [Hi E]]. exists r. auto.
  -
    apply NoDup_Permutation_bis.
    + (* NoDup filled: its ids are pairwise distinct *)
      apply (NoDup_nth _ placeholder). rewrite filled_length. intros i j Hi Hj E.
      destruct (Hex i Hi) as [ri [Hini Ei]], (Hex j Hj) as [rj [Hinj Ej]].
      rewrite (Hpos i ri Hi Hini Ei), (Hpos j rj Hj Hinj Ej) in E. subst rj.
      rewrite Ei in Ej. injection Ej. lia.
    + rewrite filled_length. apply Permutation_length in Hp. unfold ids_of_range in Hp.
      rewrite !map_length, seq_length in Hp. lia.
    + intros x Hx. apply (In_nth _ _ placeholder) in Hx as [j [Hj E]]. rewrite filled_length in Hj.
      destruct (Hex j Hj) as [r [Hi Er]]. rewrite (Hpos j r Hj Hi Er) in E. now subst.
Qed.

Lemma filter_split_length {A} (p : A -> bool) : forall l,
  (length (filter p l) + length (filter (fun x => negb (p x)) l) = length l)%nat.
Proof. induction l as [|a l IH]; [reflexivity|]. cbn [filter]. destruct (p a); cbn [negb length]; lia. Qed.

Lemma count_ok_spec l : count_ok l = length (filter is_success l).
Proof. reflexivity. Qed.

Lemma count_err_spec : forall l, count_err l = length (filter (fun r => negb (is_success r)) l).
Proof. intro l. unfold count_err, count_ok. pose proof (filter_split_length is_success l). lia. Qed.

Definition rng_ok (rs : list response) (rng : option (N * N)) : Prop :=
  match rng with
  | None => rs = []
  | Some (lo, hi) =>
    (forall r, In r rs -> exists n, rid_num r = Some n /\ lo <= n <= hi) /\
    (exists r, In r rs /\ rid_num r = Some lo) /\
    (exists r, In r rs /\ rid_num r = Some hi)
  end.

Lemma rng_ok_snoc acc rng r n : rid_num r = Some n -> rng_ok acc rng ->
  rng_ok (acc ++ [r]) (Some match rng with
                            | None => (n, n)
                            | Some (lo, hi) => (if n <? lo then n else lo, if hi <? n then n else hi)
                            end).
Proof.
  intros En Hok. assert (Hr : In r (acc ++ [r])) by (apply in_or_app; right; now left).
  destruct rng as [[lo hi]|]; cbn [rng_ok] in *.
  - destruct Hok as [Hall [[rl [Hl El]] [rh [Hh Eh]]]].
    assert (Hl' : In rl (acc ++ [r])) by (apply in_or_app; now left).
    assert (Hh' : In rh (acc ++ [r])) by (apply in_or_app; now left).
    destruct (N.ltb_spec n lo), (N.ltb_spec hi n); (split; [|split; eauto]);
      intros r0 Hin; apply in_app_or in Hin as [Hin|[<-|[]]];
      try (destruct (Hall r0 Hin) as [k [Ek Hk]]; exists k; split; [exact Ek|lia]);
      (exists n; split; [exact En|lia]).
  - subst acc. split; [|split; eauto]. intros r0 [<-|[]]. exists n. split; [exact En|lia].
Qed.

Lemma array_loop_rng : forall ms s acc rng got s' rs rng' got',
  array_loop s ms acc rng got = inl (s', rs, rng', got') ->
  rng_ok acc rng -> rs = acc ++ resps ms /\ rng_ok rs rng'.
Proof.
  induction ms as [|x ms IH]; intros s acc rng got s' rs rng' got' H Hok.
  - injection H as <- <- <- <-. rewrite app_nil_r. auto.
  - destruct x as [r| me sid p | me sid p | me p |]; cbn [array_loop] in H; try discriminate;
      try (eapply IH; eassumption).
    destruct (id_as_number (rs_id r)) as [n|] eqn:En; [|discriminate].
    apply IH in H; [|now apply rng_ok_snoc]. now rewrite <- app_assoc in H.
Qed.

(* what the notifications of a frame do not touch *)
Definition kept (s : st) : list ((N * N) * handle) * list handle := (batches (m s), gone s).

Lemma enqueue_kept s x : kept (enqueue s x) = kept s.
Proof. unfold kept, enqueue. rewrite enqueue_tagged_m, (sq_gone _ _ (enqueue_tagged_sameq s x None)). reflexivity. Qed.
Lemma enqueue_chans s x : chans (enqueue s x) = chans s.
Proof. exact (ClientDispatchFacts.enqueue_chans s x). Qed.

Lemma drop_sink_kept s h : kept (drop_sink s h) = kept s.
Proof. destruct (drop_sink_chans s h) as (cs & ->). reflexivity. Qed.

Lemma sub_deliver_kept s sid p : kept (sub_deliver s sid p) = kept s.
Proof.
  unfold sub_deliver. destruct (alookup _ _ _) as [rid|]; [|reflexivity].
  destruct (req_lookup _ _) as [[| | u ch um|]|]; try reflexivity.
  destruct (chan_of s ch) as [c|]; [|reflexivity].
  destruct (chan_send c p) as [c' []]; [reflexivity| |]; exact (enqueue_kept (set_chan s ch c') _).
Qed.

Lemma sub_close_kept s sid : kept (sub_close s sid) = kept s.
Proof.
  unfold sub_close. destruct (alookup _ _ _) as [rid|]; [|reflexivity].
  destruct (req_lookup _ _) as [[| | u ch um|]|]; try reflexivity.
  rewrite drop_sink_kept. unfold kept. cbn [m upd_m gone]. now rewrite (proj1 (proj2 (release_frame u _))).
Qed.

Lemma notif_deliver_kept s me p : kept (notif_deliver s me p) = kept s.
Proof.
  unfold notif_deliver. destruct (alookup _ _ _) as [ch|]; [|reflexivity].
  destruct (chan_of s ch) as [c|]; [|reflexivity].
  destruct (chan_send c _) as [c' []]; [reflexivity| |]; rewrite drop_sink_kept; reflexivity.
Qed.

Lemma array_loop_kept : forall ms s acc rng got,
  kept (match array_loop s ms acc rng got with inl (s', _, _, _) => s' | inr (s', _) => s' end) = kept s.
Proof.
  induction ms as [|x ms IH]; intros s acc rng got; [reflexivity|].
  destruct x as [r| me sid p | me sid p | me p |]; cbn [array_loop].
  - destruct (id_as_number (rs_id r)); [apply IH | reflexivity].
  - rewrite IH. apply sub_deliver_kept.
  - rewrite IH. apply sub_close_kept.
  - rewrite IH. apply notif_deliver_kept.
  - reflexivity.
Qed.

Lemma complete_kept s s' h r : kept s' = kept s -> complete s' h r = complete s h r.
Proof. intro H. injection H as _ H. unfold complete, alive. now rewrite H. Qed.

Lemma handle_back_array s ms :
  (exists s' f, handle_back s (FArray ms) = RFatal s' [] f /\ kept s' = kept s) \/
  (exists s' lo hi, handle_back s (FArray ms) = batch_response s' (resps ms) lo (hi + 1) /\ kept s' = kept s /\
                    rng_ok (resps ms) (Some (lo, hi))) \/
  (exists s', handle_back s (FArray ms) = ROk s' [] /\ resps ms = []).
Proof.
  rewrite handle_back_now; unfold handle_back_ref.
  pose proof (array_loop_kept ms s [] None false) as Hk.
  destruct (array_loop s ms [] None false) as [[[[s' rs] rng] got]|[s' f]] eqn:EL; [|left; eauto].
  apply array_loop_rng in EL as [-> Hok]; [|reflexivity]. cbn [app] in *.
  destruct rng as [[lo hi]|].
  - destruct (hi =? u64_max); [left; eauto | right; left; eauto 6].
  - destruct got; [right; right; eauto | left; eauto].
Qed.

(* with pairwise disjoint pending ranges (an invariant of the client: Proofs/ClientMgrInv.v, ic_rng_disj) a reply that
   is accepted belongs entirely to the batch that owns any one of its ids *)
Definition ranges_disjoint (B : list ((N * N) * handle)) : Prop :=
  forall r1 r2, In r1 (map fst B) -> In r2 (map fst B) -> r1 = r2 \/ snd r1 <= fst r2 \/ snd r2 <= fst r1.

Lemma entry_cases : forall lo rs j,
  (entry_of lo rs j = placeholder /\ forall r, In r rs -> id_as_number (rs_id r) <> Some (lo + N.of_nat j)) \/
  (exists r, In r rs /\ id_as_number (rs_id r) = Some (lo + N.of_nat j) /\ entry_of lo rs j = r).
Proof.
  intros lo rs j. unfold entry_of. destruct (last_with (lo + N.of_nat j) rs) as [r|] eqn:E.
  - right. exists r. apply last_with_some in E as [H1 H2]. auto.
  - left. split; [reflexivity|]. now apply last_with_none.
Qed.

Lemma refused_reply_answers_nobody : forall s ms s1 o f,
  handle_back s (FArray ms) = RFatal s1 o f -> o = [] /\ batches (m s1) = batches (m s).
Proof.
  intros s ms s1 o f H.
  destruct (handle_back_array s ms) as [(s' & f' & E & Hk)|[(s' & lo & hi & E & Hk & _)|(s' & E & _)]];
    rewrite E in H; [| |discriminate]; injection Hk as Hb _.
  - injection H as <- <- <-. auto.
  - unfold batch_response in H. destruct (alookup range_eqb (lo, hi + 1) (batches (m s'))); [discriminate|].
    injection H as <- <- <-. auto.
Qed.
