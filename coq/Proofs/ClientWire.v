(* Byte-level end of the client theorems: what the server *sends* (the serialisation of a response / subscription
   notification) is classified by the client exactly as that message, and a correct answer to a pending call
   completes it with exactly that response (the "if" direction of C03_routing, down to the bytes on the wire). *)
From JV Require Import Base.Bytes Base.Dec Base.Utf8 Json.Json Json.JsonSer Json.JsonParse Json.JsonWf
  Model.Wire Model.ClientMgr Proofs.JsonFacts Proofs.WireFacts.
From JV Require Import Model.ClientDispatch Proofs.ClientDispatchFacts Proofs.ClientReadersSingle.

Definition wf_response (r : response) : Prop := wf_id (rs_id r) /\ wf_payload (rs_payload r).

Lemma classify_frame_object ms :
  classify_frame (ser_object ms) =
  FSingle (classify_with [TryResponse; TrySubResponse; TrySubError; TryNotification] (ser_object ms)).
Proof.
  rewrite classify_frame_now, classify_single_now. unfold ser_object. cbn [drop_while is_ascii_ws beqb].
  rewrite byte_eqb_refl. reflexivity.
Qed.

(* it has no id member *)
Lemma sub_notif_not_response me sid is_err raw :
  utf8_valid me = true -> wf_subid sid -> raw_payload raw ->
  parse_response (ser_sub_notif me sid is_err raw) = None.
Proof.
  intros Hm Hs Hr. unfold parse_response. rewrite ser_sub_notif_eq.
  rewrite object_members_ser by (apply sub_notif_members_ok; assumption).
  reflexivity.
Qed.

(* What the chain of readers in the order Response, SubscriptionResponse, SubscriptionError, Notification -- the order
   of both the single arm and the array loop (classify_single_now, classify_elem_now) -- makes of the texts the
   server writes. *)
Lemma classify_chain_response r :
  wf_response r -> classify_with [TryResponse; TrySubResponse; TrySubError; TryNotification] (ser_response r) = IResp r.
Proof. intros [Hi Hp]. cbn [classify_with try_reader]. rewrite (response_roundtrip r Hi Hp). reflexivity. Qed.

Lemma classify_chain_sub me sid (is_err : bool) raw :
  utf8_valid me = true -> wf_subid sid -> raw_payload raw ->
  classify_with [TryResponse; TrySubResponse; TrySubError; TryNotification] (ser_sub_notif me sid is_err raw) =
  if is_err then ISubErr me sid raw else ISubNotif me sid raw.
Proof.
  intros Hm Hs Hr. cbn [classify_with try_reader]. rewrite (sub_notif_not_response me sid is_err raw Hm Hs Hr).
  pose proof (sub_notif_roundtrip me sid is_err raw Hm Hs Hr) as R.
  pose proof (sub_notif_kind_distinguished me sid is_err raw Hm Hs Hr) as D.
  destruct is_err; cbv iota in R, D; rewrite ?D, R; reflexivity.
Qed.

Theorem classify_frame_response r :
  wf_response r -> classify_frame (ser_response r) = FSingle (IResp r).
Proof.
  intro W. rewrite ser_response_eq, classify_frame_object, <- ser_response_eq. f_equal. apply classify_chain_response, W.
Qed.

Lemma classify_frame_sub me sid (is_err : bool) raw :
  utf8_valid me = true -> wf_subid sid -> raw_payload raw ->
  classify_frame (ser_sub_notif me sid is_err raw) = FSingle (if is_err then ISubErr me sid raw else ISubNotif me sid raw).
Proof.
  intros Hm Hs Hr. rewrite ser_sub_notif_eq, classify_frame_object, <- ser_sub_notif_eq. f_equal.
  apply classify_chain_sub; assumption.
Qed.

Theorem classify_frame_sub_notif me sid raw :
  utf8_valid me = true -> wf_subid sid -> raw_payload raw ->
  classify_frame (ser_sub_notif me sid false raw) = FSingle (ISubNotif me sid raw).
Proof. exact (classify_frame_sub me sid false raw). Qed.

Theorem classify_frame_sub_close me sid raw :
  utf8_valid me = true -> wf_subid sid -> raw_payload raw ->
  classify_frame (ser_sub_notif me sid true raw) = FSingle (ISubErr me sid raw).
Proof. exact (classify_frame_sub me sid true raw). Qed.

Theorem answer_completes_call s h r :
  dead s = false -> dying s = None -> wf_response r ->
  req_lookup (rs_id r) (m s) = Some (KCall (Some h)) -> alive s h = true ->
  In (OComplete h (CResp r)) (snd (fst (step s (Back (ser_response r))))).
Proof.
  intros Hd Hy Hw Hl Ha.
  assert (E : snd (fst (apply s (Back (ser_response r)))) = [OComplete h (CResp r)]).
  { unfold apply. rewrite Hd, Hy, (classify_frame_response r Hw).
    rewrite handle_back_now. cbn [handle_back_ref handle_elem_single_ref]. unfold single_response. rewrite Hl.
    unfold complete. rewrite Ha. reflexivity. }
  unfold step. destruct (apply s _) as [[s1 o1] f1]. destruct (settle s1) as [s2 o2]. cbn [fst snd] in E |- *.
  rewrite E. left. reflexivity.
Qed.
