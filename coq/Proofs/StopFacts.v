(* C10 -- facts about the graceful-stop LTS (Model/Stop.v): `cstep` and `step` read as relations (cstep_to, stop_step_to), the
   invariants cinv (one connection) and sinv (the server), conservation of replies (in_flight), the measure mu. *)
From Coq Require Import List NArith Bool Arith Lia.
From JV Require Import Model.Stop.
Import ListNotations.
#[local] Arguments N.eqb : simpl never.

Lemma stop_upd_same : forall A (l : list A) n v x, nth_error l n = Some x -> nth_error (upd n v l) n = Some v.
Proof. induction l; destruct n; simpl; intros; try discriminate; eauto. Qed.

Lemma stop_upd_other : forall A (l : list A) n m v, n <> m -> nth_error (upd n v l) m = nth_error l m.
Proof. induction l; destruct n, m; simpl; intros; try congruence; eauto. Qed.

Lemma length_upd : forall A (l : list A) n v, length (upd n v l) = length l.
Proof. induction l; destruct n; simpl; intros; auto. Qed.

Lemma Forall_upd : forall A (P : A -> Prop) (l : list A) n v, Forall P l -> P v -> Forall P (upd n v l).
Proof.
  induction l; destruct n; simpl; intros; auto; inversion H; subst; constructor; auto.
Qed.

Lemma Forall_nth_error : forall A (P : A -> Prop) (l : list A) n x, Forall P l -> nth_error l n = Some x -> P x.
Proof. intros. rewrite Forall_forall in H. eapply H, nth_error_In; eauto. Qed.

Lemma forallb_nth : forall A (p : A -> bool) (l : list A) n x, forallb p l = true -> nth_error l n = Some x -> p x = true.
Proof. intros. rewrite forallb_forall in H. eapply H, nth_error_In; eauto. Qed.

Lemma forallb_false_nth : forall A (p : A -> bool) l, forallb p l = false -> exists n x, nth_error l n = Some x /\ p x = false.
Proof.
  induction l; simpl; intros; try discriminate.
  destruct (p a) eqn:E.
  - simpl in H. destruct (IHl H) as (n & x & N1 & P). exists (S n), x. auto.
  - exists 0, a. auto.
Qed.

Lemma tstate_eqb_eq : forall a b, tstate_eqb a b = true <-> a = b.
Proof. destruct a, b; simpl; split; congruence. Qed.

Lemma task_eqb_eq : forall a b, task_eqb a b = true <-> a = b.
Proof.
  intros [k s] [k' s']. unfold task_eqb. simpl. rewrite andb_true_iff, N.eqb_eq, tstate_eqb_eq.
  split; [intros [-> ->]; auto | intros H; inversion H; auto].
Qed.

Lemma task_eqb_refl : forall a, task_eqb a a = true.
Proof. intros. apply task_eqb_eq. auto. Qed.

Definition cntt (u : N * tstate) (l : list (N * tstate)) : nat := length (filter (fun e => task_eqb e u) l).
#[local] Arguments cntt : simpl never.

Lemma cntt_cons : forall u e l, cntt u (e :: l) = Nat.b2n (task_eqb e u) + cntt u l.
Proof. intros. unfold cntt. simpl. destruct (task_eqb e u); auto. Qed.

Lemma cntt_app : forall u l1 l2, cntt u (l1 ++ l2) = cntt u l1 + cntt u l2.
Proof. intros. unfold cntt. rewrite filter_app, app_length. auto. Qed.

Lemma set_first_split : forall t t' l l', set_first t t' l = Some l' ->
  exists l1 l2, l = l1 ++ t :: l2 /\ l' = l1 ++ t' :: l2.
Proof.
  induction l as [|a l IH]; simpl; intros l' H; try discriminate.
  destruct (task_eqb a t) eqn:E.
  - apply task_eqb_eq in E as ->. injection H as <-. now exists [], l.
  - destruct (set_first t t' l) as [r|]; try discriminate. injection H as <-.
    destruct (IH r eq_refl) as (l1 & l2 & -> & ->). now exists (a :: l1), l2.
Qed.

Lemma remove_first_split : forall t l l', remove_first t l = Some l' -> exists l1 l2, l = l1 ++ t :: l2 /\ l' = l1 ++ l2.
Proof.
  induction l as [|a l IH]; simpl; intros l' H; try discriminate.
  destruct (task_eqb a t) eqn:E.
  - apply task_eqb_eq in E as ->. injection H as <-. now exists [], l.
  - destruct (remove_first t l) as [r|]; try discriminate. injection H as <-.
    destruct (IH r eq_refl) as (l1 & l2 & -> & ->). now exists (a :: l1), l2.
Qed.

Lemma set_first_cnt : forall t t' l l' u, set_first t t' l = Some l' ->
  cntt u l' + Nat.b2n (task_eqb t u) = cntt u l + Nat.b2n (task_eqb t' u).
Proof. intros t t' l l' u H. apply set_first_split in H as (l1 & l2 & -> & ->). rewrite !cntt_app, !cntt_cons. lia. Qed.

Lemma remove_first_cnt : forall t l l' u, remove_first t l = Some l' -> cntt u l' + Nat.b2n (task_eqb t u) = cntt u l.
Proof. intros t l l' u H. apply remove_first_split in H as (l1 & l2 & -> & ->). rewrite !cntt_app, !cntt_cons. lia. Qed.

Lemma set_first_in : forall t t' l l', set_first t t' l = Some l' -> In t l.
Proof. intros t t' l l' H. apply set_first_split in H as (l1 & l2 & -> & _). apply in_elt. Qed.

Lemma set_first_Forall : forall (P : N * tstate -> Prop) t t' l l',
  set_first t t' l = Some l' -> Forall P l -> P t' -> Forall P l'.
Proof.
  intros P t t' l l' H F T. apply set_first_split in H as (l1 & l2 & -> & ->).
  apply Forall_app in F as [F1 F2]. inversion F2. apply Forall_app. auto.
Qed.

Lemma set_first_Forall_fst : forall (P : N -> Prop) k a b l l',
  set_first (k, a) (k, b) l = Some l' -> Forall (fun t => P (fst t)) l -> Forall (fun t => P (fst t)) l'.
Proof.
  intros P k a b l l' H F. eapply set_first_Forall; eauto.
  apply set_first_in in H. rewrite Forall_forall in F. apply (F _ H).
Qed.

Lemma remove_first_Forall : forall (P : N * tstate -> Prop) t l l', remove_first t l = Some l' -> Forall P l -> Forall P l'.
Proof.
  intros P t l l' H F. apply remove_first_split in H as (l1 & l2 & -> & ->).
  apply Forall_app in F as [F1 F2]. inversion F2. apply Forall_app. auto.
Qed.

Lemma set_first_length : forall t t' l l', set_first t t' l = Some l' -> length l' = length l.
Proof. intros t t' l l' H. apply set_first_split in H as (l1 & l2 & -> & ->). now rewrite !app_length. Qed.

Lemma set_first_src : forall t t' l l', set_first t t' l = Some l' -> l <> [].
Proof. intros t t' l l' H ->. discriminate H. Qed.

Lemma remove_first_src : forall t l l', remove_first t l = Some l' -> l <> [].
Proof. intros t l l' H ->. discriminate H. Qed.

(* the wire after reply k has been handed to the transport: it arrives only while the client is there *)
Definition wire_with (x : conn) (k : N) : list N := if c_closed x then c_wire x else c_wire x ++ [k].

Lemma put_wire_set : forall x k, put_wire x k = set_wire x (wire_with x k).
Proof. intros x k. unfold put_wire, wire_with. destruct x, c_closed; reflexivity. Qed.

(* `cstep` read as a relation: one constructor per way a step can be taken, with the guard under which `cstep` takes it.
   Every result is x with some fields overwritten, so a projection of it computes.  The guards carry the names they
   get in a case analysis (`destruct (cstep_shape ..)`), one letter per field: B inbox, K kind, P phase, T tasks, Sf/R the task
   found by set_first/remove_first, W writer, L room in the queue, Q queue, C closed, V wstop, O token, G the rest. *)
Inductive cstep_to (sg : bool) (x : conn) : cact -> conn -> Prop :=
| StReadWs k r (B : c_inbox x = k :: r) (K : c_kind x = KWs) (P : c_phase x = PReading) :
    cstep_to sg x CRead (set_tasks (set_inbox x r) (c_tasks x ++ [(k, TSpawned)]))
| StReadDiscard k r (B : c_inbox x = k :: r) (K : c_kind x = KWs) (P : c_phase x = PGraceful) :
    cstep_to sg x CRead (set_inbox x r)
| StReadHttp k r (B : c_inbox x = k :: r) (K : c_kind x = KHttp) (P : c_phase x = PReading) (T : c_tasks x = []) :
    cstep_to sg x CRead (set_tasks (set_inbox x r) [(k, TSpawned)])
| StStart k t (Sf : set_first (k, TSpawned) (k, TExec) (c_tasks x) = Some t) : cstep_to sg x (CStart k) (set_tasks x t)
| StFinish k t (Sf : set_first (k, TExec) (k, TRet) (c_tasks x) = Some t) : cstep_to sg x (CFinish k) (set_tasks x t)
| StEnqueue k t (K : c_kind x = KWs) (R : remove_first (k, TRet) (c_tasks x) = Some t) (W : c_writer x = WRun)
    (L : length (c_queue x) < c_cap x) : cstep_to sg x (CEnqueue k) (set_queue (set_tasks x t) (c_queue x ++ [k]))
| StEnqueueLost k t (K : c_kind x = KWs) (R : remove_first (k, TRet) (c_tasks x) = Some t) (W : c_writer x = WFin) :
    cstep_to sg x (CEnqueue k) (set_tasks x t)
| StWriteWs k q (K : c_kind x = KWs) (W : c_writer x = WRun) (Q : c_queue x = k :: q) :
    cstep_to sg x CWrite (set_wire (set_queue x q) (wire_with x k))
| StWriteHttpGone k (K : c_kind x = KHttp) (T : c_tasks x = [(k, TRet)]) (P : c_phase x = PReading)
    (C : c_closed x = true) : cstep_to sg x CWrite (http_done (set_tasks x []))
| StWriteHttp k (K : c_kind x = KHttp) (T : c_tasks x = [(k, TRet)]) (P : c_phase x = PReading)
    (C : c_closed x = false) : cstep_to sg x CWrite (set_wire (set_tasks x []) (c_wire x ++ [k]))
| StWriteHttpLast k (K : c_kind x = KHttp) (T : c_tasks x = [(k, TRet)]) (P : c_phase x = PGraceful) :
    cstep_to sg x CWrite (http_done (set_wire (set_tasks x []) (wire_with x k)))
| StSeeStopWs (G : sg = true) (K : c_kind x = KWs) (P : c_phase x = PReading) :
    cstep_to sg x CSeeStop (set_phase x PGraceful)
| StSeeStopIdle (G : sg = true) (K : c_kind x = KHttp) (P : c_phase x = PReading) (T : c_tasks x = []) :
    cstep_to sg x CSeeStop (http_done x)
| StSeeStopBusy (G : sg = true) (K : c_kind x = KHttp) (P : c_phase x = PReading) (T : c_tasks x <> []) :
    cstep_to sg x CSeeStop (set_phase x PGraceful)
| StGracefulEnd (K : c_kind x = KWs) (P : c_phase x = PGraceful)
    (G : c_tasks x = [] \/ c_closed x = true \/ c_writer x = WFin) :
    cstep_to sg x CGracefulEnd (set_wstop (set_phase x PClosing) true)
| StReaderClosedWs (C : c_closed x = true) (K : c_kind x = KWs) (P : c_phase x = PReading) :
    cstep_to sg x CReaderClosed (set_wstop (set_phase (set_inbox x []) PClosing) true)
| StReaderClosedHttp (C : c_closed x = true) (K : c_kind x = KHttp) (P : c_phase x = PReading \/ c_phase x = PGraceful) :
    cstep_to sg x CReaderClosed (http_done (set_tasks x []))
| StWriterStop (K : c_kind x = KWs) (W : c_writer x = WRun) (V : c_wstop x = true) (Q : c_queue x = []) :
    cstep_to sg x CWriterStop (set_writer x WFin)
| StWriterFail (K : c_kind x = KWs) (W : c_writer x = WRun) (C : c_closed x = true) :
    cstep_to sg x CWriterFail (set_writer (set_queue x []) WFin)
| StBgDone (K : c_kind x = KWs) (P : c_phase x = PClosing) (W : c_writer x = WFin) :
    cstep_to sg x CBgDone (set_phase x PDone)
| StHyperDone (K : c_kind x = KWs) (O : c_tok x = true) : cstep_to sg x CHyperDone (set_tok x false)
| StDisconnect (C : c_closed x = false) : cstep_to sg x CDisconnect (set_closed x true)
| StSubOpen (K : c_kind x = KWs) (P : c_phase x = PReading) (C : c_closed x = false) :
    cstep_to sg x CSubOpen (set_subs x (S (c_subs x))).

Lemma cstep_shape : forall sg x a x', cstep sg x a = Some x' -> cstep_to sg x a x'.
Proof.
  intros sg x a x'. destruct a; cbn [cstep].
  - destruct (c_inbox x) eqn:?; [discriminate|]. destruct (c_kind x) eqn:?, (c_phase x) eqn:?; try discriminate.
    + destruct (c_tasks x) eqn:?; [|discriminate]. intros [= <-]. eapply StReadHttp; eauto.
    + intros [= <-]. eapply StReadWs; eauto.
    + intros [= <-]. eapply StReadDiscard; eauto.
  - destruct (set_first _ _ _) eqn:?; intros [= <-]. now apply StStart.
  - destruct (set_first _ _ _) eqn:?; intros [= <-]. now apply StFinish.
  - destruct (c_kind x) eqn:?; [discriminate|]. destruct (remove_first _ _) eqn:?; [|discriminate].
    destruct (c_writer x) eqn:?.
    + destruct (Nat.ltb_spec (length (c_queue x)) (c_cap x)); intros [= <-]. now apply StEnqueue.
    + intros [= <-]. now apply StEnqueueLost.
  - destruct (c_kind x) eqn:?.
    + destruct (c_tasks x) as [|[k []] []] eqn:?; try discriminate.
      destruct (c_phase x) eqn:?; try discriminate.
      * destruct (c_closed x) eqn:C; intros [= <-]; [now apply (StWriteHttpGone _ _ k) |].
        rewrite put_wire_set. unfold wire_with. cbn [c_closed c_wire set_tasks]. rewrite C. now apply StWriteHttp.
      * intros [= <-]. rewrite put_wire_set. change (wire_with (set_tasks x []) k) with (wire_with x k).
        now apply StWriteHttpLast.
    + destruct (c_writer x) eqn:?, (c_queue x) as [|k q] eqn:?; intros [= <-]. rewrite put_wire_set.
      change (wire_with (set_queue x q) k) with (wire_with x k). now apply StWriteWs.
  - destruct sg; [|discriminate]. destruct (c_kind x) eqn:?, (c_phase x) eqn:?; try discriminate.
    + destruct (c_tasks x) eqn:?; intros [= <-]; [now apply StSeeStopIdle | apply StSeeStopBusy; congruence].
    + intros [= <-]. now apply StSeeStopWs.
  - destruct (c_kind x) eqn:?, (c_phase x) eqn:?; try discriminate.
    destruct (_ || _) eqn:E; intros [= <-]. apply StGracefulEnd; auto.
    apply orb_true_iff in E as [E|E]; [apply orb_true_iff in E as [E|E]|].
    + left. now destruct (c_tasks x).
    + auto.
    + right. right. now destruct (c_writer x).
  - destruct (c_closed x) eqn:?; [|discriminate]. destruct (c_kind x) eqn:?, (c_phase x) eqn:?; intros [= <-].
    + apply StReaderClosedHttp; auto.
    + apply StReaderClosedHttp; auto.
    + now apply StReaderClosedWs.
  - destruct (c_kind x) eqn:?, (c_writer x) eqn:?; try discriminate.
    destruct (c_wstop x) eqn:?; [|discriminate]. destruct (c_queue x) eqn:?; intros [= <-]. now apply StWriterStop.
  - destruct (c_kind x) eqn:?, (c_writer x) eqn:?; try discriminate.
    destruct (c_closed x) eqn:?; intros [= <-]. now apply StWriterFail.
  - destruct (c_kind x) eqn:?, (c_phase x) eqn:?, (c_writer x) eqn:?; intros [= <-]. now apply StBgDone.
  - destruct (c_kind x) eqn:?; [discriminate|]. destruct (c_tok x) eqn:?; intros [= <-]. now apply StHyperDone.
  - destruct (c_closed x) eqn:?; intros [= <-]. now apply StDisconnect.
  - destruct (c_kind x) eqn:?, (c_phase x) eqn:?; try discriminate.
    destruct (c_closed x) eqn:?; intros [= <-]. now apply StSubOpen.
Qed.

(* rewrite into the goal every equation `f y = v` of the context; after `destruct (cstep_shape ..)` these are the guards of
   the case, which say what the fields of x that the goal mentions are *)
Ltac use_guards := repeat match goal with E : ?f _ = _ |- context [?f _] => rewrite E end.

Lemma csend_inv : forall x k x', csend x k = Some x' -> c_closed x = false /\ x' = set_inbox x (c_inbox x ++ [k]).
Proof. unfold csend. intros x k x'. destruct (c_closed x); intros [= <-]. auto. Qed.

Lemma cstep_kind : forall sg x a x', cstep sg x a = Some x' -> c_kind x' = c_kind x.
Proof. intros sg x a x' H. destruct (cstep_shape _ _ _ _ H); reflexivity. Qed.

Lemma cstep_cap : forall sg x a x', cstep sg x a = Some x' -> c_cap x' = c_cap x.
Proof. intros sg x a x' H. destruct (cstep_shape _ _ _ _ H); reflexivity. Qed.

Lemma cstep_done : forall sg x a x', cstep sg x a = Some x' -> c_phase x = PDone -> c_phase x' = PDone.
Proof. intros sg x a x' H D. destruct (cstep_shape _ _ _ _ H); cbn; congruence. Qed.

Lemma cstep_tok : forall sg x a x', cstep sg x a = Some x' -> c_tok x = false -> c_tok x' = false.
Proof. intros sg x a x' H D. destruct (cstep_shape _ _ _ _ H); cbn; auto. Qed.

Lemma cstep_closed : forall sg x a x', cstep sg x a = Some x' -> c_closed x = true -> c_closed x' = true.
Proof. intros sg x a x' H D. destruct (cstep_shape _ _ _ _ H); cbn; auto. Qed.

(* What a connection keeps.  WebSocket: the send task (c_writer) ends only on conn_tx (c_wstop) unless the client has gone, and
   conn_tx is sent on leaving the reader loop or graceful_shutdown -- with the client there, only when no call is pending. *)
Record ws_inv (x : conn) : Prop := {
  ws_fin_queue : c_writer x = WFin -> c_queue x = [];
  ws_wstop : c_wstop x = true <-> (c_phase x = PClosing \/ c_phase x = PDone);
  ws_done_fin : c_phase x = PDone -> c_writer x = WFin;
  ws_fin_wstop : c_closed x = false -> c_writer x = WFin -> c_wstop x = true;
  ws_wstop_idle : c_closed x = false -> c_wstop x = true -> c_tasks x = [] }.

(* HTTP: no send task and no queue; at most the request in flight, and hyper's graceful shutdown is entered only with one;
   the connection's token goes exactly when its task ends. *)
Record http_inv (x : conn) : Prop := {
  http_fin : c_writer x = WFin;
  http_queue : c_queue x = [];
  http_one : length (c_tasks x) <= 1;
  http_phase : c_phase x <> PClosing;
  http_done_idle : c_phase x = PDone -> c_tasks x = [];
  http_graceful_busy : c_phase x = PGraceful -> c_tasks x <> [];
  http_done_tok : c_phase x = PDone <-> c_tok x = false }.

Definition cinv (x : conn) : Prop := match c_kind x with KHttp => http_inv x | KWs => ws_inv x end.

Lemma cinv_ws : forall x, cinv x -> c_kind x = KWs -> ws_inv x.
Proof. unfold cinv. intros x I K. now rewrite K in I. Qed.

Lemma cinv_http : forall x, cinv x -> c_kind x = KHttp -> http_inv x.
Proof. unfold cinv. intros x I K. now rewrite K in I. Qed.

Lemma cinv_set_inbox : forall x v, cinv x -> cinv (set_inbox x v).
Proof. unfold cinv. intros x v. cbn. destruct (c_kind x); intros []; now constructor. Qed.

Lemma cinv_new : forall k cap, cinv (new_conn k cap).
Proof. destruct k; intros; constructor; cbn; intuition (try discriminate; try lia). Qed.

(* In both proofs the clauses that speak of no overwritten field are those of x, and most of the others are settled by the
   guard of the step; the goals left are taken in the order of the constructors of cstep_to. *)
Lemma ws_inv_cstep : forall sg x a x', c_kind x = KWs -> ws_inv x -> cstep sg x a = Some x' -> ws_inv x'.
Proof.
  intros sg x a x' Kw [W1 [W2 W2'] W3 W4 W5] H.
  destruct (cstep_shape _ _ _ _ H); clear H; try congruence; constructor; cbn; try assumption;
    try (split; auto; fail); try (intros; congruence); auto.
  - (* read: a reader still in its loop has not sent conn_tx *) intros _ V. apply W2 in V as [|]; congruence.
  - (* start, finish, enqueue: there is a task, so conn_tx has not been sent with the client there *)
    intros C V. elim (set_first_src _ _ _ _ Sf). exact (W5 C V).
  - intros C V. elim (set_first_src _ _ _ _ Sf). exact (W5 C V).
  - intros C V. elim (remove_first_src _ _ _ R). exact (W5 C V).
  - intros C V. elim (remove_first_src _ _ _ R). exact (W5 C V).
  - (* the stop is seen in the reader loop: conn_tx not sent before, nor now *)
    split; [intros V; apply W2 in V as [|]; congruence | intros [|]; discriminate].
  - (* graceful_shutdown ends with the client there: no task is left, also when it ended because the send task died *)
    intros C _. destruct G as [G | [G | G]]; [exact G | congruence | exact (W5 C (W4 C G))].
Qed.

Lemma http_inv_cstep : forall sg x a x', c_kind x = KHttp -> http_inv x -> cstep sg x a = Some x' -> http_inv x'.
Proof.
  intros sg x a x' Kh [H1 H2 H3 H4 H5 H6 [H7 H7']] H.
  destruct (cstep_shape _ _ _ _ H); clear H; try congruence; constructor; cbn; try assumption;
    try (split; auto; fail); try (intros; congruence); auto.
  - (* start, finish: the one task changes state *) now rewrite (set_first_length _ _ _ _ Sf).
  - intros D. elim (set_first_src _ _ _ _ Sf). exact (H5 D).
  - intros _ E. apply (f_equal (@length _)) in E. rewrite (set_first_length _ _ _ _ Sf) in E.
    elim (set_first_src _ _ _ _ Sf). now destruct (c_tasks x).
  - now rewrite (set_first_length _ _ _ _ Sf).
  - intros D. elim (set_first_src _ _ _ _ Sf). exact (H5 D).
  - intros _ E. apply (f_equal (@length _)) in E. rewrite (set_first_length _ _ _ _ Sf) in E.
    elim (set_first_src _ _ _ _ Sf). now destruct (c_tasks x).
  - (* the stop is seen with a request in flight: the token stays *)
    split; [discriminate | intros O; apply H7' in O; congruence].
Qed.

Lemma cinv_cstep : forall sg x a x', cinv x -> cstep sg x a = Some x' -> cinv x'.
Proof.
  intros sg x a x' I H. unfold cinv in *. rewrite (cstep_kind _ _ _ _ H).
  destruct (c_kind x) eqn:K; [eapply http_inv_cstep | eapply ws_inv_cstep]; eauto.
Qed.

(* the inbox only shrinks; a task's id comes from the inbox, and nothing is read in PDone *)
Lemma cstep_inbox : forall (P : N -> Prop) sg x a x', cstep sg x a = Some x' ->
  Forall P (c_inbox x) -> Forall P (c_inbox x').
Proof.
  intros P sg x a x' H F. destruct (cstep_shape _ _ _ _ H); cbn; auto; rewrite B in F; now inversion F.
Qed.

Lemma cstep_task_ids : forall (P : N -> Prop) sg x a x', cstep sg x a = Some x' ->
  c_phase x = PDone \/ Forall P (c_inbox x) ->
  Forall (fun t => P (fst t)) (c_tasks x) -> Forall (fun t => P (fst t)) (c_tasks x').
Proof.
  intros P sg x a x' H O T. destruct (cstep_shape _ _ _ _ H); cbn; auto;
    eauto using set_first_Forall_fst, remove_first_Forall.
  (* the two steps that read a message into a task *)
  all: destruct O as [D | F]; [congruence | rewrite B in F; inversion F].
  - apply Forall_app; split; auto.
  - auto.
Qed.

Definition ids_lt (n : N) (x : conn) : Prop :=
  Forall (fun k => (k < n)%N) (c_inbox x) /\ Forall (fun t => (fst t < n)%N) (c_tasks x).

Lemma ids_lt_mono : forall n m x, (n <= m)%N -> ids_lt n x -> ids_lt m x.
Proof.
  intros n m x L [A B]. split; eapply Forall_impl; try eassumption; simpl; intros; lia.
Qed.

Lemma ids_cstep : forall sg n x a x', ids_lt n x -> cstep sg x a = Some x' -> ids_lt n x'.
Proof.
  intros sg n x a x' [A B] H. split; [eapply cstep_inbox | eapply (cstep_task_ids (fun k => (k < n)%N))]; eauto.
Qed.

Lemma ids_csend : forall n x, ids_lt n x -> ids_lt (N.succ n) (set_inbox x (c_inbox x ++ [n])).
Proof.
  intros n x I. destruct (ids_lt_mono n (N.succ n) x) as [A B]; [lia | exact I |].
  split; [apply Forall_app; split; [exact A | constructor; [lia | constructor]] | exact B].
Qed.

(* calls of id k on connection x whose handler has started and whose reply is somewhere between the handler
   and the transport *)
Definition in_flight (x : conn) (k : N) : nat :=
  cntt (k, TExec) (c_tasks x) + cntt (k, TRet) (c_tasks x) + count_occ N.eq_dec (c_queue x) k + count_occ N.eq_dec (c_wire x) k.

Lemma count_occ_cons_b2n : forall (l : list N) a k, count_occ N.eq_dec (a :: l) k = Nat.b2n (N.eqb a k) + count_occ N.eq_dec l k.
Proof. intros. simpl. destruct (N.eq_dec a k); destruct (N.eqb_spec a k); simpl; congruence. Qed.

Lemma count_occ_snoc : forall (l : list N) a k, count_occ N.eq_dec (l ++ [a]) k = count_occ N.eq_dec l k + Nat.b2n (N.eqb a k).
Proof. intros. rewrite count_occ_app, count_occ_cons_b2n. simpl. lia. Qed.

Lemma cntt_nil : forall u, cntt u [] = 0.
Proof. reflexivity. Qed.

Lemma cntt_one : forall k s k0 s0, cntt (k, s) [(k0, s0)] = Nat.b2n (N.eqb k0 k && tstate_eqb s0 s).
Proof. intros. rewrite cntt_cons. unfold task_eqb, cntt. simpl. lia. Qed.

Definition start_inc_c (a : cact) (k : N) : nat := match a with CStart k0 => Nat.b2n (N.eqb k0 k) | _ => 0 end.

Lemma in_flight_cstep : forall sg x a x' k, cinv x -> cstep sg x a = Some x' -> c_closed x' = false ->
  in_flight x' k = in_flight x k + start_inc_c a k.
Proof.
  intros sg x a x' k I H C.
  destruct (cstep_shape _ _ _ _ H); clear H; cbn in C; try congruence;
    unfold in_flight, wire_with; cbn; use_guards;
    rewrite ?cntt_app, ?cntt_one, ?cntt_nil, ?count_occ_snoc, ?count_occ_cons_b2n; cbn [tstate_eqb];
    rewrite ?andb_false_r, ?andb_true_r; cbn [Nat.b2n];
    try lia.
  - (* started: one more executing *)
    generalize (set_first_cnt _ _ _ _ (k, TExec) Sf), (set_first_cnt _ _ _ _ (k, TRet) Sf).
    unfold task_eqb. cbn [fst snd tstate_eqb]. destruct (N.eqb k0 k); cbn; lia.
  - (* returned: one executing fewer, one returned more *)
    generalize (set_first_cnt _ _ _ _ (k, TExec) Sf), (set_first_cnt _ _ _ _ (k, TRet) Sf).
    unfold task_eqb. cbn [fst snd tstate_eqb]. destruct (N.eqb k0 k); cbn; lia.
  - (* queued: one returned fewer, one more in the queue *)
    generalize (remove_first_cnt _ _ _ (k, TExec) R), (remove_first_cnt _ _ _ (k, TRet) R).
    unfold task_eqb. cbn [fst snd tstate_eqb]. destruct (N.eqb k0 k); cbn; lia.
  - (* a reply is lost only to a closed queue, and with the client there the queue is closed only when no task is left *)
    apply remove_first_src in R. elim R. apply cinv_ws in I; [| exact K]. exact (ws_wstop_idle x I C (ws_fin_wstop x I C W)).
Qed.

(* `step` read as a relation; the flag says whether the action was enabled (`effective`), and a disabled action leaves
   the state as it is.  Here too the guards carry the names a case analysis gives them (used in Props/C10.v as well):
   A accept, E the connection found, C closed, St its step, G signal, T tokens, Hn handles, D all_dropped, R resolved. *)
Inductive stop_step_to (s : state) : action -> state -> bool -> Prop :=
| TIdle a : stop_step_to s a s false
| TConnect k (A : s_accept s = ARun) :
    stop_step_to s (Connect k) (set_conns s (s_conns s ++ [new_conn k (s_cap s)])) true
| TSend c x (E : nth_error (s_conns s) c = Some x) (C : c_closed x = false) :
    stop_step_to s (ClientSend c)
      (set_next (set_conns s (upd c (set_inbox x (c_inbox x ++ [s_next s])) (s_conns s))) (N.succ (s_next s))) true
| TConn c a x x' (E : nth_error (s_conns s) c = Some x) (St : cstep (sig s) x a = Some x') :
    stop_step_to s (Conn c a) (set_conns s (upd c x' (s_conns s))) true
| TAcceptSeeStop (A : s_accept s = ARun) (G : sig s = true) : stop_step_to s AcceptSeeStop (set_accept s ADrain) true
| TAcceptDone (A : s_accept s = ADrain) (T : Forall (fun x => c_tok x = false) (s_conns s)) :
    stop_step_to s AcceptDone (set_accept s ADone) true
| TStop n (Hn : s_handles s = S n) (D : all_dropped s = false) : stop_step_to s Stop (set_stop s true) true
| TClone n (Hn : s_handles s = S n) : stop_step_to s CloneHandle (set_handles s (S (S n))) true
| TDrop n (Hn : s_handles s = S n) : stop_step_to s DropHandle (set_handles s n) true
| TResolve n (Hn : s_handles s = S n) (D : all_dropped s = true) (R : s_resolved s = false) :
    stop_step_to s StoppedResolves (set_resolved s true) true.

Lemma stop_step_shape : forall s a, stop_step_to s a (fst (step s a)) (effective s a).
Proof.
  intros s a. unfold effective. destruct a; cbn [step].
  - destruct (s_accept s) eqn:A; cbn; now constructor.
  - destruct (nth_error (s_conns s) c) as [x|] eqn:E; [| constructor].
    destruct (csend x (s_next s)) as [x'|] eqn:E2; [| constructor]. apply csend_inv in E2 as [C ->]. now apply TSend.
  - destruct (nth_error (s_conns s) c) as [x|] eqn:E; [| constructor].
    destruct (cstep (sig s) x a) as [x'|] eqn:E2; [| constructor]. now apply (TConn _ _ _ x).
  - destruct (s_accept s) eqn:A; [| constructor | constructor]. destruct (sig s) eqn:G; cbn; now constructor.
  - destruct (s_accept s) eqn:A; [constructor | | constructor].
    destruct (forallb _ _) eqn:T; cbn; constructor; auto.
    apply Forall_forall. intros x Hx. rewrite forallb_forall in T. apply T in Hx. now destruct (c_tok x).
  - destruct (s_handles s) as [|n] eqn:Hn; [constructor |].
    destruct (all_dropped s) eqn:D; cbn; [constructor | now apply (TStop _ n)].
  - destruct (s_handles s) as [|n] eqn:Hn; cbn; [constructor | now apply (TClone _ n)].
  - destruct (s_handles s) as [|n] eqn:Hn; cbn; [constructor | now apply (TDrop _ n)].
  - destruct (s_handles s) as [|n] eqn:Hn; [constructor |].
    destruct (all_dropped s) eqn:D; [| constructor]. destruct (s_resolved s) eqn:R; cbn; [constructor | now apply (TResolve _ n)].
Qed.

Lemma run_stable : forall P : state -> Prop, (forall s a, P s -> P (fst (step s a))) -> forall tr s, P s -> P (run s tr).
Proof. intros P St. induction tr; simpl; auto. Qed.

Lemma stop_run_app : forall t1 t2 s, run s (t1 ++ t2) = run (run s t1) t2.
Proof. induction t1; simpl; intros; auto. Qed.

Lemma resolved_mono : forall s a, s_resolved s = true -> s_resolved (fst (step s a)) = true.
Proof. intros s a H. destruct (stop_step_shape s a); auto. Qed.

Lemma all_dropped_iff : forall s, all_dropped s = true <->
  s_accept s = ADone /\ Forall (fun x => c_phase x = PDone) (s_conns s).
Proof.
  intros s. unfold all_dropped, accept_done, phase_done. rewrite andb_true_iff, forallb_forall, Forall_forall.
  split; intros [A F]; (split; [now destruct (s_accept s) | intros x Hx; specialize (F x Hx); now destruct (c_phase x)]).
Qed.

Lemma all_dropped_nth : forall s c x, all_dropped s = true -> nth_error (s_conns s) c = Some x -> c_phase x = PDone.
Proof. intros s c x D. apply all_dropped_iff in D as [_ F]. exact (Forall_nth_error _ _ _ c x F). Qed.

Lemma all_dropped_step : forall s a, all_dropped s = true -> all_dropped (fst (step s a)) = true.
Proof.
  intros s a D. pose proof D as D0. apply all_dropped_iff in D0 as [A F].
  destruct (stop_step_shape s a); try exact D; try congruence;
    apply all_dropped_iff; (split; [exact A |]); apply Forall_upd; auto.
  - exact (Forall_nth_error _ _ _ _ _ F E).
  - apply (cstep_done _ _ _ _ St). exact (Forall_nth_error _ _ _ _ _ F E).
Qed.

Record sinv (s : state) : Prop := {
  sinv_conns : Forall cinv (s_conns s);
  sinv_ids : Forall (ids_lt (s_next s)) (s_conns s);
  sinv_tok : s_accept s = ADone -> Forall (fun x => c_tok x = false) (s_conns s);
  sinv_resolved : s_resolved s = true -> all_dropped s = true }.

Lemma sinv_init : forall cap, sinv (init_cap cap).
Proof. intros. constructor; simpl; auto; discriminate. Qed.

Lemma Forall_app_one : forall A (P : A -> Prop) l v, Forall P l -> P v -> Forall P (l ++ [v]).
Proof. intros. apply Forall_app. split; auto. Qed.

Lemma step_sinv : forall s a, sinv s -> sinv (fst (step s a)).
Proof.
  intros s a I. pose proof I as [I1 I2 I3 I4].
  assert (I4' : s_resolved (fst (step s a)) = true -> all_dropped (fst (step s a)) = true).
  { (* `stopped` resolves only when all is dropped, and that is kept *)
    intros R. destruct (s_resolved s) eqn:R0; [now apply all_dropped_step, I4 |].
    revert R. destruct (stop_step_shape s a); cbn; try congruence. intros _. exact D. }
  revert I4'. destruct (stop_step_shape s a); intros I4';
    try exact I; (constructor; [| | | exact I4']); cbn; auto; try discriminate.
  (* a connection is accepted: the accept loop is still running *)
  - apply Forall_app_one; [exact I1 | apply cinv_new].
  - apply Forall_app_one; [exact I2 | split; constructor].
  - congruence.
  (* a client sends: the message gets the next id *)
  - apply Forall_upd; [exact I1 | exact (cinv_set_inbox _ _ (Forall_nth_error _ _ _ _ _ I1 E))].
  - apply Forall_upd.
    + eapply Forall_impl; [| exact I2]. intros y. apply ids_lt_mono. lia.
    + apply ids_csend. exact (Forall_nth_error _ _ _ _ _ I2 E).
  - intros A. apply Forall_upd; [auto | exact (Forall_nth_error _ _ _ _ _ (I3 A) E)].
  (* a connection steps *)
  - apply Forall_upd; [exact I1 | exact (cinv_cstep _ _ _ _ (Forall_nth_error _ _ _ _ _ I1 E) St)].
  - apply Forall_upd; [exact I2 | exact (ids_cstep _ _ _ _ _ (Forall_nth_error _ _ _ _ _ I2 E) St)].
  - intros A. apply Forall_upd; [auto | exact (cstep_tok _ _ _ _ St (Forall_nth_error _ _ _ _ _ (I3 A) E))].
Qed.

Lemma run_sinv : forall tr cap, sinv (run (init_cap cap) tr).
Proof. intros. apply (run_stable sinv step_sinv), sinv_init. Qed.

Lemma effective_conn : forall s c a, effective s (Conn c a) =
  match nth_error (s_conns s) c with
  | Some x => match cstep (sig s) x a with Some _ => true | None => false end
  | None => false
  end.
Proof. intros. unfold effective, step. destruct (nth_error (s_conns s) c); auto. destruct (cstep (sig s) c0 a); auto. Qed.

Lemma step_nth : forall s a c x, nth_error (s_conns s) c = Some x ->
  exists x', nth_error (s_conns (fst (step s a))) c = Some x' /\ (c_closed x = true -> c_closed x' = true).
Proof.
  intros s a c x H.
  destruct (stop_step_shape s a); cbn; eauto.
  - exists x. split; auto. rewrite nth_error_app1; auto. apply nth_error_Some. congruence.
  - destruct (Nat.eq_dec c0 c) as [-> | Ne]; [| rewrite stop_upd_other; eauto].
    rewrite (stop_upd_same _ _ _ _ _ E). eexists; split; [reflexivity |]. congruence.
  - destruct (Nat.eq_dec c0 c) as [-> | Ne]; [| rewrite stop_upd_other; eauto].
    rewrite (stop_upd_same _ _ _ _ _ E). eexists; split; [reflexivity |].
    rewrite E in H. injection H as <-. exact (cstep_closed _ _ _ _ St).
Qed.

Lemma run_nth_closed : forall tr s c x, nth_error (s_conns s) c = Some x -> c_closed x = true ->
  exists x', nth_error (s_conns (run s tr)) c = Some x' /\ c_closed x' = true.
Proof.
  induction tr; simpl; intros; eauto.
  destruct (step_nth s a c x H) as (x1 & N1 & C1). eapply IHtr; eauto.
Qed.

Definition in_flight_at (s : state) (c : nat) (k : N) : nat :=
  match nth_error (s_conns s) c with Some x => in_flight x k | None => 0 end.

Definition start_inc (s : state) (a : action) (c : nat) (k : N) : nat :=
  match a with
  | Conn c' (CStart k') => if Nat.eqb c' c && N.eqb k' k && effective s a then 1 else 0
  | _ => 0
  end.

Lemma starts_cons : forall s a r c k, starts s (a :: r) c k = start_inc s a c k + starts (fst (step s a)) r c k.
Proof. reflexivity. Qed.

Lemma starts_app : forall t1 t2 s c k, starts s (t1 ++ t2) c k = starts s t1 c k + starts (run s t1) t2 c k.
Proof. induction t1; simpl; intros; auto. rewrite IHt1. lia. Qed.

Lemma start_inc_conn : forall s c0 a c k, effective s (Conn c0 a) = true ->
  start_inc s (Conn c0 a) c k = if Nat.eqb c0 c then start_inc_c a k else 0.
Proof.
  intros s c0 a c k E. unfold start_inc, start_inc_c. destruct a; try now destruct (Nat.eqb c0 c).
  rewrite E, andb_true_r. now destruct (Nat.eqb c0 c), (N.eqb k0 k).
Qed.

Lemma start_inc_idle : forall s a c k, effective s a = false -> start_inc s a c k = 0.
Proof. intros s a c k E. unfold start_inc. destruct a as [| | c0 []| | | | | |]; auto. now rewrite E, andb_false_r. Qed.

Lemma in_flight_new : forall kd cap k, in_flight (new_conn kd cap) k = 0.
Proof. destruct kd; reflexivity. Qed.

Lemma step_in_flight : forall s a c k x1, sinv s ->
  nth_error (s_conns (fst (step s a))) c = Some x1 -> c_closed x1 = false ->
  in_flight x1 k = in_flight_at s c k + start_inc s a c k.
Proof.
  intros s a c k x1 [I1 _ _ _] H C. unfold in_flight_at.
  remember (effective s a) as e eqn:Ef. symmetry in Ef. pose proof (stop_step_shape s a) as T. rewrite Ef in T. revert H.
  destruct T; intros Hx; cbn in Hx;
    try (rewrite Hx; cbn; lia).
  - rewrite (start_inc_idle _ _ _ _ Ef), Hx. lia.
  - (* the new connection has no call yet *)
    cbn. destruct (nth_error (s_conns s) c) eqn:E.
    + rewrite nth_error_app1 in Hx by (apply nth_error_Some; congruence). rewrite E in Hx. injection Hx as <-. lia.
    + apply nth_error_None in E. rewrite nth_error_app2 in Hx by auto.
      destruct (c - length (s_conns s)) as [|[|m]]; try discriminate Hx. injection Hx as <-. rewrite in_flight_new. lia.
  - cbn. destruct (Nat.eq_dec c0 c) as [-> | Ne]; [| rewrite stop_upd_other in Hx by auto; rewrite Hx; lia].
    rewrite (stop_upd_same _ _ _ _ _ E) in Hx. injection Hx as <-. rewrite E. unfold in_flight; cbn. lia.
  - rewrite (start_inc_conn _ _ _ _ _ Ef).
    destruct (Nat.eqb_spec c0 c) as [-> | Ne]; [| rewrite stop_upd_other in Hx by auto; rewrite Hx; lia].
    rewrite (stop_upd_same _ _ _ _ _ E) in Hx. injection Hx as <-. rewrite E.
    exact (in_flight_cstep _ _ _ _ k (Forall_nth_error _ _ _ _ _ I1 E) St C).
Qed.

Lemma step_none_in_flight : forall s a c k, nth_error (s_conns (fst (step s a))) c = None ->
  in_flight_at s c k + start_inc s a c k = 0.
Proof.
  intros s a c k H. unfold in_flight_at.
  destruct (nth_error (s_conns s) c) eqn:E.
  - destruct (step_nth s a c _ E) as (x' & N1 & _). congruence.
  - unfold start_inc. destruct a; auto. destruct a; auto.
    destruct (Nat.eqb_spec c0 c); simpl; auto. subst.
    rewrite effective_conn, E, andb_false_r. auto.
Qed.

Lemma run_in_flight : forall tr s c k x', sinv s ->
  nth_error (s_conns (run s tr)) c = Some x' -> c_closed x' = false ->
  in_flight x' k = in_flight_at s c k + starts s tr c k.
Proof.
  induction tr; intros s c k x' I H C.
  - simpl in *. unfold in_flight_at. rewrite H. lia.
  - rewrite starts_cons. simpl in H.
    pose proof (step_sinv s a I) as I'.
    rewrite (IHtr _ _ k _ I' H C).
    unfold in_flight_at at 1.
    destruct (nth_error (s_conns (fst (step s a))) c) eqn:E.
    + destruct (c_closed c0) eqn:Cl.
      * destruct (run_nth_closed tr _ _ _ E Cl) as (x2 & N2 & C2). congruence.
      * rewrite (step_in_flight s a c k c0 I E Cl). lia.
    + pose proof (step_none_in_flight s a c k E). lia.
Qed.

Lemma done_conn : forall x, cinv x -> c_phase x = PDone ->
  c_writer x = WFin /\ c_queue x = [] /\ (c_closed x = false -> c_tasks x = []) /\
  (c_tasks x <> [] -> c_kind x = KWs /\ c_closed x = true) /\ (c_kind x = KHttp -> c_tok x = false).
Proof.
  intros x I D. destruct (c_kind x) eqn:K.
  - apply cinv_http in I; [| exact K]. pose proof (http_done_idle x I D) as T.
    repeat split; try congruence; [apply I | apply I | intros _; now apply I].
  - apply cinv_ws in I; [| exact K]. pose proof (ws_done_fin x I D) as W.
    assert (V : c_wstop x = true) by (apply I; auto).
    split; [exact W | split; [exact (ws_fin_queue x I W) | split; [| split; [| discriminate]]]].
    + intros C. exact (ws_wstop_idle x I C V).
    + intros T. split; [reflexivity |]. destruct (c_closed x) eqn:C; [reflexivity | elim T; exact (ws_wstop_idle x I C V)].
Qed.

Lemma in_flight_done : forall x k, cinv x -> c_phase x = PDone -> c_closed x = false ->
  in_flight x k = count_occ N.eq_dec (c_wire x) k.
Proof.
  intros x k I D C. destruct (done_conn x I D) as (_ & Q & T & _). unfold in_flight. rewrite Q, (T C). reflexivity.
Qed.

(* after `stopped`: everything is dropped, and the tasks left over are of messages sent before `bound` *)
Record stopped_quiet (bound : N) (s : state) : Prop := {
  quiet_sinv : sinv s;
  quiet_dropped : all_dropped s = true;
  quiet_ids : Forall (fun x => Forall (fun t => (fst t < bound)%N) (c_tasks x)) (s_conns s) }.

Lemma stopped_quiet_step : forall b s a, stopped_quiet b s -> stopped_quiet b (fst (step s a)).
Proof.
  intros b s a [I D T]. constructor; [apply step_sinv; auto | apply all_dropped_step; auto |].
  destruct (stop_step_shape s a); auto.
  - apply all_dropped_iff in D as [A' _]. congruence.
  - apply Forall_upd; [exact T |]. exact (Forall_nth_error _ _ _ _ _ T E).
  - apply Forall_upd; [exact T |]. apply (cstep_task_ids (fun k => (k < b)%N) _ _ _ _ St).
    + left. exact (all_dropped_nth _ _ _ D E).
    + exact (Forall_nth_error _ _ _ _ _ T E).
Qed.

Definition cact_internal (a : cact) : bool := match a with CDisconnect | CSubOpen => false | _ => true end.

Lemma internal_conn : forall c a, internal (Conn c a) = cact_internal a.
Proof. destruct a; reflexivity. Qed.

Lemma set_first_head : forall k a b r, set_first (k, a) (k, b) ((k, a) :: r) = Some ((k, b) :: r).
Proof. intros. simpl. rewrite task_eqb_refl. reflexivity. Qed.

(* the queue capacity is a constant of the server, copied into every connection *)
Definition capinv (cap : nat) (s : state) : Prop := s_cap s = cap /\ Forall (fun x => c_cap x = cap) (s_conns s).

Lemma step_capinv : forall cap s a, capinv cap s -> capinv cap (fst (step s a)).
Proof.
  intros cap s a [A F].
  destruct (stop_step_shape s a); split; auto; cbn.
  - apply Forall_app_one; [exact F | now destruct k].
  - apply Forall_upd; [exact F | exact (Forall_nth_error _ _ _ _ _ F E)].
  - apply Forall_upd; [exact F |]. rewrite (cstep_cap _ _ _ _ St). exact (Forall_nth_error _ _ _ _ _ F E).
Qed.

Lemma cstep_complete : forall sg x a x', cstep_to sg x a x' -> cstep sg x a = Some x'.
Proof.
  intros sg x a x' H. destruct H; try subst sg; unfold cstep; use_guards; try reflexivity.
  - apply Nat.ltb_lt in L. now rewrite L.
  - now rewrite put_wire_set.
  - rewrite put_wire_set. unfold wire_with. cbn. now rewrite C.
  - now rewrite put_wire_set.
  - now destruct (c_tasks x).
  - destruct G as [G | [G | G]]; rewrite G; cbn; rewrite ?orb_true_r; reflexivity.
  - now destruct P as [P | P]; rewrite P.
Qed.

Lemma conn_progress : forall x, cinv x -> 1 <= c_cap x -> c_phase x <> PDone ->
  exists a, cact_internal a = true /\ cstep true x a <> None.
Proof.
  intros x I Cp D.
  assert (Go : forall a x', cact_internal a = true -> cstep_to true x a x' ->
               exists a, cact_internal a = true /\ cstep true x a <> None).
  { intros a x' Ia St. exists a. split; [exact Ia |]. now rewrite (cstep_complete _ _ _ _ St). }
  destruct (c_kind x) eqn:K, (c_phase x) eqn:P; try congruence.
  - destruct (c_tasks x) eqn:T.
    + now apply (Go CSeeStop (http_done x)), StSeeStopIdle.
    + apply (Go CSeeStop (set_phase x PGraceful)), StSeeStopBusy; try reflexivity; congruence.
  - (* hyper finishes the request in flight *)
    apply cinv_http in I; [| exact K]. pose proof (http_one x I) as L. pose proof (http_graceful_busy x I P) as Nb.
    destruct (c_tasks x) as [|[k ts] [|]] eqn:T; [now elim Nb | | simpl in L; lia]. destruct ts.
    + eapply (Go (CStart k)), StStart; [reflexivity |]. rewrite T. apply set_first_head.
    + eapply (Go (CFinish k)), StFinish; [reflexivity |]. rewrite T. apply set_first_head.
    + now eapply (Go CWrite), (StWriteHttpLast _ _ k).
  - apply cinv_http in I; [| exact K]. now elim (http_phase x I).
  - now apply (Go CSeeStop (set_phase x PGraceful)), StSeeStopWs.
  - destruct (c_tasks x) as [|[k []] r] eqn:T.
    + apply (Go CGracefulEnd (set_wstop (set_phase x PClosing) true)), StGracefulEnd; auto.
    + eapply (Go (CStart k)), StStart; [reflexivity |]. rewrite T. apply set_first_head.
    + eapply (Go (CFinish k)), StFinish; [reflexivity |]. rewrite T. apply set_first_head.
    + (* a returned call: it is queued if there is room (or the queue is closed), else the writer can write *)
      assert (R : remove_first (k, TRet) (c_tasks x) = Some r) by (rewrite T; simpl; now rewrite task_eqb_refl).
      destruct (c_writer x) eqn:W; [| now eapply (Go (CEnqueue k)), (StEnqueueLost _ _ k r)].
      destruct (Nat.ltb_spec (length (c_queue x)) (c_cap x)); [now eapply (Go (CEnqueue k)), (StEnqueue _ _ k r) |].
      destruct (c_queue x) as [|k' q] eqn:Q; [simpl in *; lia |]. now eapply (Go CWrite), (StWriteWs _ _ k' q).
  - apply cinv_ws in I; [| exact K]. assert (V : c_wstop x = true) by (apply I; auto).
    destruct (c_writer x) eqn:W; [| now apply (Go CBgDone (set_phase x PDone)), StBgDone].
    destruct (c_queue x) as [|k' q] eqn:Q; [now apply (Go CWriterStop (set_writer x WFin)), StWriterStop |].
    now eapply (Go CWrite), (StWriteWs _ _ k' q).
Qed.

(* The weights are chosen so that every internal step loses at least 1: a message is worth 5 in the inbox and 4 as a
   spawned task (read); a task goes 4, 3, 2 as it starts and returns; a returned task (2) becomes a queued reply (1), which
   is written (0); phases, the writer and the token only count down. *)
Definition tweight (t : N * tstate) : nat := match snd t with TSpawned => 4 | TExec => 3 | TRet => 2 end.
Fixpoint tsum (l : list (N * tstate)) : nat := match l with [] => 0 | t :: r => tweight t + tsum r end.

Definition cmu (x : conn) : nat :=
  5 * length (c_inbox x) + tsum (c_tasks x) + length (c_queue x) +
  (match c_phase x with PReading => 3 | PGraceful => 2 | PClosing => 1 | PDone => 0 end) +
  (match c_writer x with WRun => 1 | WFin => 0 end) + (if c_tok x then 1 else 0).

Fixpoint csum (l : list conn) : nat := match l with [] => 0 | x :: r => cmu x + csum r end.

Definition mu (s : state) : nat :=
  csum (s_conns s) + (match s_accept s with ARun => 2 | ADrain => 1 | ADone => 0 end) + (if s_resolved s then 0 else 1).

Lemma tsum_app : forall a b, tsum (a ++ b) = tsum a + tsum b.
Proof. induction a; simpl; intros; auto. rewrite IHa. lia. Qed.

Lemma set_first_tsum : forall t t' l l', set_first t t' l = Some l' -> tsum l' + tweight t = tsum l + tweight t'.
Proof. intros t t' l l' H. apply set_first_split in H as (l1 & l2 & -> & ->). rewrite !tsum_app. simpl. lia. Qed.

Lemma remove_first_tsum : forall t l l', remove_first t l = Some l' -> tsum l' + tweight t = tsum l.
Proof. intros t l l' H. apply remove_first_split in H as (l1 & l2 & -> & ->). rewrite !tsum_app. simpl. lia. Qed.

Lemma cstep_decreases : forall sg x a x', cact_internal a = true -> cstep sg x a = Some x' -> cmu x' < cmu x.
Proof.
  intros sg x a x' Ia H.
  destruct (cstep_shape _ _ _ _ H); clear H; try discriminate Ia; unfold cmu; cbn -[Nat.mul]; use_guards;
    try (apply set_first_tsum in Sf); try (apply remove_first_tsum in R);
    rewrite ?tsum_app, ?app_length; cbn -[Nat.mul] in *; try lia.
  destruct P as [P | P]; rewrite P; lia.
Qed.

Lemma csum_upd : forall l c x x', nth_error l c = Some x -> cmu x' < cmu x -> csum (upd c x' l) < csum l.
Proof.
  induction l; destruct c; simpl; intros; try discriminate.
  - inversion H; subst. lia.
  - specialize (IHl _ _ _ H H0). lia.
Qed.

