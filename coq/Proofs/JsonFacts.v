(* Facts about the JSON model on top of JsonScan (re-exported): the bytes a value starts and ends with,
   the one-step equations of parser and scanner, the round trip through the serialiser, the image of the
   strict parser, arrays assembled from raw element texts, truncation of the input, trailing whitespace. *)
From JV Require Import Base.Bytes Base.Dec Base.Utf8 Json.Json Json.JsonSer Json.JsonParse Json.JsonWf.
From JV Require Export Proofs.JsonScan.
Local Open Scope N_scope.

Definition vstart (c : byte) : bool :=
  beqb c x6e || beqb c x74 || beqb c x66 || beqb c x22 || is_num_start c || beqb c x5b || beqb c x7b.

Lemma vstart_nws c : vstart c = true -> is_json_ws c = false.
Proof. intro H. apply (not_ws_of vstart c H); reflexivity. Qed.
Lemma vstart_not_rbracket c : vstart c = true -> beqb c x5d = false.
Proof. intro H. apply (beqb_false_of vstart c _ H). reflexivity. Qed.
Lemma vstart_not_rbrace c : vstart c = true -> beqb c x7d = false.
Proof. intro H. apply (beqb_false_of vstart c _ H). reflexivity. Qed.

Lemma num_start_vstart c : is_num_start c = true -> vstart c = true.
Proof. intro H. unfold vstart. rewrite H, orb_true_r. reflexivity. Qed.

(* what the first byte of a value is not (a comma, a closing bracket, ...) follows by beqb_false_of vstart *)
Lemma sval_vstart f s t r : sval f s t r -> exists c s1, skip_ws s = c :: s1 /\ vstart c = true.
Proof.
  destruct 1; do 2 eexists; (split; [eassumption|]); first [reflexivity | apply num_start_vstart; assumption].
Qed.
Lemma skip_value_vstart f s t r : skip_value f s = Some (t, r) -> exists c s1, skip_ws s = c :: s1 /\ vstart c = true.
Proof. intro H. apply sgraph_sound in H. exact (sval_vstart _ _ _ _ H). Qed.
Lemma parse_value_vstart f d s v r : parse_value f d s = Some (v, r) ->
  exists c s1, skip_ws s = c :: s1 /\ vstart c = true.
Proof. intro H. apply strict_is_lenient in H as [t H]. exact (skip_value_vstart _ _ _ _ H). Qed.

Lemma skip_value_head f s t r : skip_value f s = Some (t, r) ->
  exists c s1, skip_ws s = c :: s1 /\ beqb c x5d = false /\ beqb c x2c = false.
Proof.
  intro H. destruct (skip_value_vstart _ _ _ _ H) as (c & s1 & E & V). exists c, s1.
  repeat split; [exact E | apply (beqb_false_of vstart c _ V); reflexivity ..].
Qed.


Lemma json_ind' (P : json -> Prop) :
  P JNull -> (forall b, P (JBool b)) -> (forall x, P (JNum x)) -> (forall s, P (JStr s)) ->
  (forall l, Forall P l -> P (JArr l)) ->
  (forall m, Forall (fun kv => P (snd kv)) m -> P (JObj m)) ->
  forall v, P v.
Proof.
  intros Hn Hb Hx Hs Ha Ho. fix F 1. intros [| b | x | s | l | m].
  - exact Hn.
  - apply Hb.
  - apply Hx.
  - apply Hs.
  - apply Ha. induction l as [|v l IH]; constructor; [apply F | exact IH].
  - apply Ho. induction m as [|[k v] m IH]; constructor; [apply F | exact IH].
Qed.

(* ser_elems, ser_members, max_depth, max_depth_m name the anonymous loops inside JsonSer.ser and Json.jdepth;
   ser_arr, ser_obj, jdepth_arr, jdepth_obj tie them to those, by reflexivity *)
Fixpoint ser_elems (l : list json) : bytes :=
  match l with
  | [] => [x5d]
  | [x] => ser x ++ [x5d]
  | x :: l' => ser x ++ x2c :: ser_elems l'
  end.

Fixpoint ser_members (m : list (bytes * json)) : bytes :=
  match m with
  | [] => [x7d]
  | [(k, x)] => ser_str k ++ x3a :: ser x ++ [x7d]
  | (k, x) :: m' => ser_str k ++ x3a :: ser x ++ x2c :: ser_members m'
  end.

Lemma ser_arr l : ser (JArr l) = x5b :: ser_elems l.
Proof. reflexivity. Qed.

Lemma ser_obj m : ser (JObj m) = x7b :: ser_members m.
Proof. reflexivity. Qed.

Lemma ser_elems_one x : ser_elems [x] = ser x ++ [x5d].
Proof. reflexivity. Qed.
Lemma ser_elems_cons x y l : ser_elems (x :: y :: l) = ser x ++ x2c :: ser_elems (y :: l).
Proof. reflexivity. Qed.
Lemma ser_members_one k x : ser_members [(k, x)] = ser_str k ++ x3a :: ser x ++ [x7d].
Proof. reflexivity. Qed.
Lemma ser_members_cons k x kv m : ser_members ((k, x) :: kv :: m) = ser_str k ++ x3a :: ser x ++ x2c :: ser_members (kv :: m).
Proof. destruct kv. reflexivity. Qed.

Lemma ser_str_app k X : ser_str k ++ X = x22 :: escape_body k ++ x22 :: X.
Proof. unfold ser_str. cbn [app]. rewrite <- app_assoc. reflexivity. Qed.

Definition max_depth (l : list json) : nat := fold_right (fun x acc => Nat.max (jdepth x) acc) 0%nat l.
Definition max_depth_m (m : list (bytes * json)) : nat :=
  fold_right (fun kv acc => Nat.max (jdepth (snd kv)) acc) 0%nat m.
Lemma jdepth_arr l : jdepth (JArr l) = S (max_depth l).
Proof. reflexivity. Qed.
Lemma jdepth_obj m : jdepth (JObj m) = S (max_depth_m m).
Proof. reflexivity. Qed.

Lemma num_eqb_eq a b : num_eqb a b = true -> a = b.
Proof.
  destruct a, b; cbn; intro H; try discriminate.
  - apply N.eqb_eq in H. congruence.
  - apply N.eqb_eq in H. congruence.
  - apply bytes_eqb_eq in H. congruence.
Qed.

Lemma wf_float_inv l : wf_num (NFloat l) = true ->
  exists nl, scan_number l = Some (nl, []) /\ numlex_bytes nl = l /\ classify_num nl = NFloat l.
Proof.
  cbn [wf_num]. intro H. repeat step H. apply andb_true_iff in H as [H1 H2].
  apply bytes_eqb_eq in H1. apply num_eqb_eq in H2. eexists; repeat split; eassumption.
Qed.

Lemma ser_head v : wf v = true -> exists c tl, ser v = c :: tl /\ vstart c = true.
Proof.
  destruct v as [| [|] | [n|n|l] | s | l | m]; intro W; try (do 2 eexists; split; reflexivity).
  - cbn [ser ser_num]. destruct (print_N_shape n) as [E | (c & ds & E & Hc & _)]; rewrite E.
    + do 2 eexists; split; reflexivity.
    + do 2 eexists; split; [reflexivity|]. apply num_start_vstart, is_digit_num_start, nz_is_digit, Hc.
  - cbn [ser ser_num]. apply wf_float_inv in W as (nl & H & _ & _).
    apply scan_number_head in H as (c & s1 & -> & Hc). do 2 eexists; split; [reflexivity|].
    apply num_start_vstart, Hc.
Qed.

Lemma ser_nonempty v : wf v = true -> (1 <= length (ser v))%nat.
Proof. intro W. destruct (ser_head v W) as (c & tl & -> & _). cbn. lia. Qed.

Lemma ser_elems_head x l : wf x = true -> exists c tl, ser_elems (x :: l) = c :: tl /\ vstart c = true.
Proof.
  intro W. destruct (ser_head x W) as (c & tl & E & Hc).
  destruct l as [|y l]; [rewrite ser_elems_one | rewrite ser_elems_cons]; rewrite E;
    do 2 eexists; (split; [reflexivity | exact Hc]).
Qed.

Lemma parse_value_num_start f d c s1 : is_num_start c = true ->
  parse_value (S f) d (c :: s1) =
    match scan_number (c :: s1) with Some (l, r) => Some (JNum (classify_num l), r) | None => None end.
Proof.
  intro H. destruct (num_start_not_lit c H) as (E1 & E2 & E3 & E4).
  rewrite parse_value_S, skip_ws_cons_nws by (apply (not_ws_of is_num_start c H); reflexivity).
  rewrite E1, E2, E3, E4, H. reflexivity.
Qed.

Lemma parse_value_number f d s l r :
  scan_number s = Some (l, r) -> parse_value (S f) d s = Some (JNum (classify_num l), r).
Proof.
  intro H. destruct (scan_number_head _ _ H) as (c & s1 & -> & Hc).
  rewrite (parse_value_num_start f d c s1 Hc), H. reflexivity.
Qed.

Lemma parse_value_str f d X :
  parse_value (S f) d (x22 :: X) =
    match scan_str_valid X with Some (t, r) => Some (JStr t, r) | None => None end.
Proof. reflexivity. Qed.

Lemma scan_str_valid_escape k X : utf8_valid k = true -> scan_str_valid (escape_body k ++ x22 :: X) = Some (k, X).
Proof. intro H. unfold scan_str_valid. rewrite scan_str_escape, H. reflexivity. Qed.

Lemma parse_value_arr f d s1 c2 r vs r' :
  skip_ws s1 = c2 :: r -> beqb c2 x5d = false -> parse_elems f (S d) s1 = Some (vs, r') ->
  parse_value (S f) (S (S d)) (x5b :: s1) = Some (JArr vs, r').
Proof.
  intros H1 H2 H3. rewrite parse_value_S, (skip_ws_cons_nws x5b) by reflexivity.
  cbv beta iota. rewrite H1, H2, H3. reflexivity.
Qed.

Lemma parse_value_obj f d s1 c2 r ms r' :
  skip_ws s1 = c2 :: r -> beqb c2 x7d = false -> parse_members f (S d) s1 = Some (ms, r') ->
  parse_value (S f) (S (S d)) (x7b :: s1) = Some (JObj ms, r').
Proof.
  intros H1 H2 H3. rewrite parse_value_S, (skip_ws_cons_nws x7b) by reflexivity.
  cbv beta iota. rewrite H1, H2, H3. reflexivity.
Qed.

Lemma parse_elems_last f d s v rest :
  parse_value f d s = Some (v, x5d :: rest) -> parse_elems (S f) d s = Some ([v], rest).
Proof. intro H. rewrite parse_elems_S, H. reflexivity. Qed.

Lemma parse_elems_more f d s v r1 vs r2 :
  parse_value f d s = Some (v, x2c :: r1) -> parse_elems f d r1 = Some (vs, r2) ->
  parse_elems (S f) d s = Some (v :: vs, r2).
Proof.
  intros H1 H2. rewrite parse_elems_S, H1, (skip_ws_cons_nws x2c) by reflexivity.
  cbv beta iota. rewrite (beqb_refl x2c), H2. reflexivity.
Qed.

Lemma parse_members_last f d k s1 v rest : utf8_valid k = true ->
  parse_value f d s1 = Some (v, x7d :: rest) ->
  parse_members (S f) d (ser_str k ++ x3a :: s1) = Some ([(k, v)], rest).
Proof.
  intros U H. rewrite parse_members_S, ser_str_app, (skip_ws_cons_nws x22) by reflexivity.
  cbv beta iota. rewrite (beqb_refl x22), (scan_str_valid_escape k _ U).
  rewrite (skip_ws_cons_nws x3a) by reflexivity. cbv beta iota.
  rewrite (beqb_refl x3a), H. reflexivity.
Qed.

Lemma parse_members_more f d k s1 v r1 ms r2 : utf8_valid k = true ->
  parse_value f d s1 = Some (v, x2c :: r1) -> parse_members f d r1 = Some (ms, r2) ->
  parse_members (S f) d (ser_str k ++ x3a :: s1) = Some ((k, v) :: ms, r2).
Proof.
  intros U H1 H2. rewrite parse_members_S, ser_str_app, (skip_ws_cons_nws x22) by reflexivity.
  cbv beta iota. rewrite (beqb_refl x22), (scan_str_valid_escape k _ U).
  rewrite (skip_ws_cons_nws x3a) by reflexivity. cbv beta iota.
  rewrite (beqb_refl x3a), H1, (skip_ws_cons_nws x2c) by reflexivity.
  cbv beta iota. rewrite (beqb_refl x2c), H2. reflexivity.
Qed.

Lemma scan_number_neg s l r : scan_number s = Some (l, r) -> nl_neg l = false ->
  scan_number (x2d :: s) =
    Some ({| nl_neg := true; nl_int := nl_int l; nl_frac := nl_frac l; nl_exp := nl_exp l |}, r).
Proof.
  unfold scan_number. rewrite (beqb_refl x2d). destruct s as [|c t].
  - cbn. intro H. discriminate H.
  - destruct (beqb c x2d).
    + intros H Hn. repeat step H. inv_some H. cbn in Hn. discriminate Hn.
    + intros H Hn. repeat step H. inv_some H. reflexivity.
Qed.

Lemma ser_members_head k x m : exists tl, ser_members ((k, x) :: m) = x22 :: tl.
Proof.
  destruct m as [|y m]; [rewrite ser_members_one | rewrite ser_members_cons];
    rewrite ser_str_app; eexists; reflexivity.
Qed.

Definition parse_ok (v : json) : Prop :=
  forall rest f d, wf v = true -> ok_follow rest = true ->
    (length (ser v) <= f)%nat -> (jdepth v < d)%nat ->
    parse_value f d (ser v ++ rest) = Some (v, rest).

Lemma parse_elems_ser l : Forall parse_ok l -> l <> [] ->
  forall rest f d, forallb wf l = true -> (length (ser_elems l) <= f)%nat -> (max_depth l < d)%nat ->
    parse_elems f d (ser_elems l ++ rest) = Some (l, rest).
Proof.
  induction 1 as [|x l Hx Hl IH]; [congruence|]. intros _ rest f d W Hf Hd.
  cbn [forallb] in W. apply andb_true_iff in W as [Wx Wl].
  cbn [max_depth fold_right] in Hd. fold (max_depth l) in Hd.
  destruct f as [|f]; [destruct l as [|y l]; [rewrite ser_elems_one in Hf | rewrite ser_elems_cons in Hf]; len_solve|].
  destruct l as [|y l].
  - rewrite ser_elems_one in Hf |- *. rewrite <- app_assoc. cbn [app].
    apply parse_elems_last. apply Hx; [exact Wx | reflexivity | len_solve | lia].
  - rewrite ser_elems_cons in Hf |- *. rewrite <- app_assoc. cbn [app].
    eapply parse_elems_more.
    + apply Hx; [exact Wx | reflexivity | len_solve | lia].
    + apply IH; [discriminate | exact Wl | len_solve | lia].
Qed.

Lemma parse_members_ser m : Forall (fun kv => parse_ok (snd kv)) m -> m <> [] ->
  forall rest f d, forallb (fun kv => utf8_valid (fst kv) && wf (snd kv)) m = true ->
    (length (ser_members m) <= f)%nat -> (max_depth_m m < d)%nat ->
    parse_members f d (ser_members m ++ rest) = Some (m, rest).
Proof.
  induction 1 as [|[k x] m Hx Hm IH]; [congruence|]. intros _ rest f d W Hf Hd.
  cbn [forallb fst snd] in W. apply andb_true_iff in W as [Wx Wm]. apply andb_true_iff in Wx as [Uk Wx].
  cbn [max_depth_m fold_right snd] in Hd. fold (max_depth_m m) in Hd. cbn [snd] in Hx.
  destruct f as [|f]; [destruct m as [|y m]; [rewrite ser_members_one in Hf | rewrite ser_members_cons in Hf]; len_solve|].
  destruct m as [|y m].
  - rewrite ser_members_one in Hf |- *. rewrite <- app_assoc. cbn [app]. rewrite <- app_assoc. cbn [app].
    apply parse_members_last; [exact Uk|]. apply Hx; [exact Wx | reflexivity | len_solve | lia].
  - rewrite ser_members_cons in Hf |- *. rewrite <- app_assoc. cbn [app]. rewrite <- app_assoc. cbn [app].
    eapply parse_members_more; [exact Uk | |].
    + apply Hx; [exact Wx | reflexivity | len_solve | lia].
    + apply IH; [discriminate | exact Wm | len_solve | lia].
Qed.

Lemma parse_ser_gen v : parse_ok v.
Proof.
  induction v as [| b | x | s | l IHl | m IHm] using json_ind'; intros rest f d W Hr Hf Hd.
  - destruct f as [|f]; [cbn in Hf; lia | reflexivity].
  - destruct f as [|f]; [destruct b; cbn in Hf; lia | destruct b; reflexivity].
  - assert (L := ser_nonempty _ W). destruct f as [|f]; [lia|]. cbn [ser wf] in *.
    destruct x as [n|n|lx]; cbn [ser_num wf_num] in *.
    + rewrite (parse_value_number f d _ _ _ (scan_number_print_N n rest Hr)).
      unfold classify_num. cbn [nl_neg nl_int nl_frac nl_exp]. rewrite digits_val_print_N, W. reflexivity.
    + cbn [app]. rewrite (parse_value_number f d _ _ _ (scan_number_neg _ _ _ (scan_number_print_N n rest Hr) eq_refl)).
      unfold classify_num. cbn [nl_neg nl_int nl_frac nl_exp]. rewrite digits_val_print_N, W. reflexivity.
    + apply wf_float_inv in W as (nl & Hs & Hb & Hc).
      rewrite (parse_value_number f d _ _ _ (scan_number_extend _ _ _ rest Hs (or_intror Hr))), Hc. reflexivity.
  - assert (L := ser_nonempty _ W). destruct f as [|f]; [lia|]. cbn [ser wf] in *.
    rewrite ser_str_app, parse_value_str, (scan_str_valid_escape s rest W). reflexivity.
  - rewrite jdepth_arr in Hd. rewrite ser_arr in Hf |- *. cbn [wf] in W.
    destruct f as [|f]; [cbn in Hf; lia|]. destruct d as [|[|d]]; [lia | lia |].
    destruct l as [|x l]; [reflexivity|].
    assert (Wx : wf x = true) by (cbn in W; apply andb_true_iff in W; tauto).
    destruct (ser_elems_head x l Wx) as (c & tl & E & Hc). cbn [app].
    eapply parse_value_arr.
    + rewrite E. cbn [app]. apply skip_ws_cons_nws, vstart_nws, Hc.
    + apply vstart_not_rbracket, Hc.
    + apply parse_elems_ser; [exact IHl | discriminate | exact W | cbn [length] in Hf; lia | lia].
  - rewrite jdepth_obj in Hd. rewrite ser_obj in Hf |- *. cbn [wf] in W.
    destruct f as [|f]; [cbn in Hf; lia|]. destruct d as [|[|d]]; [lia | lia |].
    destruct m as [|[k x] m]; [reflexivity|]. cbn [app].
    destruct (ser_members_head k x m) as [tl E].
    eapply parse_value_obj.
    + rewrite E. cbn [app]. apply skip_ws_cons_nws. reflexivity.
    + reflexivity.
    + apply parse_members_ser; [exact IHm | discriminate | exact W | cbn [length] in Hf; lia | lia].
Qed.

Theorem parse_ser v rest : wf v = true -> (jdepth v < depth_limit)%nat -> ok_follow rest = true ->
  forall f d, (length (ser v) < f)%nat -> (jdepth v < d)%nat ->
    parse_value f d (ser v ++ rest) = Some (v, rest).
Proof. intros W _ Hr f d Hf Hd. apply parse_ser_gen; [exact W | exact Hr | lia | exact Hd]. Qed.

Theorem parse_text_ser v : wf v = true -> (jdepth v < depth_limit)%nat -> parse_text (ser v) = Some v.
Proof.
  intros W D. unfold parse_text.
  pose proof (parse_ser_gen v [] (S (length (ser v))) depth_limit W eq_refl) as H.
  rewrite app_nil_r in H. rewrite H by (lia || exact D). reflexivity.
Qed.

Lemma skip_ser_le v rest : wf v = true -> ok_follow rest = true ->
  forall f, (length (ser v) <= f)%nat -> skip_value f (ser v ++ rest) = Some (ser v, rest).
Proof.
  intros W Hr f Hf.
  pose proof (parse_ser_gen v rest f (S (jdepth v)) W Hr Hf (Nat.lt_succ_diag_r _)) as H.
  apply strict_is_lenient in H as [t H].
  pose proof (skip_value_split _ _ _ _ H) as E. apply app_inv_tail in E. subst t. exact H.
Qed.

Theorem skip_ser v rest : wf v = true -> ok_follow rest = true ->
  forall f, (length (ser v) < f)%nat -> skip_value f (ser v ++ rest) = Some (ser v, rest).
Proof. intros W Hr f Hf. apply skip_ser_le; [exact W | exact Hr | lia]. Qed.

Lemma ser_num_utf8 x : wf_num x = true -> utf8_valid (ser_num x) = true.
Proof.
  destruct x as [n|n|l]; intro W; cbn [ser_num].
  - apply utf8_valid_ascii, digits_ascii, print_N_digits.
  - rewrite utf8_valid_ascii_cons by reflexivity. apply utf8_valid_ascii, digits_ascii, print_N_digits.
  - apply wf_float_inv in W as (nl & Hs & Hb & _). pose proof (scan_number_bytes _ _ _ Hs) as A.
    rewrite Hb in A. apply utf8_valid_ascii, (forallb_impl _ _ _ num_byte_ascii), A.
Qed.

Lemma ser_elems_utf8 l : Forall (fun x => wf x = true -> utf8_valid (ser x) = true) l ->
  forallb wf l = true -> utf8_valid (ser_elems l) = true.
Proof.
  induction 1 as [|x l Hx Hl IH]; intro W; [reflexivity|].
  cbn [forallb] in W. apply andb_true_iff in W as [Wx Wl].
  destruct l as [|y l].
  - rewrite ser_elems_one. apply utf8_valid_app; [apply Hx, Wx | reflexivity].
  - rewrite ser_elems_cons. apply utf8_valid_app; [apply Hx, Wx|].
    rewrite utf8_valid_ascii_cons by reflexivity. apply IH, Wl.
Qed.

Lemma ser_members_utf8 m : Forall (fun kv => wf (snd kv) = true -> utf8_valid (ser (snd kv)) = true) m ->
  forallb (fun kv => utf8_valid (fst kv) && wf (snd kv)) m = true -> utf8_valid (ser_members m) = true.
Proof.
  induction 1 as [|[k x] m Hx Hm IH]; intro W; [reflexivity|].
  cbn [forallb fst snd] in W. apply andb_true_iff in W as [Wx Wm]. apply andb_true_iff in Wx as [Uk Wx].
  cbn [snd] in Hx.
  destruct m as [|y m].
  - rewrite ser_members_one. apply utf8_valid_app; [apply ser_str_utf8, Uk|].
    rewrite utf8_valid_ascii_cons by reflexivity. apply utf8_valid_app; [apply Hx, Wx | reflexivity].
  - rewrite ser_members_cons. apply utf8_valid_app; [apply ser_str_utf8, Uk|].
    rewrite utf8_valid_ascii_cons by reflexivity. apply utf8_valid_app; [apply Hx, Wx|].
    rewrite utf8_valid_ascii_cons by reflexivity. apply IH, Wm.
Qed.

Theorem ser_utf8 v : wf v = true -> utf8_valid (ser v) = true.
Proof.
  induction v as [| b | x | s | l IHl | m IHm] using json_ind'; intro W.
  - reflexivity.
  - destruct b; reflexivity.
  - apply ser_num_utf8, W.
  - apply ser_str_utf8, W.
  - rewrite ser_arr, utf8_valid_ascii_cons by reflexivity. apply ser_elems_utf8; [exact IHl | exact W].
  - rewrite ser_obj, utf8_valid_ascii_cons by reflexivity. apply ser_members_utf8; [exact IHm | exact W].
Qed.

Theorem raw_value_ser v rest : wf v = true -> ok_follow rest = true ->
  raw_value (ser v ++ rest) = Some (ser v, rest).
Proof.
  intros W Hr. unfold raw_value.
  assert (E : skip_ws (ser v ++ rest) = ser v ++ rest).
  { destruct (ser_head v W) as (c & tl & E & Hc). rewrite E. cbn [app].
    apply skip_ws_cons_nws, vstart_nws, Hc. }
  rewrite E. rewrite (skip_ser v rest W Hr) by (rewrite app_length; lia).
  rewrite (ser_utf8 v W). reflexivity.
Qed.

Lemma classify_wf s l r : scan_number s = Some (l, r) -> wf_num (classify_num l) = true.
Proof.
  intro H.
  assert (F : classify_num l = NFloat (numlex_bytes l) -> wf_num (classify_num l) = true).
  { intro Ec. rewrite Ec. cbn [wf_num]. rewrite (scan_number_trunc _ _ _ H), bytes_eqb_refl, Ec.
    cbn. apply bytes_eqb_refl. }
  revert F. unfold classify_num.
  destruct (nl_frac l); [destruct (nl_exp l)|]; try (intro F; apply F; reflexivity).
  destruct (nl_neg l).
  - destruct ((0 <? digits_val (nl_int l)) && (digits_val (nl_int l) <=? i64_min_abs)) eqn:E; intro F;
      [cbn [wf_num]; exact E | apply F; reflexivity].
  - destruct (digits_val (nl_int l) <=? u64_max) eqn:E; intro F;
      [cbn [wf_num]; exact E | apply F; reflexivity].
Qed.

Lemma max_depth_cons x l : max_depth (x :: l) = Nat.max (jdepth x) (max_depth l).
Proof. reflexivity. Qed.
Lemma max_depth_m_cons kv m : max_depth_m (kv :: m) = Nat.max (jdepth (snd kv)) (max_depth_m m).
Proof. reflexivity. Qed.

Lemma pgraph_wf :
  (forall f d s v r, pval f d s v r -> wf v = true /\ (jdepth v <= pred d)%nat) /\
  (forall f d s vs r, pelems f d s vs r -> forallb wf vs = true /\ (max_depth vs <= pred d)%nat) /\
  (forall f d s ms r, pmembers f d s ms r ->
      forallb (fun kv => utf8_valid (fst kv) && wf (snd kv)) ms = true /\ (max_depth_m ms <= pred d)%nat).
Proof.
  apply pgraph_ind; intros;
    repeat match goal with
    | IH : _ /\ _ |- _ => destruct IH
    | E : scan_str_valid _ = Some _ |- _ => apply scan_str_valid_inv in E as [_ E]
    | E : scan_number _ = Some _ |- _ => apply classify_wf in E
    end;
    rewrite ?jdepth_arr, ?jdepth_obj, ?max_depth_cons, ?max_depth_m_cons;
    cbn [wf jdepth forallb max_depth max_depth_m fold_right fst snd pred] in *;
    rewrite ?andb_true_r; (split; [auto using andb_true_intro | lia]).
Qed.

(* scalars parse at any depth (parse_value 1 0 "null" succeeds), so the strict bound needs 0 < d *)
Theorem parse_value_wf f d s v r : (0 < d)%nat -> parse_value f d s = Some (v, r) ->
  wf v = true /\ (jdepth v < d)%nat.
Proof. intros Hd H. apply pgraph_sound, pgraph_wf in H as [W D]. split; [exact W | lia]. Qed.

Lemma parse_value_wf' f d s v r : parse_value f d s = Some (v, r) -> wf v = true /\ (jdepth v <= pred d)%nat.
Proof. intro H. apply pgraph_sound, pgraph_wf in H. exact H. Qed.

Theorem parse_text_idem s v : parse_text s = Some v -> parse_text (ser v) = Some v.
Proof.
  unfold parse_text at 1. intro H.
  destruct (parse_value (S (length s)) depth_limit s) as [[v' r]|] eqn:P; [|discriminate].
  destruct (skip_ws r); [|discriminate]. inv_some H.
  apply parse_value_wf in P as [W D]; [|unfold depth_limit; lia].
  apply parse_text_ser; assumption.
Qed.

Definition raw_ok (t : bytes) : Prop :=
  forall rest, ok_follow rest = true ->
    skip_value (S (length (t ++ rest))) (t ++ rest) = Some (t, rest).

(* every span has its leading whitespace trimmed (as Vec<&RawValue> sees the elements) *)
Fixpoint split_elems_from (fuel : nat) (s : bytes) : option (list bytes * bytes) :=
  match fuel with
  | O => None
  | S f =>
    let s' := skip_ws s in
    match skip_value (S (length s')) s' with
    | Some (t, r) =>
      match skip_ws r with
      | c :: r1 =>
        if beqb c x2c then
          match split_elems_from f r1 with Some (ts, r2) => Some (t :: ts, r2) | None => None end
        else if beqb c x5d then Some ([t], r1)
        else None
      | [] => None
      end
    | None => None
    end
  end.

(* fuel = number of elements is enough *)
Definition split_elems (fuel : nat) (s : bytes) : option (list bytes) :=
  match skip_ws s with
  | c :: s1 =>
    if beqb c x5b then
      match skip_ws s1 with
      | c2 :: r =>
        if beqb c2 x5d then match skip_ws r with [] => Some [] | _ :: _ => None end
        else match split_elems_from fuel s1 with
             | Some (ts, r') => match skip_ws r' with [] => Some ts | _ :: _ => None end
             | None => None
             end
      | [] => None
      end
    else None
  | [] => None
  end.

Lemma split_elems_from_S f s : split_elems_from (S f) s =
    let s' := skip_ws s in
    match skip_value (S (length s')) s' with
    | Some (t, r) =>
      match skip_ws r with
      | c :: r1 =>
        if beqb c x2c then
          match split_elems_from f r1 with Some (ts, r2) => Some (t :: ts, r2) | None => None end
        else if beqb c x5d then Some ([t], r1)
        else None
      | [] => None
      end
    | None => None
    end.
Proof. reflexivity. Qed.

Lemma skip_elems_last f s t rest :
  skip_value f s = Some (t, x5d :: rest) -> skip_elems (S f) s = Some (t ++ [x5d], rest).
Proof. intro H. rewrite skip_elems_S, H. reflexivity. Qed.

Lemma skip_elems_more f s t r1 t2 r2 :
  skip_value f s = Some (t, x2c :: r1) -> skip_elems f r1 = Some (t2, r2) ->
  skip_elems (S f) s = Some (t ++ x2c :: t2, r2).
Proof.
  intros H1 H2. rewrite skip_elems_S, H1, (skip_ws_cons_nws x2c) by reflexivity.
  cbv beta iota. rewrite (beqb_refl x2c), H2. reflexivity.
Qed.

Lemma skip_value_arr f s1 c2 r t r' :
  skip_ws s1 = c2 :: r -> beqb c2 x5d = false -> skip_elems f s1 = Some (t, r') ->
  skip_value (S f) (x5b :: s1) = Some (x5b :: t, r').
Proof.
  intros H1 H2 H3. rewrite skip_value_S. cbv zeta. rewrite (skip_ws_cons_nws x5b) by reflexivity.
  cbv beta iota. rewrite H1, H2, H3. reflexivity.
Qed.

Lemma skip_value_obj f s1 c2 r t r' :
  skip_ws s1 = c2 :: r -> beqb c2 x7d = false -> skip_members f s1 = Some (t, r') ->
  skip_value (S f) (x7b :: s1) = Some (x7b :: t, r').
Proof.
  intros H1 H2 H3. rewrite skip_value_S. cbv zeta. rewrite (skip_ws_cons_nws x7b) by reflexivity.
  cbv beta iota. rewrite H1, H2, H3. reflexivity.
Qed.

Lemma skip_value_object g s s1 :
  skip_ws s = x7b :: s1 ->
  skip_value (S g) s =
  match skip_ws s1 with
  | c2 :: r =>
    if beqb c2 x7d then Some (ws_prefix s ++ x7b :: ws_prefix s1 ++ [c2], r)
    else match skip_members g s1 with Some (t, r') => Some (ws_prefix s ++ x7b :: t, r') | None => None end
  | [] => None
  end.
Proof. intro E. rewrite skip_value_S, E. reflexivity. Qed.

Lemma ws_prefix_skip_ws s : ws_prefix (skip_ws s) = [].
Proof. apply take_while_drop_while. Qed.

Lemma ws_prefix_all s : forallb is_json_ws (ws_prefix s) = true.
Proof. apply take_while_all. Qed.

Lemma skip_ws_pre w c u : forallb is_json_ws w = true -> is_json_ws c = false ->
  skip_ws (w ++ c :: u) = c :: u.
Proof.
  intros Hw Hc. unfold skip_ws. apply drop_while_app_stop; [exact Hw | cbn; rewrite Hc; reflexivity].
Qed.

Lemma parse_value_skip f d s : parse_value f d (skip_ws s) = parse_value f d s.
Proof. destruct f as [|f]; [reflexivity|]. rewrite !parse_value_S, skip_ws_idem. reflexivity. Qed.

Lemma skip_value_ws f s :
  skip_value f s =
    match skip_value f (skip_ws s) with Some (t, r) => Some (ws_prefix s ++ t, r) | None => None end.
Proof.
  destruct f as [|f]; [reflexivity|]. rewrite !skip_value_S. cbv zeta.
  rewrite skip_ws_idem, ws_prefix_skip_ws. destruct (skip_ws s) as [|c s1]; [reflexivity|].
  repeat match goal with
  | |- context [if ?b then _ else _] => destruct b
  | |- context [match ?x with _ => _ end] => destruct x
  end; reflexivity.
Qed.

Lemma raw_ok_skip t rest f : raw_ok t -> ok_follow rest = true -> (length t <= f)%nat ->
  skip_value f (t ++ rest) = Some (t, rest).
Proof. intros R Hr Hf. apply (skip_value_fuel_len _ _ _ _ (R rest Hr)). exact Hf. Qed.

Lemma raw_ok_nonempty t : raw_ok t -> (1 <= length t)%nat.
Proof. intro R. apply (skip_value_nonempty _ _ _ _ (R [] eq_refl)). Qed.

Lemma raw_ok_head t X : raw_ok t -> ok_follow X = true ->
  exists c s1, skip_ws (t ++ X) = c :: s1 /\ beqb c x5d = false /\ beqb c x2c = false.
Proof. intros R HX. apply (skip_value_head _ _ _ _ (R X HX)). Qed.

Lemma raw_ok_trim t X : raw_ok t -> ok_follow X = true ->
  skip_ws (t ++ X) = skip_ws t ++ X /\
  forall f, (length (skip_ws t) <= f)%nat -> skip_value f (skip_ws t ++ X) = Some (skip_ws t, X).
Proof.
  intros R HX. pose proof (R X HX) as H. rewrite skip_value_ws in H.
  destruct (skip_value (S (length (t ++ X))) (skip_ws (t ++ X))) as [[t1 r]|] eqn:E; [|discriminate].
  injection H as Ht Hr. subst r.
  pose proof (skip_value_split _ _ _ _ E) as Sp.
  pose proof (skip_value_nonempty _ _ _ _ E) as Ne.
  destruct t1 as [|c tl]; [cbn in Ne; lia|].
  assert (Hc : is_json_ws c = false) by (apply (skip_ws_hd (t ++ X) c (tl ++ X)); exact Sp).
  assert (Et : skip_ws t = c :: tl).
  { rewrite <- Ht. apply skip_ws_pre; [apply ws_prefix_all | exact Hc]. }
  rewrite Et. split; [exact Sp|].
  intros f Hf. rewrite <- Sp. apply (skip_value_fuel_len _ _ _ _ E). exact Hf.
Qed.

Lemma join_cons_app sep t ts :
  exists Y, join sep (t :: ts) = t ++ Y /\ (Y = [] \/ exists Y', Y = sep ++ Y').
Proof.
  destruct ts as [|t2 ts].
  - exists []. cbn. rewrite app_nil_r. split; [reflexivity | left; reflexivity].
  - eexists. split; [reflexivity | right; eexists; reflexivity].
Qed.

Lemma skip_elems_join ts : ts <> [] -> Forall raw_ok ts ->
  forall rest f, (length (join [x2c] ts) + 1 <= f)%nat ->
    skip_elems f (join [x2c] ts ++ x5d :: rest) = Some (join [x2c] ts ++ [x5d], rest).
Proof.
  intros Hne HF. induction HF as [|t ts Rt Rts IH]; [congruence|]. intros rest f Hf.
  destruct f as [|f]; [lia|].
  destruct ts as [|t2 ts].
  - cbn [join] in *. apply skip_elems_last. apply raw_ok_skip; [exact Rt | reflexivity | lia].
  - rewrite join_cons2 in Hf |- *. rewrite <- !app_assoc. cbn [app].
    replace (t ++ x2c :: join [x2c] (t2 :: ts) ++ [x5d]) with (t ++ x2c :: (join [x2c] (t2 :: ts) ++ [x5d])) by reflexivity.
    eapply skip_elems_more.
    + apply raw_ok_skip; [exact Rt | reflexivity | len_solve].
    + apply IH; [discriminate | len_solve].
Qed.

Lemma split_from_join ts : ts <> [] -> Forall raw_ok ts ->
  forall rest f, (length ts <= f)%nat ->
    split_elems_from f (join [x2c] ts ++ x5d :: rest) = Some (map skip_ws ts, rest).
Proof.
  intros Hne HF. induction HF as [|t ts Rt Rts IH]; [congruence|]. intros rest f Hf.
  destruct f as [|f]; [cbn in Hf; lia|]. rewrite split_elems_from_S. cbv zeta.
  destruct ts as [|t2 ts].
  - cbn [join map].
    destruct (raw_ok_trim t (x5d :: rest) Rt eq_refl) as [E1 E2].
    rewrite E1, E2 by (rewrite app_length; lia). reflexivity.
  - rewrite join_cons2. rewrite <- !app_assoc. cbn [app].
    destruct (raw_ok_trim t (x2c :: join [x2c] (t2 :: ts) ++ x5d :: rest) Rt eq_refl) as [E1 E2].
    rewrite E1, E2 by (rewrite app_length; lia).
    rewrite (skip_ws_cons_nws x2c) by reflexivity. cbv beta iota. rewrite (beqb_refl x2c).
    rewrite IH by (discriminate || (cbn [length] in Hf |- *; lia)). reflexivity.
Qed.

Theorem skip_array_join ts : ts <> [] -> Forall raw_ok ts ->
  let s := x5b :: join [x2c] ts ++ [x5d] in
  (forall rest f, (length s <= f)%nat -> skip_value f (s ++ rest) = Some (s, rest)) /\
  (forall f, (length ts <= f)%nat -> split_elems f s = Some (map skip_ws ts)).
Proof.
  intros Hne HF s. subst s.
  assert (HD : forall X, exists c s1, skip_ws (join [x2c] ts ++ x5d :: X) = c :: s1 /\ beqb c x5d = false).
  { intro X. destruct ts as [|t ts]; [congruence|]. destruct (join_cons_app [x2c] t ts) as (Y & EY & HY). rewrite EY.
    rewrite <- app_assoc.
    assert (OK : ok_follow (Y ++ x5d :: X) = true).
    { destruct HY as [-> | [Y' ->]]; reflexivity. }
    inversion HF as [|? ? Rt _]; subst.
    destruct (raw_ok_head t _ Rt OK) as (c & s1 & E & Hc & _). exists c, s1. split; assumption. }
  split.
  - intros rest f Hf. destruct f as [|f]; [cbn in Hf; lia|].
    cbn [app]. rewrite <- app_assoc. cbn [app].
    destruct (HD rest) as (c & s1 & E & Hc).
    eapply skip_value_arr; [exact E | exact Hc |].
    apply skip_elems_join; [exact Hne | exact HF | cbn [length] in Hf; rewrite app_length in Hf; cbn [length] in Hf; lia].
  - intros f Hf. unfold split_elems. rewrite (skip_ws_cons_nws x5b) by reflexivity.
    cbv beta iota. rewrite (beqb_refl x5b).
    destruct (HD []) as (c & s1 & E & Hc). rewrite E, Hc.
    rewrite (split_from_join ts Hne HF [] f Hf). reflexivity.
Qed.

Corollary raw_ok_array ts : ts <> [] -> Forall raw_ok ts -> raw_ok (x5b :: join [x2c] ts ++ [x5d]).
Proof.
  intros Hne HF rest _. apply (proj1 (skip_array_join ts Hne HF)). rewrite app_length. lia.
Qed.

Lemma raw_ok_ser v : wf v = true -> raw_ok (ser v).
Proof. intros W rest Hr. apply skip_ser; [exact W | exact Hr | rewrite app_length; lia]. Qed.

Lemma skip_ws_ser v : wf v = true -> skip_ws (ser v) = ser v.
Proof.
  intro W. destruct (ser_head v W) as (c & tl & -> & Hc). apply skip_ws_cons_nws, vstart_nws, Hc.
Qed.

(* the batch case: elements are serialised values *)
Corollary split_elems_ser_join vs : vs <> [] -> forallb wf vs = true ->
  split_elems (length vs) (x5b :: join [x2c] (map ser vs) ++ [x5d]) = Some (map ser vs).
Proof.
  intros Hne W.
  assert (HF : Forall raw_ok (map ser vs)).
  { apply Forall_forall. intros t Ht. apply in_map_iff in Ht as (v & <- & Hv).
    apply raw_ok_ser. rewrite forallb_forall in W. apply W, Hv. }
  assert (Hne' : map ser vs <> []) by (destruct vs; [congruence | discriminate]).
  rewrite (proj2 (skip_array_join _ Hne' HF)) by (rewrite map_length; lia).
  f_equal. rewrite map_map. apply map_ext_in. intros v Hv. apply skip_ws_ser.
  rewrite forallb_forall in W. apply W, Hv.
Qed.

Lemma scan_str_valid_trunc s k r : scan_str_valid s = Some (k, r) ->
  exists u, s = u ++ r /\ scan_str_valid u = Some (k, []).
Proof.
  intro H. apply scan_str_valid_inv in H as [H U]. apply pstr_sound, pstr_trunc in H as (u & -> & H).
  exists u. split; [reflexivity|]. unfold scan_str_valid. rewrite (pstr_complete _ _ _ H), U. reflexivity.
Qed.

Lemma scan_number_trunc_cons c s1 l r : scan_number (c :: s1) = Some (l, r) ->
  exists u, s1 = u ++ r /\ scan_number (c :: u) = Some (l, []).
Proof.
  intro H. pose proof (scan_number_trunc _ _ _ H) as T. pose proof (scan_number_split _ _ _ H) as S.
  destruct (scan_number_head _ _ T) as (c0 & t0 & E & _).
  rewrite E in S, T. cbn [app] in S. injection S as -> ->. exists t0. split; [reflexivity | exact T].
Qed.

Lemma ws_not_num_cont b : is_json_ws b = true -> num_cont b = false.
Proof. intro H. apply is_json_ws_inv in H as [-> | [-> | [-> | ->]]]; reflexivity. Qed.

Lemma ok_follow_pre w c X : forallb is_json_ws w = true -> num_cont c = false ->
  ok_follow (w ++ c :: X) = true.
Proof.
  intros Hw Hc. destruct w as [|b w]; cbn.
  - rewrite Hc. reflexivity.
  - cbn in Hw. apply andb_true_iff in Hw as [Hb _]. rewrite (ws_not_num_cont b Hb). reflexivity.
Qed.

Lemma trunc_lead s c s1 u r : skip_ws s = c :: s1 -> s1 = u ++ r ->
  exists t, s = t ++ r /\ skip_ws t = c :: u.
Proof.
  intros H ->. exists (ws_prefix s ++ c :: u). split.
  - rewrite (ws_eq _ _ _ H) at 1. list_solve.
  - apply skip_ws_pre; [apply ws_prefix_all | apply (skip_ws_hd _ _ _ H)].
Qed.

Lemma trunc_lead_ex (P : bytes -> Prop) s c s1 u r : skip_ws s = c :: s1 -> s1 = u ++ r ->
  (forall t, skip_ws t = c :: u -> P t) -> exists t, s = t ++ r /\ P t.
Proof.
  intros Hs Hl HP. destruct (trunc_lead _ _ _ _ _ Hs Hl) as (t & -> & Ht).
  exists t. split; [reflexivity | apply HP, Ht].
Qed.

Lemma pval_extend_lead f d u v t c w : pval f d u v [] -> skip_ws t = c :: w -> num_cont c = false ->
  pval f d (u ++ t) v t.
Proof.
  intros Hu Ht Hc. apply (proj1 (pgraph_extend t) _ _ _ _ _ Hu). right.
  rewrite (ws_eq _ _ _ Ht). apply ok_follow_pre; [apply ws_prefix_all | exact Hc].
Qed.

(* The span of a derivation is cut out from the back.  A value: what follows its first byte is cut, then the
   leading blanks and that byte are put back (trunc_lead_ex).  Elements and members: the closing byte and the
   blanks before it first (trunc_lead with u = []), then each piece to its left, extended by what has been kept. *)
Lemma pgraph_trunc :
  (forall f d s v r, pval f d s v r -> exists t, s = t ++ r /\ pval f d t v []) /\
  (forall f d s vs r, pelems f d s vs r -> exists t, s = t ++ r /\ pelems f d t vs []) /\
  (forall f d s ms r, pmembers f d s ms r -> exists t, s = t ++ r /\ pmembers f d t ms []).
Proof.
  apply pgraph_ind.
  - intros f d s s1 r Hs Hl. apply starts_with_split in Hl. apply (trunc_lead_ex _ _ _ _ _ _ Hs Hl).
    intros t Ht. exact (pv_null f d t _ [] Ht eq_refl).
  - intros f d s s1 r Hs Hl. apply starts_with_split in Hl. apply (trunc_lead_ex _ _ _ _ _ _ Hs Hl).
    intros t Ht. exact (pv_true f d t _ [] Ht eq_refl).
  - intros f d s s1 r Hs Hl. apply starts_with_split in Hl. apply (trunc_lead_ex _ _ _ _ _ _ Hs Hl).
    intros t Ht. exact (pv_false f d t _ [] Ht eq_refl).
  - intros f d s s1 k r Hs Hk. apply scan_str_valid_trunc in Hk as (u & Hl & Hu).
    apply (trunc_lead_ex _ _ _ _ _ _ Hs Hl). intros t Ht. exact (pv_str f d t u k [] Ht Hu).
  - intros f d s c s1 l r Hs Hc Hn. apply scan_number_trunc_cons in Hn as (u & Hl & Hu).
    apply (trunc_lead_ex _ _ _ _ _ _ Hs Hl). intros t Ht. exact (pv_num f d t c u l [] Ht Hc Hu).
  - intros f d s s1 r Hs Hs1. destruct (trunc_lead _ _ _ [] _ Hs1 eq_refl) as (t1 & Hl & Ht1).
    apply (trunc_lead_ex _ _ _ _ _ _ Hs Hl). intros t Ht. exact (pv_arr0 f d t t1 [] Ht Ht1).
  - intros f d s s1 vs r Hs _ (u & Hl & Hu).
    apply (trunc_lead_ex _ _ _ _ _ _ Hs Hl). intros t Ht. exact (pv_arr f d t u vs [] Ht Hu).
  - intros f d s s1 r Hs Hs1. destruct (trunc_lead _ _ _ [] _ Hs1 eq_refl) as (t1 & Hl & Ht1).
    apply (trunc_lead_ex _ _ _ _ _ _ Hs Hl). intros t Ht. exact (pv_obj0 f d t t1 [] Ht Ht1).
  - intros f d s s1 ms r Hs _ (u & Hl & Hu).
    apply (trunc_lead_ex _ _ _ _ _ _ Hs Hl). intros t Ht. exact (pv_obj f d t u ms [] Ht Hu).
  - intros f d s v r r1 _ (u & -> & Hu) Hr.
    destruct (trunc_lead _ _ _ [] _ Hr eq_refl) as (t1 & -> & Ht1).
    exists (u ++ t1). split; [apply app_assoc|].
    eapply pe_last; [|exact Ht1]. eapply pval_extend_lead; [exact Hu | exact Ht1 | reflexivity].
  - intros f d s v r r1 vs r2 _ (u & -> & Hu) Hr _ (u1 & -> & Hu1).
    destruct (trunc_lead _ _ _ _ _ Hr eq_refl) as (t1 & -> & Ht1).
    exists (u ++ t1). split; [apply app_assoc|].
    eapply pe_more; [|exact Ht1|exact Hu1]. eapply pval_extend_lead; [exact Hu | exact Ht1 | reflexivity].
  - intros f d s s1 k r0 r1 v r r2 Hs Hk Hr0 _ (uv & -> & Huv) Hr.
    destruct (trunc_lead _ _ _ [] _ Hr eq_refl) as (t3 & -> & Ht3).
    destruct (trunc_lead _ _ _ (uv ++ t3) _ Hr0 (app_assoc _ _ _)) as (t2 & -> & Ht2).
    apply scan_str_valid_trunc in Hk as (uk & -> & Huk).
    destruct (trunc_lead _ _ _ (uk ++ t2) _ Hs (app_assoc _ _ _)) as (t1 & -> & Ht1).
    exists t1. split; [reflexivity|].
    eapply pm_last; [exact Ht1 | apply (scan_str_valid_extend _ _ _ t2 Huk) | exact Ht2 | | exact Ht3].
    eapply pval_extend_lead; [exact Huv | exact Ht3 | reflexivity].
  - intros f d s s1 k r0 r1 v r r2 ms r3 Hs Hk Hr0 _ (uv & -> & Huv) Hr _ (um & -> & Hum).
    destruct (trunc_lead _ _ _ _ _ Hr eq_refl) as (t3 & -> & Ht3).
    destruct (trunc_lead _ _ _ (uv ++ t3) _ Hr0 (app_assoc _ _ _)) as (t2 & -> & Ht2).
    apply scan_str_valid_trunc in Hk as (uk & -> & Huk).
    destruct (trunc_lead _ _ _ (uk ++ t2) _ Hs (app_assoc _ _ _)) as (t1 & -> & Ht1).
    exists t1. split; [reflexivity|].
    eapply pm_more; [exact Ht1 | apply (scan_str_valid_extend _ _ _ t2 Huk) | exact Ht2 | | exact Ht3 | exact Hum].
    eapply pval_extend_lead; [exact Huv | exact Ht3 | reflexivity].
Qed.

Lemma parse_value_trunc f d s v r : parse_value f d s = Some (v, r) ->
  forall t, s = t ++ r -> parse_value f d t = Some (v, []).
Proof.
  intros H t Ht. apply pgraph_sound, pgraph_trunc in H as (u & Hu & H). apply pgraph_complete in H.
  rewrite Ht in Hu. apply app_inv_tail in Hu. subst u. exact H.
Qed.
Lemma parse_elems_trunc f d s v r : parse_elems f d s = Some (v, r) ->
  forall t, s = t ++ r -> parse_elems f d t = Some (v, []).
Proof.
  intros H t Ht. apply pgraph_sound, pgraph_trunc in H as (u & Hu & H). apply pgraph_complete in H.
  rewrite Ht in Hu. apply app_inv_tail in Hu. subst u. exact H.
Qed.
Lemma parse_members_trunc f d s v r : parse_members f d s = Some (v, r) ->
  forall t, s = t ++ r -> parse_members f d t = Some (v, []).
Proof.
  intros H t Ht. apply pgraph_sound, pgraph_trunc in H as (u & Hu & H). apply pgraph_complete in H.
  rewrite Ht in Hu. apply app_inv_tail in Hu. subst u. exact H.
Qed.

(* LexFacts.num_byte under the name the statements of this file use (numch_num_byte) *)
Definition numch (c : byte) : bool := is_digit c || is_dot c || is_e c || is_sign c.

(* l closes null; e, a numch, also closes true and false *)
Definition vend (c : byte) : bool :=
  numch c || beqb c x22 || beqb c x5d || beqb c x7d || beqb c x6c.

(* the default of `last` is never reached *)
Definition ends_in (q : byte -> bool) (t : bytes) : Prop := t <> [] /\ q (last t x20) = true.

Lemma last_cons_ne (c : byte) t d : t <> [] -> last (c :: t) d = last t d.
Proof. destruct t; [congruence | reflexivity]. Qed.

Lemma ends_in_single q c : q c = true -> ends_in q [c].
Proof. intro H. split; [discriminate | exact H]. Qed.
Lemma ends_in_cons q c t : ends_in q t -> ends_in q (c :: t).
Proof. intros [N L]. split; [discriminate | rewrite last_cons_ne by exact N; exact L]. Qed.
Lemma ends_in_app q a t : ends_in q t -> ends_in q (a ++ t).
Proof. intro H. induction a as [|c a IH]; [exact H | cbn [app]; apply ends_in_cons, IH]. Qed.

Lemma vend_nws c : vend c = true -> is_json_ws c = false.
Proof. intro H. apply (not_ws_of vend c H); reflexivity. Qed.
Lemma numch_num_byte c : numch c = num_byte c.
Proof. reflexivity. Qed.
Lemma numch_vend c : numch c = true -> vend c = true.
Proof. intro H. unfold vend. rewrite H. reflexivity. Qed.
Lemma vend_ascii c : vend c = true -> ascii c = true.
Proof.
  unfold vend. destruct (numch c) eqn:N; [intros _; apply num_byte_ascii, N|]. cbn [orb]. intro H.
  repeat (apply orb_true_iff in H as [H | H]); apply beqb_true in H; subst c; reflexivity.
Qed.

Lemma forallb_last (p : byte -> bool) l d : l <> [] -> forallb p l = true -> p (last l d) = true.
Proof.
  induction l as [|x l IH]; [congruence|]. intros _ H. cbn [forallb] in H.
  apply andb_true_iff in H as [H1 H2]. destruct l as [|y l]; [exact H1|].
  rewrite last_cons_ne by discriminate. apply IH; [discriminate | exact H2].
Qed.

Lemma numlex_ends_vend s l r : scan_number s = Some (l, r) -> ends_in vend (numlex_bytes l).
Proof.
  intro H. pose proof (scan_number_nonempty _ _ _ H) as N. pose proof (scan_number_bytes _ _ _ H) as A.
  split; [exact N|]. apply numch_vend. rewrite numch_num_byte. apply forallb_last; assumption.
Qed.

Lemma sstr_ends_vend s t r : sstr s t r -> ends_in vend t.
Proof. induction 1; [apply ends_in_single; reflexivity | apply ends_in_cons ..]; repeat apply ends_in_cons; assumption. Qed.

Ltac ends_in_tac :=
  cbn [unBS];
  repeat first [ assumption
               | apply ends_in_single; reflexivity
               | apply ends_in_cons
               | apply ends_in_app ].

Lemma sgraph_ends :
  (forall f s t r, sval f s t r -> ends_in vend t) /\
  (forall f s t r, selems f s t r -> ends_in vend t) /\
  (forall f s t r, smembers f s t r -> ends_in vend t).
Proof.
  apply sgraph_ind; intros;
    repeat match goal with
    | E : skip_str _ = Some _ |- _ => apply sstr_sound, sstr_ends_vend in E
    | E : scan_number _ = Some _ |- _ => apply numlex_ends_vend in E
    end; ends_in_tac.
Qed.

Lemma skip_value_ends_vend f s t r : skip_value f s = Some (t, r) -> ends_in vend t.
Proof. intro H. apply sgraph_sound in H. revert H. apply sgraph_ends. Qed.

Lemma parse_value_ends_vend f d s v : parse_value f d s = Some (v, []) -> ends_in vend s.
Proof.
  intro H. apply strict_is_lenient in H as [t H]. pose proof (skip_value_split _ _ _ _ H) as E.
  rewrite app_nil_r in E. subst t. apply (skip_value_ends_vend _ _ _ _ H).
Qed.

Definition ends_nws (t : bytes) : Prop := t <> [] /\ is_json_ws (last t x20) = false.

Lemma ends_in_vend_nws t : ends_in vend t -> ends_nws t.
Proof. intros [N L]. split; [exact N | apply vend_nws, L]. Qed.

Lemma parse_value_ends_nws f d s v : parse_value f d s = Some (v, []) -> ends_nws s.
Proof. intro H. apply ends_in_vend_nws, (parse_value_ends_vend _ _ _ _ H). Qed.

Lemma skip_ws_nil_all r : skip_ws r = [] -> forallb is_json_ws r = true.
Proof.
  intro H. pose proof (ws_split r) as E. rewrite H, app_nil_r in E. rewrite <- E. apply ws_prefix_all.
Qed.

Lemma all_ws_skip r : forallb is_json_ws r = true -> skip_ws r = [].
Proof. apply drop_while_forallb. Qed.

Lemma all_ws_ok_follow r : forallb is_json_ws r = true -> ok_follow r = true.
Proof.
  destruct r as [|b r]; [reflexivity|]. cbn. intro H. apply andb_true_iff in H as [H _].
  rewrite (ws_not_num_cont b H). reflexivity.
Qed.

Lemma trim_suffix t : ends_nws t -> forall core w r,
  forallb is_json_ws w = true -> forallb is_json_ws r = true -> core ++ w = t ++ r ->
  exists r', core = t ++ r' /\ forallb is_json_ws r' = true.
Proof.
  induction t as [|x t IH]; intros [N L]; [congruence|]. intros core w r Hw Hr E.
  destruct core as [|y core].
  - exfalso. cbn [app] in E. subst w. change (x :: t ++ r) with ((x :: t) ++ r) in Hw.
    rewrite forallb_app in Hw. apply andb_true_iff in Hw as [Hw _].
    pose proof (forallb_last is_json_ws (x :: t) x20 N Hw) as C. congruence.
  - cbn [app] in E. injection E as -> E. destruct t as [|x' t].
    + cbn [app] in E. exists core. split; [reflexivity|]. subst r.
      rewrite forallb_app in Hr. apply andb_true_iff in Hr. tauto.
    + assert (Ends' : ends_nws (x' :: t))
        by (split; [discriminate | rewrite last_cons_ne in L by discriminate; exact L]).
      destruct (IH Ends' core w r Hw Hr E) as (r' & -> & Hr').
      exists r'. split; [reflexivity | exact Hr'].
Qed.

Theorem parse_text_trim raw core w j :
  parse_text raw = Some j -> forallb is_json_ws w = true -> raw = core ++ w -> parse_text core = Some j.
Proof.
  unfold parse_text at 1. intros H Hw ->.
  destruct (parse_value (S (length (core ++ w))) depth_limit (core ++ w)) as [[v rr]|] eqn:P; [|discriminate].
  destruct (skip_ws rr) eqn:Wr; [|discriminate]. inv_some H.
  apply skip_ws_nil_all in Wr.
  destruct (parse_value_split _ _ _ _ _ P) as (t & Et & _).
  pose proof (parse_value_trunc _ _ _ _ _ P t Et) as Pt.
  pose proof (parse_value_ends_nws _ _ _ _ Pt) as Ends.
  destruct (trim_suffix t Ends core w rr Hw Wr Et) as (r' & -> & Hr').
  unfold parse_text.
  pose proof (parse_value_fuel_len _ _ _ _ _ Pt (S (length (t ++ r')))) as Pt'.
  rewrite (parse_value_extend _ _ _ _ _ r' (Pt' ltac:(rewrite app_length; cbn; lia))
             (or_intror (all_ws_ok_follow r' Hr'))).
  cbn [app]. rewrite (all_ws_skip r' Hr'). reflexivity.
Qed.
