(* C04 / C06: the invariant of the subscription LTS (Model/SubBook.v).
   `Inv` (the state), `InvO` (the state against the observations) and `inv_stop` hold after every trace (`reach_inv`);
   `Mono` relates a state to every later one.  A handler-side step replaces one subscription record, its connection and
   possibly the table: `apply_inv` shows once that such a replacement keeps everything under the local conditions
   `local_ok`, which the lemmas `lo_*` establish operation by operation.  Steps that only touch connections go through
   `conns_inv`; an admitted subscribe call and the unsubscribe callback have a frame proof of their own. *)
From Coq Require Import List NArith ZArith Bool Arith Lia.
From JV Require Import Model.AcceptSteps Gen.AcceptOrderGen Model.TableOps Gen.TableOpsGen Model.SubBook.
Import ListNotations.
#[local] Arguments N.add : simpl never.
#[local] Arguments N.eqb : simpl never.

Lemma nth_error_upd : forall A (f : A -> A) l n m,
  nth_error (upd n f l) m = if Nat.eqb m n then option_map f (nth_error l n) else nth_error l m.
Proof.
  induction l as [|a l IH]; intros n m.
  - cbn. destruct m, n; cbn; try reflexivity; destruct (Nat.eqb m n); reflexivity.
  - destruct n, m; cbn; try reflexivity. apply IH.
Qed.

Lemma nth_error_upd_same : forall A (f : A -> A) l n b, nth_error l n = Some b -> nth_error (upd n f l) n = Some (f b).
Proof. intros. rewrite nth_error_upd, Nat.eqb_refl, H. reflexivity. Qed.

Lemma nth_error_upd_other : forall A (f : A -> A) l n m, m <> n -> nth_error (upd n f l) m = nth_error l m.
Proof. intros. rewrite nth_error_upd. destruct (Nat.eqb_spec m n); [contradiction | reflexivity]. Qed.

Lemma length_upd : forall A (f : A -> A) l n, length (upd n f l) = length l.
Proof. induction l; intros [|n]; cbn; auto. Qed.

Lemma upd_none : forall A (f : A -> A) l n, nth_error l n = None -> upd n f l = l.
Proof. induction l; intros [|n] H; cbn in *; try reflexivity; try discriminate. f_equal. auto. Qed.

Lemma nth_error_same_length : forall A B (l : list A) (l' : list B) n x, length l' = length l -> nth_error l n = Some x ->
  exists y, nth_error l' n = Some y.
Proof.
  intros A B l l' n x Hl H. destruct (nth_error l' n) as [y|] eqn:E; [exists y; reflexivity|].
  apply nth_error_None in E. assert (n < length l) by (apply nth_error_Some; congruence). lia.
Qed.

Lemma nth_error_snoc : forall A (l : list A) x n,
  nth_error (l ++ [x]) n = if Nat.ltb n (length l) then nth_error l n else if Nat.eqb n (length l) then Some x else None.
Proof.
  intros. destruct (Nat.ltb_spec n (length l)).
  - apply nth_error_app1; assumption.
  - rewrite nth_error_app2 by assumption. destruct (Nat.eqb_spec n (length l)).
    + subst. rewrite Nat.sub_diag. reflexivity.
    + destruct (n - length l) eqn:E; [lia|]. cbn. destruct n1; reflexivity.
Qed.

Lemma memN_In : forall k l, memN k l = true <-> In k l.
Proof.
  intros. unfold memN. rewrite existsb_exists. split.
  - intros [x [Hx E]]. apply N.eqb_eq in E. subst. assumption.
  - intro. exists k. split; [assumption | apply N.eqb_refl].
Qed.

Lemma removeN_In : forall k l x, In x (removeN k l) <-> In x l /\ x <> k.
Proof.
  intros. unfold removeN. rewrite filter_In. split; intros [H1 H2]; split; auto.
  - intro. subst. rewrite N.eqb_refl in H2. discriminate.
  - apply negb_true_iff. apply N.eqb_neq. assumption.
Qed.

Lemma key_eqb_eq : forall a b, key_eqb a b = true <-> a = b.
Proof.
  intros [a1 a2] [b1 b2]. unfold key_eqb. cbn. rewrite andb_true_iff, Nat.eqb_eq, N.eqb_eq. split.
  - intros [-> ->]. reflexivity.
  - intro H. inversion H. auto.
Qed.

Lemma mem_key_In : forall k t, mem_key k t = true <-> In k t.
Proof.
  intros. unfold mem_key. rewrite existsb_exists. split.
  - intros [x [Hx E]]. apply key_eqb_eq in E. subst. assumption.
  - intro. exists k. split; [assumption | apply key_eqb_eq; reflexivity].
Qed.

Lemma remove_key_In : forall k t x, In x (remove_key k t) <-> In x t /\ x <> k.
Proof.
  intros. unfold remove_key. rewrite filter_In. split; intros [H1 H2]; split; auto.
  - intro. subst. rewrite (proj2 (key_eqb_eq k k) eq_refl) in H2. discriminate.
  - apply negb_true_iff. destruct (key_eqb x k) eqn:E; [|reflexivity]. apply key_eqb_eq in E. contradiction.
Qed.

Lemma filter_map_app : forall A B (f : A -> option B) l1 l2, filter_map f (l1 ++ l2) = filter_map f l1 ++ filter_map f l2.
Proof. induction l1; intros; cbn; [reflexivity|]. destruct (f a); cbn; rewrite IHl1; reflexivity. Qed.

Lemma filter_length_upd : forall A (p : A -> bool) (f : A -> A) l h b, nth_error l h = Some b ->
  length (filter p (upd h f l)) + Nat.b2n (p b) = length (filter p l) + Nat.b2n (p (f b)).
Proof.
  induction l as [|a l IH]; intros [|h] b H; cbn [nth_error upd filter] in *; try discriminate.
  - inversion H; subst. destruct (p b), (p (f b)); cbn; lia.
  - specialize (IH h b H). destruct (p a); cbn [length]; lia.
Qed.

Lemma inflight_of_In : forall k l x, inflight_of k l = Some x -> In (k, x) l.
Proof.
  intros k l x. unfold inflight_of. destruct (find _ l) as [[k' x']|] eqn:E; [|discriminate].
  intro H. inversion H; subst. apply find_some in E. destruct E as [E1 E2]. cbn in E2. apply N.eqb_eq in E2. subst. assumption.
Qed.

Lemma remove_inflight_In : forall k l p, In p (remove_inflight k l) -> In p l /\ fst p <> k.
Proof.
  intros k l p. unfold remove_inflight. rewrite filter_In. intros [H1 H2]. split; [assumption|].
  intro. subst. rewrite N.eqb_refl in H2. discriminate.
Qed.

(* a subscription occupies a slot of its connection while its pending sink or at least one clone is alive *)
Definition live (b : sub) : bool :=
  match s_state b with
  | SPending | SAccepting | SAbandoned => true
  | SActive => match s_sinks b with [] => false | _ => true end
  | _ => false
  end.

(* One subscription record, by itself.  Ids are dense (ok_id), which is what makes them unique; the record holds a permit
   exactly while it occupies a slot (ok_permit); everything but state, permit and return flag is at its initial value
   until accept() has returned (ok_idle); a send in flight borrows a live clone (ok_inflight); the last clone's drop
   closes the liveness channel (ok_nosinks); a closing value waits only after the handler returned, and CNone is never
   kept (ok_ret); a rejected or failed subscription has no handler any more (ok_final). *)
Record sub_ok (base meth : N) (nconns h : nat) (b : sub) : Prop := mkSubOk {
  ok_id : s_id b = (base + N.of_nat h)%N;
  ok_meth : s_meth b = meth;
  ok_conn : s_conn b < nconns;
  ok_permit : s_has_permit b = live b;
  ok_idle : s_state b <> SActive -> s_sinks b = [] /\ s_inflight b = [] /\ s_ret b = None /\ s_unsubscribed b = false;
  ok_inflight : forall k x, In (k, x) (s_inflight b) -> In k (s_sinks b);
  ok_nosinks : s_state b = SActive -> s_sinks b = [] -> s_unsubscribed b = true;
  ok_ret : forall v, s_ret b = Some v -> s_returned b = true /\ v <> CNone;
  ok_final : s_state b = SRejected \/ s_state b = SDone -> s_returned b = true }.
Arguments ok_id {base meth nconns h b}.
Arguments ok_meth {base meth nconns h b}.
Arguments ok_conn {base meth nconns h b}.
Arguments ok_permit {base meth nconns h b}.
Arguments ok_idle {base meth nconns h b}.
Arguments ok_inflight {base meth nconns h b}.
Arguments ok_nosinks {base meth nconns h b}.
Arguments ok_ret {base meth nconns h b}.
Arguments ok_final {base meth nconns h b}.

(* the key under which an active, not yet unsubscribed subscription sits in the table *)
Definition akey (b : sub) : option (nat * N) :=
  match s_state b with SActive => if s_unsubscribed b then None else Some (key_of b) | _ => None end.

Definition holds_on (c : nat) (b : sub) : bool := Nat.eqb (s_conn b) c && s_has_permit b.
Definition count_on (s : st) (c : nat) : nat := length (filter (holds_on c) (subs s)).

Definition accepted (b : sub) : Prop := s_state b = SAccepting \/ s_state b = SActive.

(* every notification is preceded, on the same connection, by a response that accepted its subscription id *)
Definition notif_after_accept (l : list frame) : Prop :=
  forall pre f post, l = pre ++ f :: post -> is_notif f = true -> exists req, In (FSubOk req (frame_sid f)) pre.

Definition closing_of (sid : N) (f : frame) : bool := is_notif f && is_closing f && N.eqb (frame_sid f) sid.
Definition count_closing (sid : N) (l : list frame) : nat := length (filter (closing_of sid) l).
Definition ret_pending (b : sub) : nat := match s_ret b with Some _ => 1 | None => 0 end.

(* inv_closing counts, per subscription, the closing notifications already sent on its connection plus the one closing
   value still waiting in `s_ret` (ret_pending): together at most one, and one was sent only after the handler returned. *)
Record Inv (s : st) : Prop := mkInv {
  inv_sub : forall h b, nth_error (subs s) h = Some b -> sub_ok (id_base s) (notif_meth s) (length (conns s)) h b;
  inv_table : forall k, In k (table s) <-> exists h b, nth_error (subs s) h = Some b /\ akey b = Some k;
  inv_count : forall c cn, nth_error (conns s) c = Some cn -> c_permits cn + count_on s c = c_cap cn;
  inv_frames : forall c cn f, nth_error (conns s) c = Some cn -> In f (sent cn) -> is_notif f = true ->
      exists h b, nth_error (subs s) h = Some b /\ s_conn b = c /\ s_id b = frame_sid f /\ s_meth b = frame_meth f /\
                  s_state b = SActive;
  inv_accepted : forall h b, nth_error (subs s) h = Some b -> accepted b ->
      exists cn, nth_error (conns s) (s_conn b) = Some cn /\ In (FSubOk (s_req b) (s_id b)) (sent cn);
  inv_order : forall c cn, nth_error (conns s) c = Some cn -> notif_after_accept (sent cn);
  inv_closing : forall h b cn, nth_error (subs s) h = Some b -> nth_error (conns s) (s_conn b) = Some cn ->
      count_closing (s_id b) (sent cn) + ret_pending b <= 1 /\
      (1 <= count_closing (s_id b) (sent cn) -> s_returned b = true) }.

(* what the handler produced for handle h: the items of its sends that returned Ok, in order *)
Definition log_item (h : nat) (ob : obs) : option N :=
  match ob with OSendResult h' _ x true => if Nat.eqb h' h then Some x else None | _ => None end.
Definition log_of (h : nat) (o : list obs) : list N := filter_map (log_item h) o.

Record InvO (s : st) (o : list obs) : Prop := mkInvO {
  io_fifo : forall h b cn, nth_error (subs s) h = Some b -> nth_error (conns s) (s_conn b) = Some cn ->
      filter_map (plain_item (s_id b)) (sent cn) = log_of h o;
  io_bound : forall h k x ok, In (OSendResult h k x ok) o -> h < length (subs s);
  io_unsub : forall h b, nth_error (subs s) h = Some b -> s_state b = SActive -> s_unsubscribed b = true ->
      s_sinks b <> [] -> exists req, In (OUnsubAnswer (s_conn b) req (s_id b) true) o }.

(* what no step undoes: the static fields, the states SActive and SDone, an unsubscription, a closed connection *)
Definition same_static (b b' : sub) : Prop :=
  s_conn b' = s_conn b /\ s_id b' = s_id b /\ s_req b' = s_req b /\ s_meth b' = s_meth b.
Definition sub_mono (b b' : sub) : Prop :=
  same_static b b' /\
  (s_state b = SActive -> s_state b' = SActive /\ (s_unsubscribed b = true -> s_unsubscribed b' = true)) /\
  (s_state b = SDone -> s_state b' = SDone).
Definition Mono (s s' : st) : Prop :=
  (forall c, conn_open s' c = true -> conn_open s c = true) /\
  (forall h b, nth_error (subs s) h = Some b -> exists b', nth_error (subs s') h = Some b' /\ sub_mono b b').

Lemma sub_mono_refl : forall b, sub_mono b b.
Proof. intro b. repeat split; auto. Qed.

Lemma sub_mono_trans : forall b1 b2 b3, sub_mono b1 b2 -> sub_mono b2 b3 -> sub_mono b1 b3.
Proof.
  intros b1 b2 b3 [[S1 [S2 [S3 S4]]] [A1 D1]] [[T1 [T2 [T3 T4]]] [A2 D2]].
  split; [unfold same_static; repeat split; congruence|]. split; [|auto].
  intro Ha. destruct (A1 Ha) as [Ha2 U1]. destruct (A2 Ha2) as [Ha3 U2]. auto.
Qed.

Lemma Mono_refl : forall s, Mono s s.
Proof. intro s. split; [auto|]. intros h b H. exists b. split; [assumption | apply sub_mono_refl]. Qed.

Lemma Mono_trans : forall s1 s2 s3, Mono s1 s2 -> Mono s2 s3 -> Mono s1 s3.
Proof.
  intros s1 s2 s3 [A1 B1] [A2 B2]. split; [auto|].
  intros h b H. destruct (B1 _ _ H) as [b2 [H2 M2]]. destruct (B2 _ _ H2) as [b3 [H3 M3]].
  exists b3. split; [assumption | eapply sub_mono_trans; eassumption].
Qed.

Lemma akey_key : forall b k, akey b = Some k -> k = key_of b /\ s_state b = SActive /\ s_unsubscribed b = false.
Proof.
  intros b k. unfold akey. destruct (s_state b); try discriminate. destruct (s_unsubscribed b); try discriminate.
  intro H. inversion H. auto.
Qed.

Lemma ids_inj : forall s h1 h2 b1 b2, Inv s -> nth_error (subs s) h1 = Some b1 -> nth_error (subs s) h2 = Some b2 ->
  s_id b1 = s_id b2 -> h1 = h2.
Proof.
  intros s h1 h2 b1 b2 I H1 H2 E.
  rewrite (ok_id (inv_sub s I _ _ H1)), (ok_id (inv_sub s I _ _ H2)) in E. apply N.add_cancel_l in E. apply Nat2N.inj in E. assumption.
Qed.

Lemma frame_owner : forall s c cn f h b, Inv s -> nth_error (conns s) c = Some cn -> In f (sent cn) -> is_notif f = true ->
  nth_error (subs s) h = Some b -> frame_sid f = s_id b -> c = s_conn b /\ s_state b = SActive.
Proof.
  intros s c cn f h b I Hc Hf Hn Hb E. destruct (inv_frames s I _ _ _ Hc Hf Hn) as [h0 [b0 [H0 [E1 [E2 [_ E4]]]]]].
  assert (h0 = h) by (eapply ids_inj; eauto; congruence). subst h0. rewrite Hb in H0. inversion H0; subst b0. auto.
Qed.
Arguments frame_owner {s c cn f h b}.

Lemma filter_map_none : forall A B (f : A -> option B) l, (forall a, In a l -> f a = None) -> filter_map f l = [].
Proof.
  induction l as [|a l IH]; intro H; cbn; [reflexivity|]. rewrite (H a (or_introl eq_refl)). apply IH. intros. apply H. right. assumption.
Qed.

Lemma log_of_app : forall h o1 o2, log_of h (o1 ++ o2) = log_of h o1 ++ log_of h o2.
Proof. intros. apply filter_map_app. Qed.

Lemma log_of_none : forall h0 o, (forall h k x ok, In (OSendResult h k x ok) o -> h <> h0) -> log_of h0 o = [].
Proof.
  intros h0 o H. apply filter_map_none. intros ob Hin. destruct ob; cbn; try reflexivity. destruct ok; [|reflexivity].
  destruct (Nat.eqb_spec h h0); [|reflexivity]. exfalso. eapply H; eassumption.
Qed.

Lemma count_closing_app : forall sid l1 l2, count_closing sid (l1 ++ l2) = count_closing sid l1 + count_closing sid l2.
Proof. intros. unfold count_closing. rewrite filter_app, app_length. reflexivity. Qed.

Lemma count_closing_zero : forall sid l, (forall f, In f l -> is_notif f = true -> frame_sid f <> sid) -> count_closing sid l = 0.
Proof.
  intros sid l H. unfold count_closing. induction l as [|f l IH]; cbn; [reflexivity|].
  assert (E : closing_of sid f = false).
  { unfold closing_of. destruct (is_notif f) eqn:En; cbn; [|reflexivity]. destruct (is_closing f); cbn; [|reflexivity].
    apply N.eqb_neq. apply H; [left; reflexivity | assumption]. }
  rewrite E. apply IH. intros. apply H; [right|]; assumption.
Qed.

Lemma plain_item_some : forall sid f x, plain_item sid f = Some x -> is_notif f = true /\ frame_sid f = sid.
Proof.
  intros sid f x. destruct f; cbn; try discriminate. destruct closing; try discriminate.
  destruct (N.eqb_spec sid0 sid); try discriminate. intros _. auto.
Qed.

Lemma plain_none : forall sid l, (forall f, In f l -> is_notif f = true -> frame_sid f <> sid) -> filter_map (plain_item sid) l = [].
Proof.
  intros sid l H. apply filter_map_none. intros f Hf. destruct (plain_item sid f) eqn:E; [|reflexivity].
  apply plain_item_some in E. destruct E as [E1 E2]. exfalso. exact (H f Hf E1 E2).
Qed.

Lemma app_snoc_split : forall A (l : list A) g pre f post, l ++ [g] = pre ++ f :: post ->
  (post = [] /\ pre = l /\ f = g) \/ (exists post', post = post' ++ [g] /\ l = pre ++ f :: post').
Proof.
  intros A l g pre f post H.
  assert (C : post = [] \/ exists post' z, post = post' ++ [z]).
  { destruct post as [|p post]; [left; reflexivity|]. right.
    destruct (exists_last (l := p :: post)) as [q [z Hq]]; [discriminate|]. exists q, z. assumption. }
  destruct C as [-> | [post' [z ->]]].
  - left. apply app_inj_tail in H. destruct H. subst. auto.
  - right. change (pre ++ f :: post' ++ [z]) with (pre ++ (f :: post') ++ [z]) in H. rewrite app_assoc in H.
    apply app_inj_tail in H. destruct H. subst. exists post'. auto.
Qed.

Lemma naa_app : forall l extra, notif_after_accept l ->
  (forall f, In f extra -> is_notif f = true -> exists req, In (FSubOk req (frame_sid f)) l) ->
  notif_after_accept (l ++ extra).
Proof.
  intros l extra. revert l. induction extra as [|g extra IH]; intros l Hl Hx.
  - rewrite app_nil_r. assumption.
  - replace (l ++ g :: extra) with ((l ++ [g]) ++ extra) by (rewrite <- app_assoc; reflexivity).
    apply IH.
    + intros pre f post E Hn. apply app_snoc_split in E. destruct E as [[-> [-> ->]] | [post' [-> ->]]].
      * apply Hx; [left; reflexivity | assumption].
      * eapply Hl; [reflexivity | assumption].
    + intros f Hf Hn. destruct (Hx f (or_intror Hf) Hn) as [req Hr]. exists req. apply in_or_app. left. assumption.
Qed.

Lemma upd_lookup : forall A (f : A -> A) l n x m y, nth_error l n = Some x -> nth_error (upd n f l) m = Some y ->
  (m = n /\ y = f x) \/ (m <> n /\ nth_error l m = Some y).
Proof.
  intros A f l n x m y Hx H. rewrite nth_error_upd in H. destruct (Nat.eqb_spec m n).
  - left. subst. rewrite Hx in H. cbn in H. inversion H. auto.
  - right. auto.
Qed.
Arguments upd_lookup {A f l n x m y}.

(* local conditions under which replacing subscription h (b -> b') and its connection (cn -> cn'), with table t',
   observations o1 and appended frames `extra`, keeps every invariant.
   lo_closing is what inv_closing needs of the step.  Either the budget is respected locally: the closing frames appended
   plus the closing value still waiting afterwards are paid for by a closing value that was waiting before (first
   disjunct: CloseNotify turns the waiting value into one frame, every other step appends none and stores none).  Or the
   handler had not returned (second disjunct: then inv_closing says nothing was sent yet, and the step may store the one
   closing value: HandlerReturn).  The return flag never goes back, and a step that appends a closing frame leaves it set. *)
Record local_ok (base meth : N) (n h : nat) (b b' : sub) (cn cn' : conn) (t t' : list (nat * N))
                (o1 : list obs) (extra : list frame) : Prop := mkLocal {
  lo_static : same_static b b';
  lo_subok : sub_ok base meth n h b';
  lo_active : s_state b = SActive -> s_state b' = SActive /\ (s_unsubscribed b = true -> s_unsubscribed b' = true);
  lo_done : s_state b = SDone -> s_state b' = SDone;
  lo_conn : c_open cn' = c_open cn /\ c_cap cn' = c_cap cn /\ sent cn' = sent cn ++ extra;
  lo_permits : c_permits cn' + Nat.b2n (s_has_permit b') = c_permits cn + Nat.b2n (s_has_permit b);
  lo_table : (forall k, In k t' <-> (k <> key_of b /\ In k t) \/ akey b' = Some k) \/ (t' = t /\ akey b' = akey b);
  lo_notif : forall f, In f extra -> is_notif f = true ->
      frame_sid f = s_id b /\ frame_meth f = s_meth b /\ s_state b = SActive;
  lo_newacc : accepted b' -> accepted b \/ In (FSubOk (s_req b) (s_id b)) (sent cn ++ extra);
  lo_closing : (count_closing (s_id b) extra + ret_pending b' <= ret_pending b \/
                (s_returned b = false /\ count_closing (s_id b) extra = 0)) /\
               (s_returned b = true -> s_returned b' = true) /\
               (1 <= count_closing (s_id b) extra -> s_returned b' = true);
  lo_fifo : forall h2, log_of h2 o1 = if Nat.eqb h2 h then filter_map (plain_item (s_id b)) extra else [];
  lo_obs : forall h' k x ok, In (OSendResult h' k x ok) o1 -> h' = h;
  lo_unsub : s_state b' = SActive -> s_unsubscribed b' = true -> s_sinks b' <> [] ->
      s_state b = SActive /\ s_unsubscribed b = true /\ s_sinks b <> [] }.

Lemma apply_inv : forall s o h b cn fs fc t' o1 extra,
  Inv s -> InvO s o -> nth_error (subs s) h = Some b -> nth_error (conns s) (s_conn b) = Some cn ->
  local_ok (id_base s) (notif_meth s) (length (conns s)) h b (fs b) cn (fc cn) (table s) t' o1 extra ->
  Inv (apply s h b fs fc t') /\ InvO (apply s h b fs fc t') (o ++ o1) /\ Mono s (apply s h b fs fc t').
Proof.
  intros s o h b cn fs fc t' o1 extra I IO Hb Hcn L.
  destruct L as [[St1 [St2 [St3 St4]]] Lok Lact Ldone [Co1 [Co2 Co3]] Lperm Ltab Lnotif Lnew Lclos Lfifo Lobs Lunsub].
  assert (T : forall h2 b2, nth_error (subs s) h2 = Some b2 ->
            exists b2', nth_error (upd h fs (subs s)) h2 = Some b2' /\ sub_mono b2 b2').
  { intros h2 b2 H2. destruct (Nat.eq_dec h2 h) as [->|Ne].
    - rewrite Hb in H2. inversion H2; subst b2. exists (fs b). split; [apply nth_error_upd_same; assumption|].
      split; [repeat split; assumption | split; assumption].
    - exists b2. split; [rewrite nth_error_upd_other; assumption | apply sub_mono_refl]. }
  assert (S : forall c2 cn2, nth_error (conns s) c2 = Some cn2 ->
            exists cn2', nth_error (upd (s_conn b) fc (conns s)) c2 = Some cn2' /\ (forall f, In f (sent cn2) -> In f (sent cn2'))).
  { intros c2 cn2 H2. destruct (Nat.eq_dec c2 (s_conn b)) as [->|Ne].
    - rewrite Hcn in H2. inversion H2; subst cn2. exists (fc cn). split; [apply nth_error_upd_same; assumption|].
      intros f Hf. rewrite Co3. apply in_or_app. left. assumption.
    - exists cn2. split; [rewrite nth_error_upd_other; assumption | auto]. }
  (* notifications among the appended frames carry b's own id, which no other subscription has *)
  assert (X : forall h2 b2, h2 <> h -> nth_error (subs s) h2 = Some b2 ->
            forall f, In f extra -> is_notif f = true -> frame_sid f <> s_id b2).
  { intros h2 b2 Ne H2 f Hf Hn E. destruct (Lnotif f Hf Hn) as [E1 _].
    apply Ne. apply (ids_inj s _ _ _ _ I H2 Hb). congruence. }
  split; [|split].
  - constructor; unfold apply; cbn [subs conns table id_base notif_meth].
    + (* inv_sub *)
      intros h2 b2 H2. rewrite length_upd. destruct (upd_lookup Hb H2) as [[-> ->] | [Ne H2']].
      * exact Lok.
      * exact (inv_sub s I _ _ H2').
    + (* inv_table *)
      intro k. destruct Ltab as [LT | [LT1 LT2]].
      * rewrite LT. split.
        -- intros [[Nk Hk] | Hk].
           ++ apply (inv_table s I) in Hk. destruct Hk as [h2 [b2 [H2 K2]]].
              assert (h2 <> h). { intro. subst h2. rewrite Hb in H2. inversion H2; subst b2. apply akey_key in K2. exact (Nk (proj1 K2)). }
              exists h2, b2. rewrite nth_error_upd_other by assumption. auto.
           ++ exists h, (fs b). split; [apply nth_error_upd_same; assumption | assumption].
        -- intros [h2 [b2 [H2 K2]]]. destruct (upd_lookup Hb H2) as [[-> ->] | [Ne H2']].
           ++ right. assumption.
           ++ left. split.
              ** intro Ek. apply akey_key in K2. destruct K2 as [K2 _]. rewrite K2 in Ek. unfold key_of in Ek. injection Ek as _ Ei.
                 exact (Ne (ids_inj s _ _ _ _ I H2' Hb Ei)).
              ** apply (inv_table s I). exists h2, b2. auto.
      * rewrite LT1, (inv_table s I). split.
        -- intros [h2 [b2 [H2 K2]]]. destruct (Nat.eq_dec h2 h) as [->|Ne].
           ++ rewrite Hb in H2. inversion H2; subst b2. exists h, (fs b). split; [apply nth_error_upd_same; assumption | congruence].
           ++ exists h2, b2. rewrite nth_error_upd_other by assumption. auto.
        -- intros [h2 [b2 [H2 K2]]]. destruct (upd_lookup Hb H2) as [[-> ->] | [Ne H2']].
           ++ exists h, b. split; [assumption | congruence].
           ++ exists h2, b2. auto.
    + (* inv_count *)
      intros c2 cn2 H2. unfold count_on. cbn [subs].
      pose proof (filter_length_upd _ (holds_on c2) fs _ _ _ Hb) as FL. unfold holds_on at 2 4 in FL. rewrite St1 in FL.
      destruct (upd_lookup Hcn H2) as [[-> ->] | [Ne H2']].
      * pose proof (inv_count s I _ _ Hcn) as IC. unfold count_on in IC.
        rewrite Nat.eqb_refl in FL. cbn [andb] in FL. rewrite Co2. clear - IC FL Lperm. lia.
      * pose proof (inv_count s I _ _ H2') as IC. unfold count_on in IC.
        destruct (Nat.eqb_spec (s_conn b) c2); [congruence|]. cbn [andb Nat.b2n] in FL. clear - IC FL. lia.
    + (* inv_frames *)
      intros c2 cn2 f H2 Hf Hn.
      assert (Old : forall cn0, nth_error (conns s) c2 = Some cn0 -> In f (sent cn0) -> exists h0 b0,
                nth_error (upd h fs (subs s)) h0 = Some b0 /\ s_conn b0 = c2 /\ s_id b0 = frame_sid f /\ s_meth b0 = frame_meth f /\ s_state b0 = SActive).
      { intros cn0 H2' Hf'. destruct (inv_frames s I _ _ _ H2' Hf' Hn) as [h0 [b0 [H0 [E1 [E2 [E3 E4]]]]]].
        destruct (T _ _ H0) as [b0' [H0' [[S1 [S2 [S3 S4]]] [Ac _]]]]. exists h0, b0'. destruct (Ac E4). repeat split; congruence. }
      destruct (upd_lookup Hcn H2) as [[-> ->] | [Ne H2']]; [|exact (Old _ H2' Hf)].
      rewrite Co3 in Hf. apply in_app_or in Hf. destruct Hf as [Hf | Hf]; [exact (Old _ Hcn Hf)|].
      destruct (Lnotif f Hf Hn) as [E1 [E2 E3]]. destruct (Lact E3) as [E3' _].
      exists h, (fs b). split; [apply nth_error_upd_same; assumption|]. repeat split; congruence.
    + (* inv_accepted *)
      intros h2 b2 H2 Ha. destruct (upd_lookup Hb H2) as [[-> ->] | [Ne H2']].
      * rewrite St1, St2, St3. exists (fc cn). split; [apply nth_error_upd_same; assumption|]. rewrite Co3.
        destruct (Lnew Ha) as [Ha' | Hin]; [|assumption].
        destruct (inv_accepted s I _ _ Hb Ha') as [cn0 [Hc0 Hin]]. rewrite Hcn in Hc0. inversion Hc0; subst cn0.
        apply in_or_app. left. assumption.
      * destruct (inv_accepted s I _ _ H2' Ha) as [cn0 [Hc0 Hin]]. destruct (S _ _ Hc0) as [cn0' [Hc0' Sub]].
        exists cn0'. auto.
    + (* inv_order *)
      intros c2 cn2 H2. destruct (upd_lookup Hcn H2) as [[-> ->] | [Ne H2']].
      * rewrite Co3. apply naa_app; [exact (inv_order s I _ _ Hcn)|].
        intros f Hf Hn. destruct (Lnotif f Hf Hn) as [E1 [_ E3]]. exists (s_req b). rewrite E1.
        destruct (inv_accepted s I _ _ Hb (or_intror E3)) as [cn0 [Hc0 Hin]]. congruence.
      * exact (inv_order s I _ _ H2').
    + (* inv_closing *)
      intros h2 b2 cn2 H2 Hc2. destruct (upd_lookup Hb H2) as [[-> ->] | [Ne H2']].
      * rewrite St1 in Hc2. rewrite nth_error_upd_same with (b := cn) in Hc2 by assumption. inversion Hc2; subst cn2.
        rewrite St2, Co3, count_closing_app.
        destruct (inv_closing s I _ _ _ Hb Hcn) as [C1 C2].
        destruct Lclos as [[D1 | [D1 D1']] [D2 D3]].
        -- split; [clear - C1 D1; lia|]. intro Hge. destruct (Nat.eq_dec (count_closing (s_id b) extra) 0) as [Z|NZ].
           ++ apply D2. apply C2. clear - Hge Z. lia.
           ++ apply D3. clear - NZ. lia.
        -- assert (Z0 : count_closing (s_id b) (sent cn) = 0).
           { destruct (count_closing (s_id b) (sent cn)) eqn:E; [reflexivity|]. rewrite C2 in D1 by (clear; lia). discriminate. }
           assert (Hle : ret_pending (fs b) <= 1) by (unfold ret_pending; destruct (s_ret (fs b)); lia). split; [clear - Z0 D1' Hle; lia|]. intro Hge. clear - Z0 D1' Hge. lia.
      * destruct (upd_lookup Hcn Hc2) as [[Ec ->] | [Nc Hc2']].
        -- rewrite Co3, count_closing_app.
           rewrite (count_closing_zero (s_id b2) extra) by (eapply X; eauto). rewrite Nat.add_0_r.
           rewrite <- Ec in Hcn. exact (inv_closing s I _ _ _ H2' Hcn).
        -- exact (inv_closing s I _ _ _ H2' Hc2').
  - constructor; unfold apply; cbn [subs conns table id_base notif_meth].
    + (* io_fifo *)
      intros h2 b2 cn2 H2 Hc2. rewrite log_of_app, Lfifo.
      destruct (upd_lookup Hb H2) as [[-> ->] | [Ne H2']].
      * rewrite St1 in Hc2. rewrite nth_error_upd_same with (b := cn) in Hc2 by assumption. inversion Hc2; subst cn2.
        rewrite Nat.eqb_refl, St2, Co3, filter_map_app. f_equal. exact (io_fifo s o IO _ _ _ Hb Hcn).
      * destruct (Nat.eqb_spec h2 h); [contradiction|]. rewrite app_nil_r.
        destruct (upd_lookup Hcn Hc2) as [[Ec ->] | [Nc Hc2']].
        -- rewrite Co3, filter_map_app. rewrite (plain_none (s_id b2) extra) by (eapply X; eauto). rewrite app_nil_r.
           rewrite <- Ec in Hcn. exact (io_fifo s o IO _ _ _ H2' Hcn).
        -- exact (io_fifo s o IO _ _ _ H2' Hc2').
    + (* io_bound *)
      intros h2 k x ok Hin. rewrite length_upd. apply in_app_or in Hin. destruct Hin as [Hin | Hin].
      * exact (io_bound s o IO _ _ _ _ Hin).
      * apply Lobs in Hin. subst. apply nth_error_Some. congruence.
    + (* io_unsub *)
      intros h2 b2 H2 Ha Hu Hs. destruct (upd_lookup Hb H2) as [[-> ->] | [Ne H2']].
      * destruct (Lunsub Ha Hu Hs) as [Ha' [Hu' Hs']].
        destruct (io_unsub s o IO _ _ Hb Ha' Hu' Hs') as [req Hr]. exists req. rewrite St1, St2. apply in_or_app. left. assumption.
      * destruct (io_unsub s o IO _ _ H2' Ha Hu Hs) as [req Hr]. exists req. apply in_or_app. left. assumption.
  - split.
    + intros c2. unfold conn_open, apply. cbn [conns]. rewrite nth_error_upd. destruct (Nat.eqb_spec c2 (s_conn b)) as [->|].
      * rewrite Hcn. cbn. rewrite Co1. auto.
      * auto.
    + exact T.
Qed.
Arguments apply_inv {s o h b cn fs fc t' o1 extra}.

Lemma log_of_nil_ack : forall h, log_of h [OAck] = [].
Proof. reflexivity. Qed.

Definition is_send (ob : obs) : bool := match ob with OSendResult _ _ _ _ => true | _ => false end.

Lemma no_send_in : forall o1 h k x ok, existsb is_send o1 = false -> ~ In (OSendResult h k x ok) o1.
Proof.
  intros o1 h k x ok E Hin. rewrite (proj2 (existsb_exists is_send o1)) in E; [discriminate|].
  exists (OSendResult h k x ok). auto.
Qed.
Arguments no_send_in {o1 h k x ok}.

Lemma no_send_log : forall o1 h, existsb is_send o1 = false -> log_of h o1 = [].
Proof. intros o1 h E. apply log_of_none. intros h0 k x ok Hin. destruct (no_send_in E Hin). Qed.

(* Each lemma below says what one operation writes; of the clauses of sub_ok only those that mention a written
   field need an argument, the others are the hypotheses again (`try assumption`). *)

(* steps that neither send a frame nor touch the table entry *)
Lemma lo_quiet : forall base meth n h b b' cn t o1,
  sub_ok base meth n h b' -> same_static b b' ->
  s_state b' = s_state b -> s_unsubscribed b' = s_unsubscribed b -> s_has_permit b' = s_has_permit b ->
  (s_sinks b' <> [] -> s_sinks b <> []) ->
  (ret_pending b' <= ret_pending b \/ s_returned b = false) -> (s_returned b = true -> s_returned b' = true) ->
  existsb is_send o1 = false ->
  local_ok base meth n h b b' cn cn t t o1 [].
Proof.
  intros base meth n h b b' cn t o1 Hok Hst Es Eu Ep Hs Hr1 Hr2 Hns.
  constructor.
  - (* lo_static *) exact Hst.
  - (* lo_subok *) exact Hok.
  - (* lo_active *) intro Ha. rewrite Es, Eu. auto.
  - (* lo_done *) rewrite Es. auto.
  - (* lo_conn *) rewrite app_nil_r. auto.
  - (* lo_permits *) rewrite Ep. reflexivity.
  - (* lo_table *) right. split; [reflexivity|]. unfold akey. destruct Hst as [E1 [E2 _]]. unfold key_of. rewrite Es, Eu, E1, E2. reflexivity.
  - (* lo_notif *) intros f [].
  - (* lo_newacc *) unfold accepted. rewrite Es. auto.
  - (* lo_closing *) cbn. split; [|split]; auto.
    + destruct Hr1; [left; lia | right; auto].
    + intro. lia.
  - (* lo_fifo *) intro h2. rewrite (no_send_log _ _ Hns). destruct (Nat.eqb h2 h); reflexivity.
  - (* lo_obs *) intros h' k x ok Hin. destruct (no_send_in Hns Hin).
  - (* lo_unsub *) rewrite Es, Eu. auto.
Qed.

(* accept, first half: the response is enqueued *)
Lemma lo_accept1 : forall base meth n h b cn t,
  sub_ok base meth n h b -> s_state b = SPending ->
  local_ok base meth n h b (sb_state SAccepting b) cn (c_enq (FSubOk (s_req b) (s_id b)) cn) t t [OAck] [FSubOk (s_req b) (s_id b)].
Proof.
  intros base meth n h b cn t Hok Hp.
  assert (Hok' : sub_ok base meth n h (sb_state SAccepting b)).
  { constructor; cbn; try (destruct Hok; assumption).
    - rewrite (ok_permit Hok). unfold live. rewrite Hp. reflexivity.
    - intros _. apply (ok_idle Hok). congruence.
    - intros; discriminate.
    - intros [|]; discriminate. }
  constructor.
  - (* lo_static *) repeat split.
  - (* lo_subok *) exact Hok'.
  - (* lo_active *) intro Ha. congruence.
  - (* lo_done *) intro Hd. congruence.
  - (* lo_conn *) unfold sent, c_enq. cbn. rewrite app_assoc. auto.
  - (* lo_permits *) reflexivity.
  - (* lo_table *) right. split; [reflexivity|]. unfold akey. cbn. rewrite Hp. reflexivity.
  - (* lo_notif *) intros f [<- | []]. discriminate.
  - (* lo_newacc *) intros _. right. apply in_or_app. right. left. reflexivity.
  - (* lo_closing *) cbn. split; [left; unfold ret_pending; cbn; lia|]. split; [auto | intro; lia].
  - (* lo_fifo *) intro h2. cbn. destruct (Nat.eqb h2 h); reflexivity.
  - (* lo_obs *) intros h' k x ok [H | []]. discriminate.
  - (* lo_unsub *) cbn. intros. discriminate.
Qed.

(* the frames `c_push_opt fo` appends: the frame, if there is one and the connection is open *)
Definition opt_frames (fo : option frame) (cn : conn) : list frame :=
  match fo with Some f => if c_open cn then [f] else [] | None => [] end.

Lemma opt_frames_in : forall fo cn f, In f (opt_frames fo cn) -> fo = Some f.
Proof. intros [g|] cn f; cbn; [destruct (c_open cn)|]; cbn; intros []; congruence || contradiction. Qed.

Lemma push_opt_conn : forall fo cn, c_open (c_push_opt fo cn) = c_open cn /\ c_cap (c_push_opt fo cn) = c_cap cn /\
  c_permits (c_push_opt fo cn) = c_permits cn /\ sent (c_push_opt fo cn) = sent cn ++ opt_frames fo cn.
Proof.
  intros [f|] cn; unfold c_push_opt, c_push, opt_frames, sent, c_enq; cbn.
  - destruct (c_open cn) eqn:E; cbn; rewrite ?E, ?app_nil_r, ?app_assoc; auto.
  - rewrite app_nil_r. auto.
Qed.

Lemma silent_frames : forall sid l, (forall f, In f l -> is_notif f = false) ->
  count_closing sid l = 0 /\ filter_map (plain_item sid) l = [].
Proof.
  intros sid l H. split; [apply count_closing_zero | apply plain_none]; intros f Hf Hn; rewrite (H f Hf) in Hn; discriminate.
Qed.

(* the pending sink goes away unaccepted (failed accept, reject, handler returned without answering): its permit is
   released, an error response may be enqueued *)
Lemma lo_fail : forall base meth n h b cn t x fo o1,
  sub_ok base meth n h b -> (s_state b = SPending \/ s_state b = SAbandoned) -> (x = SRejected \/ x = SDone) ->
  match fo with Some f => is_notif f | None => false end = false -> existsb is_send o1 = false ->
  local_ok base meth n h b (sb_fail x (s_has_permit b) b) cn (rel_conn (s_has_permit b) (c_push_opt fo cn)) t t o1
    (opt_frames fo cn).
Proof.
  intros base meth n h b cn t x fo o1 Hok Hp Hx Hfo Hns.
  assert (Hna : s_state b <> SActive) by (destruct Hp as [Hp | Hp]; rewrite Hp; discriminate).
  assert (Hnacc : ~ accepted b) by (unfold accepted; destruct Hp as [Hp | Hp]; rewrite Hp; intros [|]; discriminate).
  assert (Hak : akey b = None) by (unfold akey; destruct Hp as [Hp | Hp]; rewrite Hp; reflexivity).
  assert (Hperm : s_has_permit b = true).
  { rewrite (ok_permit Hok). unfold live. destruct Hp as [Hp | Hp]; rewrite Hp; reflexivity. }
  assert (Hxs : x <> SActive /\ live (sb_state x b) = false /\ akey (sb_state x b) = None /\ ~ accepted (sb_state x b)).
  { unfold live, akey, accepted. cbn. destruct Hx; subst x; repeat split; try discriminate; intros [|]; discriminate. }
  destruct Hxs as [Hx1 [Hx2 [Hx3 Hx4]]].
  rewrite Hperm. unfold sb_fail, rel_sub, rel_conn.
  assert (Hok' : sub_ok base meth n h (sb_permit false (sb_returned None (sb_state x b)))).
  { constructor; cbn; try (destruct Hok; assumption).
    - symmetry. exact Hx2.
    - intros _. destruct ((ok_idle Hok) Hna) as [A [B [_ D]]]. auto.
    - intro. contradiction.
    - intros; discriminate.
    - reflexivity. }
  assert (Hnn : forall f, In f (opt_frames fo cn) -> is_notif f = false).
  { intros f Hf. apply opt_frames_in in Hf. subst fo. exact Hfo. }
  destruct (silent_frames (s_id b) _ Hnn) as [Z1 Z2].
  destruct (push_opt_conn fo cn) as [P1 [P2 [P3 P4]]].
  constructor.
  - (* lo_static *) repeat split.
  - (* lo_subok *) exact Hok'.
  - (* lo_active *) intro. contradiction.
  - (* lo_done *) intro Hd. destruct Hp; congruence.
  - (* lo_conn *) unfold c_give_permit, c_set_permits, sent in *. cbn. auto.
  - (* lo_permits *) unfold c_give_permit, c_set_permits. cbn. rewrite P3, Hperm. cbn. lia.
  - (* lo_table *) right. split; [reflexivity|]. rewrite Hak. exact Hx3.
  - (* lo_notif *) intros f Hf Hn. rewrite (Hnn f Hf) in Hn. discriminate.
  - (* lo_newacc *) intro Ha. destruct (Hx4 Ha).
  - (* lo_closing *) rewrite Z1. split; [left; unfold ret_pending; cbn; lia|]. split; [reflexivity | intro; lia].
  - (* lo_fifo *) intro h2. rewrite (no_send_log _ _ Hns), Z2. destruct (Nat.eqb h2 h); reflexivity.
  - (* lo_obs *) intros h' k y ok Hin. destruct (no_send_in Hns Hin).
  - (* lo_unsub *) cbn. intro. contradiction.
Qed.

(* the subscribe call is abandoned and the pending sink lives on elsewhere: the handler future is gone, the
   middleware's answer is enqueued, the permit stays with the pending sink *)
Lemma lo_abandon : forall base meth n h b cn t f,
  sub_ok base meth n h b -> s_state b = SPending -> is_notif f = false ->
  local_ok base meth n h b (sb_returned None (sb_state SAbandoned b)) cn (c_push_opt (Some f) cn) t t [OAck]
    (opt_frames (Some f) cn).
Proof.
  intros base meth n h b cn t f Hok Hp Hf.
  assert (Hok' : sub_ok base meth n h (sb_returned None (sb_state SAbandoned b))).
  { constructor; cbn; try (destruct Hok; assumption).
    - rewrite (ok_permit Hok). unfold live. rewrite Hp. reflexivity.
    - intros _. destruct (ok_idle Hok) as [A [B [_ D]]]; [congruence | auto].
    - intros; discriminate.
    - intros; discriminate.
    - reflexivity. }
  assert (Hnn : forall g, In g (opt_frames (Some f) cn) -> is_notif g = false).
  { intros g Hg. apply opt_frames_in in Hg. inversion Hg. subst. assumption. }
  destruct (silent_frames (s_id b) _ Hnn) as [Z1 Z2].
  destruct (push_opt_conn (Some f) cn) as [P1 [P2 [P3 P4]]].
  constructor.
  - (* lo_static *) repeat split.
  - (* lo_subok *) exact Hok'.
  - (* lo_active *) intro. congruence.
  - (* lo_done *) intro. congruence.
  - (* lo_conn *) auto.
  - (* lo_permits *) rewrite P3. reflexivity.
  - (* lo_table *) right. split; [reflexivity|]. unfold akey. cbn. rewrite Hp. reflexivity.
  - (* lo_notif *) intros g Hg Hn. rewrite (Hnn g Hg) in Hn. discriminate.
  - (* lo_newacc *) unfold accepted. cbn. intros [|]; discriminate.
  - (* lo_closing *) rewrite Z1. split; [left; unfold ret_pending; cbn; lia|]. split; [reflexivity | intro; lia].
  - (* lo_fifo *) intro h2. rewrite Z2. cbn. destruct (Nat.eqb h2 h); reflexivity.
  - (* lo_obs *) intros h' k y ok [H | []]. discriminate.
  - (* lo_unsub *) cbn. intros; discriminate.
Qed.

(* accept, second half: the entry is inserted, accept() returns the first sink *)
Lemma lo_accept2 : forall base meth n h b cn t,
  sub_ok base meth n h b -> s_state b = SAccepting ->
  local_ok base meth n h b (sb_sinks [0%N] (sb_state SActive b)) cn cn t (key_of b :: t) [OAccept h true] [].
Proof.
  intros base meth n h b cn t Hok Hp.
  destruct (ok_idle Hok) as [_ [Hi [_ Hu]]]; [congruence|].
  assert (Hok' : sub_ok base meth n h (sb_sinks [0%N] (sb_state SActive b))).
  { constructor; cbn; try (destruct Hok; assumption).
    - rewrite (ok_permit Hok). unfold live. rewrite Hp. reflexivity.
    - intro F. destruct F. reflexivity.
    - rewrite Hi. intros k x [].
    - intros; discriminate.
    - intros [|]; discriminate. }
  constructor.
  - (* lo_static *) repeat split.
  - (* lo_subok *) exact Hok'.
  - (* lo_active *) intro. congruence.
  - (* lo_done *) intro. congruence.
  - (* lo_conn *) rewrite app_nil_r. auto.
  - (* lo_permits *) reflexivity.
  - (* lo_table *) left. intro k. unfold akey. cbn. rewrite Hu. split.
    + intros [<- | Hk]; [right; reflexivity|]. destruct (key_eqb k (key_of b)) eqn:Ek.
      * apply key_eqb_eq in Ek. subst k. right. reflexivity.
      * left. split; [|assumption]. intro Ek'. apply key_eqb_eq in Ek'. congruence.
    + intros [[_ Hk] | E]; [right; assumption | left; inversion E; reflexivity].
  - (* lo_notif *) intros f [].
  - (* lo_newacc *) intros _. left. left. assumption.
  - (* lo_closing *) cbn. split; [left; unfold ret_pending; cbn; lia|]. split; [auto | intro; lia].
  - (* lo_fifo *) intro h2. cbn. destruct (Nat.eqb h2 h); reflexivity.
  - (* lo_obs *) intros h' k x ok [H | []]. discriminate.
  - (* lo_unsub *) cbn. rewrite Hu. intros. discriminate.
Qed.

Lemma sinks_active : forall base meth n h b k, sub_ok base meth n h b -> In k (s_sinks b) -> s_state b = SActive.
Proof.
  intros base meth n h b k Hok Hk. destruct (s_state b) eqn:Es; try reflexivity;
    destruct (ok_idle Hok) as [E _]; try (rewrite Es; discriminate); rewrite E in Hk; destruct Hk.
Qed.
Arguments sinks_active {base meth n h b k}.

(* the repaired drop of one clone *)
Lemma lo_drop : forall base meth n h b cn t k,
  sub_ok base meth n h b -> In k (s_sinks b) -> ~ In k (map fst (s_inflight b)) ->
  let rest := removeN k (s_sinks b) in
  let last := is_nil rest in
  let r := last && s_has_permit b in
  local_ok base meth n h b
    (rel_sub r (if last then sb_unsub true (sb_sinks [] b) else sb_sinks rest b)) cn (rel_conn r cn) t
    (if last && negb (s_unsubscribed b) then remove_key (key_of b) t else t) [OAck] [].
Proof.
  intros base meth n h b cn t k Hok Hk Hnf rest last r.
  pose proof (sinks_active Hok Hk) as Ha.
  assert (Hperm : s_has_permit b = true).
  { rewrite (ok_permit Hok). unfold live. rewrite Ha. destruct (s_sinks b); [destruct Hk | reflexivity]. }
  assert (Hinf : forall k2 x, In (k2, x) (s_inflight b) -> In k2 rest).
  { intros k2 x Hin. apply removeN_In. split; [exact (ok_inflight Hok _ _ Hin)|].
    intro. subst k2. apply Hnf. apply in_map_iff. exists (k, x). auto. }
  subst last r. destruct rest as [|k0 rest'] eqn:Er; cbn [is_nil andb]; rewrite ?Hperm; cbn [rel_sub rel_conn].
  - (* last clone *)
    assert (Hok' : sub_ok base meth n h (sb_permit false (sb_unsub true (sb_sinks [] b)))).
    { constructor; cbn; try (destruct Hok; assumption).
      - unfold live. cbn. rewrite Ha. reflexivity.
      - intro. contradiction.
      - reflexivity. }
    constructor.
    + (* lo_static *) repeat split.
    + (* lo_subok *) exact Hok'.
    + (* lo_active *) intros _. cbn. auto.
    + (* lo_done *) intro. congruence.
    + (* lo_conn *) unfold c_give_permit, c_set_permits, sent. cbn. rewrite app_nil_r. auto.
    + (* lo_permits *) unfold c_give_permit, c_set_permits. cbn. rewrite Hperm. cbn. lia.
    + (* lo_table *) destruct (s_unsubscribed b) eqn:Eu; cbn [negb].
      * right. split; [reflexivity|]. unfold akey. cbn. rewrite Ha, Eu. reflexivity.
      * left. intro k1. rewrite remove_key_In. unfold akey. cbn. rewrite Ha. split.
        -- intros [A B]. left. auto.
        -- intros [[A B] | E]; [auto | discriminate].
    + (* lo_notif *) intros f [].
    + (* lo_newacc *) intros _. left. right. assumption.
    + (* lo_closing *) cbn. split; [left; unfold ret_pending; cbn; lia|]. split; [auto | intro; lia].
    + (* lo_fifo *) intro h2. cbn. destruct (Nat.eqb h2 h); reflexivity.
    + (* lo_obs *) intros h' k1 x ok [H | []]. discriminate.
    + (* lo_unsub *) cbn. intros _ _ F. exfalso. apply F. reflexivity.
  - (* other clones remain *)
    apply lo_quiet; try reflexivity; auto.
    + constructor; cbn; try (destruct Hok; assumption).
      * rewrite Hperm. unfold live. cbn. rewrite Ha. reflexivity.
      * intro. contradiction.
      * intros; discriminate.
    + repeat split.
    + cbn. intros _ E. rewrite E in Hk. destruct Hk.
Qed.

(* send, second half: the message built from the sink's own id and method is handed to the connection *)
Lemma lo_send_enq : forall base meth n h b cn t k x,
  sub_ok base meth n h b -> inflight_of k (s_inflight b) = Some x ->
  local_ok base meth n h b (sb_inflight (remove_inflight k (s_inflight b)) b) cn
    (c_push (FNotif (s_meth b) (s_id b) x false) cn) t t [OSendResult h k x (c_open cn)]
    (opt_frames (Some (FNotif (s_meth b) (s_id b) x false)) cn).
Proof.
  intros base meth n h b cn t k x Hok Hin.
  apply inflight_of_In in Hin.
  pose proof (sinks_active Hok (ok_inflight Hok _ _ Hin)) as Ha.
  assert (Hok' : sub_ok base meth n h (sb_inflight (remove_inflight k (s_inflight b)) b)).
  { constructor; cbn; try (destruct Hok; assumption).
    - intro. contradiction.
    - intros k2 y H. apply remove_inflight_In in H. destruct H as [H _]. exact ((ok_inflight Hok) _ _ H). }
  destruct (push_opt_conn (Some (FNotif (s_meth b) (s_id b) x false)) cn) as [P1 [P2 [P3 P4]]]. cbn [c_push_opt] in *.
  constructor.
  - (* lo_static *) repeat split.
  - (* lo_subok *) exact Hok'.
  - (* lo_active *) intros _. cbn. auto.
  - (* lo_done *) auto.
  - (* lo_conn *) auto.
  - (* lo_permits *) rewrite P3. reflexivity.
  - (* lo_table *) right. split; reflexivity.
  - (* lo_notif *) intros f Hf _. apply opt_frames_in in Hf. inversion Hf; subst f. cbn. auto.
  - (* lo_newacc *) intro. left. assumption.
  - (* lo_closing *) assert (Z : count_closing (s_id b) (opt_frames (Some (FNotif (s_meth b) (s_id b) x false)) cn) = 0).
    { unfold opt_frames. destruct (c_open cn); reflexivity. }
    rewrite Z. split; [left; unfold ret_pending; cbn; lia|]. split; [auto | intro; lia].
  - (* lo_fifo *) intro h2. unfold opt_frames. destruct (c_open cn); cbn.
    + rewrite (Nat.eqb_sym h h2). destruct (Nat.eqb h2 h); [|reflexivity]. rewrite N.eqb_refl. reflexivity.
    + destruct (Nat.eqb h2 h); reflexivity.
  - (* lo_obs *) intros h' k1 y ok [H | []]. inversion H. reflexivity.
  - (* lo_unsub *) cbn. auto.
Qed.

(* the closing notification, sent by the task that awaited the handler *)
Lemma lo_close_notify : forall base meth n h b cn t v,
  sub_ok base meth n h b -> s_ret b = Some v ->
  local_ok base meth n h b (sb_ret None b) cn (c_push_opt (close_frame b v) cn) t t [OAck] (opt_frames (close_frame b v) cn).
Proof.
  intros base meth n h b cn t v Hok Hr.
  assert (Ha : s_state b = SActive).
  { destruct (s_state b) eqn:Es; try reflexivity; destruct (ok_idle Hok) as [_ [_ [E _]]]; try (rewrite Es; discriminate); congruence. }
  destruct (ok_ret Hok _ Hr) as [Hret Hv].
  assert (Hok' : sub_ok base meth n h (sb_ret None b)).
  { constructor; cbn; try (destruct Hok; assumption).
    - intro. contradiction.
    - intros; discriminate. }
  assert (Hf : forall f, In f (opt_frames (close_frame b v) cn) ->
            is_notif f = true /\ is_closing f = true /\ frame_sid f = s_id b /\ frame_meth f = s_meth b /\ plain_item (s_id b) f = None).
  { intros f Hin. apply opt_frames_in in Hin. destruct v; cbn in Hin; inversion Hin; subst f; cbn; auto. }
  destruct (push_opt_conn (close_frame b v) cn) as [P1 [P2 [P3 P4]]].
  constructor.
  - (* lo_static *) repeat split.
  - (* lo_subok *) exact Hok'.
  - (* lo_active *) intros _. cbn. auto.
  - (* lo_done *) auto.
  - (* lo_conn *) auto.
  - (* lo_permits *) rewrite P3. reflexivity.
  - (* lo_table *) right. split; reflexivity.
  - (* lo_notif *) intros f Hin _. destruct (Hf f Hin) as [_ [_ [E1 [E2 _]]]]. auto.
  - (* lo_newacc *) intro. left. assumption.
  - (* lo_closing *) assert (Z : count_closing (s_id b) (opt_frames (close_frame b v) cn) <= 1).
    { unfold opt_frames. destruct (close_frame b v); [destruct (c_open cn)|]; unfold count_closing; cbn; try lia.
      destruct (closing_of (s_id b) f); cbn; lia. }
    unfold ret_pending at 2. rewrite Hr. cbn [sb_ret ret_pending s_ret s_returned].
    split; [left; unfold ret_pending; cbn; lia|]. split; auto.
  - (* lo_fifo *) intro h2. cbn. destruct (Nat.eqb h2 h); [|reflexivity]. symmetry. apply filter_map_none. intros f Hin. apply Hf. assumption.
  - (* lo_obs *) intros h' k1 y ok [H | []]. discriminate.
  - (* lo_unsub *) cbn. auto.
Qed.

Lemma lo_returned : forall base meth n h b cn t r,
  sub_ok base meth n h b -> s_returned b = false -> (s_state b = SActive \/ r = None) -> (forall v, r = Some v -> v <> CNone) ->
  local_ok base meth n h b (sb_returned r b) cn cn t t [OAck] [].
Proof.
  intros base meth n h b cn t r Hok Hr Hs Hv. apply lo_quiet; try reflexivity; auto.
  - constructor; cbn; try (destruct Hok; assumption).
    + intro Hn. destruct ((ok_idle Hok) Hn) as [A [B [_ D]]]. destruct Hs; [contradiction | auto].
    + intros v E. split; [reflexivity | exact (Hv v E)].
    + reflexivity.
  - repeat split.
Qed.

Lemma lo_clone : forall base meth n h b cn t src k,
  sub_ok base meth n h b -> In src (s_sinks b) ->
  local_ok base meth n h b (sb_sinks (k :: s_sinks b) b) cn cn t t [OAck] [].
Proof.
  intros base meth n h b cn t src k Hok Hsrc.
  pose proof (sinks_active Hok Hsrc) as Ha.
  apply lo_quiet; try reflexivity; auto.
  - constructor; cbn; try (destruct Hok; assumption).
    + rewrite (ok_permit Hok). unfold live. cbn. rewrite Ha. destruct (s_sinks b); [destruct Hsrc | reflexivity].
    + intro. contradiction.
    + intros k0 x H. right. exact ((ok_inflight Hok) _ _ H).
    + intros; discriminate.
  - repeat split.
  - cbn. intros _ E. rewrite E in Hsrc. destruct Hsrc.
Qed.

Lemma lo_sendcheck : forall base meth n h b cn t k x,
  sub_ok base meth n h b -> In k (s_sinks b) ->
  local_ok base meth n h b (sb_inflight ((k, x) :: s_inflight b) b) cn cn t t [OAck] [].
Proof.
  intros base meth n h b cn t k x Hok Hk.
  pose proof (sinks_active Hok Hk) as Ha.
  apply lo_quiet; try reflexivity; auto.
  - constructor; cbn; try (destruct Hok; assumption).
    + intro. contradiction.
    + intros k2 y [E | H]; [inversion E; subst; assumption | exact ((ok_inflight Hok) _ _ H)].
  - repeat split.
Qed.

(* what a step may do to a connection without touching any subscription: close it, move frames from the queue to the
   wire, append frames that are not notifications *)
Record conn_rel (cn cn' : conn) : Prop := mkConnRel {
  cr_permits : c_permits cn' = c_permits cn;
  cr_cap : c_cap cn' = c_cap cn;
  cr_open : c_open cn' = true -> c_open cn = true;
  cr_sent : exists extra, sent cn' = sent cn ++ extra /\ forall f, In f extra -> is_notif f = false }.
Arguments cr_permits {cn cn'}.
Arguments cr_cap {cn cn'}.
Arguments cr_open {cn cn'}.
Arguments cr_sent {cn cn'}.
Definition conns_rel (cs cs' : list conn) : Prop :=
  length cs' = length cs /\ forall c cn cn', nth_error cs c = Some cn -> nth_error cs' c = Some cn' -> conn_rel cn cn'.

Lemma conn_rel_refl : forall cn, conn_rel cn cn.
Proof. intro cn. constructor; auto. exists []. rewrite app_nil_r. split; [reflexivity | intros f []]. Qed.

Lemma conns_rel_old : forall cs cs' c cn, conns_rel cs cs' -> nth_error cs c = Some cn ->
  exists cn', nth_error cs' c = Some cn' /\ conn_rel cn cn'.
Proof.
  intros cs cs' c cn [Hl R] Hc. destruct (nth_error_same_length _ _ _ _ _ _ Hl Hc) as [cn' E].
  exists cn'. split; [exact E | eapply R; eassumption].
Qed.
Arguments conns_rel_old {cs cs' c cn}.

Lemma conns_rel_new : forall cs cs' c cn', conns_rel cs cs' -> nth_error cs' c = Some cn' ->
  exists cn, nth_error cs c = Some cn /\ conn_rel cn cn'.
Proof.
  intros cs cs' c cn' [Hl R] Hc. destruct (nth_error_same_length _ _ _ _ _ _ (eq_sym Hl) Hc) as [cn E].
  exists cn. split; [exact E | eapply R; eassumption].
Qed.
Arguments conns_rel_new {cs cs' c cn'}.

Definition obs_quiet (s : st) (o1 : list obs) : Prop :=
  (forall h2, log_of h2 o1 = []) /\ (forall h k x ok, In (OSendResult h k x ok) o1 -> h < length (subs s)).

Lemma InvO_quiet : forall s o o1, InvO s o -> obs_quiet s o1 -> InvO s (o ++ o1).
Proof.
  intros s o o1 IO [Q1 Q2]. constructor.
  - intros h b cn Hb Hc. rewrite log_of_app, Q1, app_nil_r. eapply io_fifo; eassumption.
  - intros h k x ok Hin. apply in_app_or in Hin. destruct Hin; [eapply io_bound; eassumption | eapply Q2; eassumption].
  - intros h b Hb Ha Hu Hs. destruct (io_unsub s o IO _ _ Hb Ha Hu Hs) as [req Hr]. exists req. apply in_or_app. auto.
Qed.

Lemma conns_inv : forall s o cs' o1, Inv s -> InvO s o -> conns_rel (conns s) cs' -> obs_quiet s o1 ->
  Inv (set_conns s cs') /\ InvO (set_conns s cs') (o ++ o1) /\ Mono s (set_conns s cs').
Proof.
  intros s o cs' o1 I IO R Q.
  split; [|split].
  - constructor; unfold set_conns; cbn [subs conns table id_base notif_meth].
    + intros h b Hb. destruct R as [Hl _]. rewrite Hl. exact (inv_sub s I _ _ Hb).
    + exact (inv_table s I).
    + intros c cn' Hc. destruct (conns_rel_new R Hc) as [cn [Hc0 Rc]]. rewrite (cr_permits Rc), (cr_cap Rc).
      exact (inv_count s I _ _ Hc0).
    + intros c cn' f Hc Hf Hn. destruct (conns_rel_new R Hc) as [cn [Hc0 Rc]]. destruct (cr_sent Rc) as [extra [E Hx]].
      rewrite E in Hf. apply in_app_or in Hf. destruct Hf as [Hf | Hf]; [|rewrite (Hx f Hf) in Hn; discriminate].
      exact (inv_frames s I _ _ _ Hc0 Hf Hn).
    + intros h b Hb Ha. destruct (inv_accepted s I _ _ Hb Ha) as [cn [Hc Hin]].
      destruct (conns_rel_old R Hc) as [cn' [Hc' Rc]]. destruct (cr_sent Rc) as [extra [E _]]. exists cn'. split; [assumption|].
      rewrite E. apply in_or_app. auto.
    + intros c cn' Hc. destruct (conns_rel_new R Hc) as [cn [Hc0 Rc]]. destruct (cr_sent Rc) as [extra [E Hx]]. rewrite E.
      apply naa_app; [exact (inv_order s I _ _ Hc0)|]. intros f Hf Hn. rewrite (Hx f Hf) in Hn. discriminate.
    + intros h b cn' Hb Hc. destruct (conns_rel_new R Hc) as [cn [Hc0 Rc]]. destruct (cr_sent Rc) as [extra [E Hx]].
      rewrite E, count_closing_app. destruct (silent_frames (s_id b) extra Hx) as [Z _]. rewrite Z, Nat.add_0_r.
      exact (inv_closing s I _ _ _ Hb Hc0).
  - apply InvO_quiet; [|exact Q]. constructor; unfold set_conns; cbn [subs conns].
    + intros h b cn' Hb Hc. destruct (conns_rel_new R Hc) as [cn [Hc0 Rc]]. destruct (cr_sent Rc) as [extra [E Hx]].
      rewrite E, filter_map_app. destruct (silent_frames (s_id b) extra Hx) as [_ Z]. rewrite Z, app_nil_r.
      exact (io_fifo s o IO _ _ _ Hb Hc0).
    + exact (io_bound s o IO).
    + exact (io_unsub s o IO).
  - split.
    + intro c. unfold conn_open, set_conns. cbn [conns]. destruct (nth_error cs' c) as [cn'|] eqn:Hc; [|discriminate].
      destruct (conns_rel_new R Hc) as [cn [Hc0 Rc]]. rewrite Hc0. exact (cr_open Rc).
    + intros h b Hb. exists b. repeat split; auto.
Qed.

Lemma conn_upd_inv : forall s o c cn fc o1, Inv s -> InvO s o -> nth_error (conns s) c = Some cn -> conn_rel cn (fc cn) ->
  obs_quiet s o1 -> Inv (upd_conn s c fc) /\ InvO (upd_conn s c fc) (o ++ o1) /\ Mono s (upd_conn s c fc).
Proof.
  intros s o c cn fc o1 I IO Hc R Q. unfold upd_conn. apply conns_inv; auto. split; [apply length_upd|].
  intros c2 cn2 cn2' H2 H2'. destruct (upd_lookup Hc H2') as [[-> ->] | [Ne H2'']].
  - rewrite Hc in H2. inversion H2; subst. assumption.
  - rewrite H2 in H2''. inversion H2''; subst. apply conn_rel_refl.
Qed.

Lemma snoc_lookup : forall A (l : list A) x n y, nth_error (l ++ [x]) n = Some y ->
  (n < length l /\ nth_error l n = Some y) \/ (n = length l /\ y = x).
Proof.
  intros A l x n y H. rewrite nth_error_snoc in H. destruct (Nat.ltb_spec n (length l)); [left; auto|].
  destruct (Nat.eqb_spec n (length l)); [|discriminate]. inversion H. right. auto.
Qed.

(* the record a subscribe call that found a free permit starts with, and the state it leaves *)
Definition new_sub (s : st) (c : nat) (req : N) : sub :=
  mkSub c (id_base s + N.of_nat (length (subs s)))%N req (notif_meth s) SPending [] [] true false false None.
Definition enter_sub (s : st) (c p : nat) (req : N) : st :=
  upd_conn (set_subs s (subs s ++ [new_sub s c req])) c (c_set_permits p).

Lemma subscribe_admit_inv : forall s o c cn p req,
  Inv s -> InvO s o -> nth_error (conns s) c = Some cn -> c_permits cn = S p ->
  Inv (enter_sub s c p req) /\ InvO (enter_sub s c p req) (o ++ [OHandler (length (subs s)) c req]) /\ Mono s (enter_sub s c p req).
Proof.
  intros s o c cn p req I IO Hc Hp.
  set (h := length (subs s)). set (bnew := new_sub s c req). set (s' := enter_sub s c p req).
  assert (Lk : forall c2 cn2', nth_error (upd c (c_set_permits p) (conns s)) c2 = Some cn2' ->
            exists cn2, nth_error (conns s) c2 = Some cn2 /\ sent cn2' = sent cn2 /\ c_cap cn2' = c_cap cn2 /\ c_open cn2' = c_open cn2 /\
              ((c2 = c /\ cn2 = cn /\ c_permits cn2' = p) \/ (c2 <> c /\ cn2' = cn2))).
  { intros c2 cn2' H2. destruct (upd_lookup Hc H2) as [[-> ->] | [Ne H2']].
    - exists cn. repeat split; auto.
    - exists cn2'. repeat split; auto. }
  assert (Lo : forall c2 cn2, nth_error (conns s) c2 = Some cn2 ->
            exists cn2', nth_error (upd c (c_set_permits p) (conns s)) c2 = Some cn2' /\ sent cn2' = sent cn2 /\ c_open cn2' = c_open cn2).
  { intros c2 cn2 H2. destruct (Nat.eq_dec c2 c) as [->|Ne].
    - rewrite Hc in H2. inversion H2; subst cn2. exists (c_set_permits p cn). split; [apply nth_error_upd_same; assumption | auto].
    - exists cn2. rewrite nth_error_upd_other by assumption. auto. }
  assert (Fresh : forall c2 cn2 f, nth_error (conns s) c2 = Some cn2 -> In f (sent cn2) -> is_notif f = true -> frame_sid f <> s_id bnew).
  { intros c2 cn2 f H2 Hf Hn E. destruct (inv_frames s I _ _ _ H2 Hf Hn) as [h0 [b0 [H0 [_ [E2 _]]]]].
    cbn in E. rewrite <- E2, (ok_id (inv_sub s I _ _ H0)) in E. apply N.add_cancel_l in E. apply Nat2N.inj in E.
    assert (Hlt : h0 < length (subs s)) by (apply nth_error_Some; congruence). subst h. clear - E Hlt. lia. }
  assert (Old : forall h2 b2, nth_error (subs s) h2 = Some b2 -> nth_error (subs s ++ [bnew]) h2 = Some b2).
  { intros h2 b2 H2. rewrite nth_error_app1; [assumption | apply nth_error_Some; congruence]. }
  split; [|split].
  - constructor; subst s'; unfold enter_sub, upd_conn, set_conns, set_subs; fold bnew; cbn [subs conns table id_base notif_meth].
    + intros h2 b2 H2. rewrite length_upd. destruct (snoc_lookup _ _ _ _ _ H2) as [[_ H2'] | [-> ->]].
      * exact (inv_sub s I _ _ H2').
      * constructor; cbn; auto; try (intros; discriminate).
        -- apply nth_error_Some. congruence.
        -- intros [|]; discriminate.
    + intro k. rewrite (inv_table s I). split.
      * intros [h2 [b2 [H2 K2]]]. exists h2, b2. auto.
      * intros [h2 [b2 [H2 K2]]]. destruct (snoc_lookup _ _ _ _ _ H2) as [[_ H2'] | [-> ->]].
        -- exists h2, b2. auto.
        -- discriminate.
    + intros c2 cn2' H2. destruct (Lk _ _ H2) as [cn2 [H2o [_ [Ec [_ D]]]]].
      unfold count_on. cbn [subs]. rewrite filter_app, app_length. pose proof (inv_count s I _ _ H2o) as IC. unfold count_on in IC.
      assert (Hh : holds_on c2 bnew = Nat.eqb c c2) by (unfold holds_on; cbn; apply andb_true_r).
      rewrite Ec. cbn [filter]. rewrite Hh.
      destruct D as [[-> [-> Ep]] | [Ne ->]].
      * rewrite Nat.eqb_refl. cbn. rewrite Ep. clear - IC Hp. lia.
      * destruct (Nat.eqb_spec c c2); [congruence|]. cbn. clear - IC. lia.
    + intros c2 cn2' f H2 Hf Hn. destruct (Lk _ _ H2) as [cn2 [H2o [Es _]]]. rewrite Es in Hf.
      destruct (inv_frames s I _ _ _ H2o Hf Hn) as [h0 [b0 [H0 R]]]. exists h0, b0. split; [apply Old; assumption | assumption].
    + intros h2 b2 H2 Ha. destruct (snoc_lookup _ _ _ _ _ H2) as [[_ H2'] | [-> ->]].
      * destruct (inv_accepted s I _ _ H2' Ha) as [cn2 [Hc2 Hin]]. destruct (Lo _ _ Hc2) as [cn2' [Hc2' [Es _]]].
        exists cn2'. rewrite Es. auto.
      * destruct Ha; discriminate.
    + intros c2 cn2' H2. destruct (Lk _ _ H2) as [cn2 [H2o [Es _]]]. rewrite Es. exact (inv_order s I _ _ H2o).
    + intros h2 b2 cn2' H2 Hc2. destruct (Lk _ _ Hc2) as [cn2 [H2o [Es _]]]. rewrite Es.
      destruct (snoc_lookup _ _ _ _ _ H2) as [[_ H2'] | [-> ->]].
      * exact (inv_closing s I _ _ _ H2' H2o).
      * rewrite count_closing_zero by (intros f Hf Hn; eapply Fresh; eassumption). cbn. split; [clear; lia | intro Hge; clear - Hge; lia].
  - constructor; subst s'; unfold enter_sub, upd_conn, set_conns, set_subs; fold bnew; cbn [subs conns table id_base notif_meth].
    + intros h2 b2 cn2' H2 Hc2. destruct (Lk _ _ Hc2) as [cn2 [H2o [Es _]]]. rewrite Es, log_of_app. cbn. rewrite app_nil_r.
      destruct (snoc_lookup _ _ _ _ _ H2) as [[_ H2'] | [-> ->]].
      * exact (io_fifo s o IO _ _ _ H2' H2o).
      * rewrite plain_none by (intros f Hf Hn; eapply Fresh; eassumption).
        symmetry. apply log_of_none. intros h0 k x ok Hin E. apply (io_bound s o IO) in Hin. subst h. clear - Hin E. lia.
    + intros h2 k x ok Hin. rewrite app_length. cbn. apply in_app_or in Hin. destruct Hin as [Hin | [Hin | []]]; [|discriminate].
      apply (io_bound s o IO) in Hin. clear - Hin. lia.
    + intros h2 b2 H2 Ha Hu Hs. destruct (snoc_lookup _ _ _ _ _ H2) as [[_ H2'] | [-> ->]]; [|discriminate].
      destruct (io_unsub s o IO _ _ H2' Ha Hu Hs) as [r Hr]. exists r. apply in_or_app. auto.
  - split.
    + intro c2. subst s'. unfold conn_open, enter_sub, upd_conn, set_conns, set_subs. cbn [conns].
      destruct (nth_error (upd c (c_set_permits p) (conns s)) c2) as [cn2'|] eqn:H2; [|discriminate].
      destruct (Lk _ _ H2) as [cn2 [H2o [_ [_ [Eo _]]]]]. rewrite H2o, Eo. auto.
    + intros h2 b2 H2. exists b2. split; [subst s'; unfold enter_sub; cbn; apply Old; assumption|]. repeat split; auto.
Qed.

(* The unsubscribe callback writes one flag: `s_unsubscribed` of the active record that has the key.
   `unsub_map (c, target)` unfolds to the anonymous function that step_core_g maps over the subscriptions in its
   UnsubscribeCall case (Model/SubBook.v); step_core_inv applies unsub_core_inv to that term by conversion, so the two
   must stay convertible. *)
Definition hits (k : nat * N) (b : sub) : bool :=
  key_eqb (key_of b) k && match s_state b with SActive => true | _ => false end.
Definition unsub_map (k : nat * N) (b : sub) : sub := if hits k b then sb_unsub true b else b.

Lemma unsub_map_eq : forall k b, unsub_map k b = sb_unsub (s_unsubscribed b || hits k b) b.
Proof.
  intros k b. unfold unsub_map. destruct (hits k b).
  - rewrite orb_true_r. reflexivity.
  - rewrite orb_false_r. destruct b; reflexivity.
Qed.

Lemma hits_spec : forall k b, hits k b = true <-> key_of b = k /\ s_state b = SActive.
Proof.
  intros k b. unfold hits. rewrite andb_true_iff, key_eqb_eq.
  destruct (s_state b); split; intros [A B]; split; auto; discriminate.
Qed.

Lemma akey_unsub : forall k b k', akey (unsub_map k b) = Some k' <-> akey b = Some k' /\ k' <> k.
Proof.
  intros k b k'. rewrite unsub_map_eq. unfold akey, key_of. cbn.
  destruct (s_state b) eqn:Ea; try (split; [discriminate | intros [H _]; discriminate]).
  destruct (s_unsubscribed b); cbn [orb]; [split; [discriminate | intros [H _]; discriminate]|].
  destruct (hits k b) eqn:Eh.
  - apply hits_spec in Eh. destruct Eh as [Ek _]. unfold key_of in Ek. split; [discriminate|]. intros [H Ne]. inversion H. congruence.
  - split; [|intros [H _]; exact H]. intro H. split; [exact H|]. intro Ek. inversion H. subst k'.
    assert (hits k b = true) by (apply hits_spec; auto). congruence.
Qed.

Lemma filter_map_len : forall A (p : A -> bool) (g : A -> A) l, (forall a, p (g a) = p a) -> length (filter p (map g l)) = length (filter p l).
Proof. intros A p g l H. induction l as [|a l IH]; cbn; [reflexivity|]. rewrite H. destruct (p a); cbn; congruence. Qed.

Lemma unsub_core_inv : forall s o c req target, Inv s -> InvO s o ->
  let k := (c, target) in
  let s1 := set_subs (set_table s (remove_key k (table s))) (map (unsub_map k) (subs s)) in
  Inv s1 /\ InvO s1 (o ++ [OUnsubAnswer c req target (mem_key k (table s))]) /\ Mono s s1.
Proof.
  intros s o c req target I IO k s1.
  assert (Hnew : forall h b', nth_error (map (unsub_map k) (subs s)) h = Some b' -> exists b, nth_error (subs s) h = Some b /\ b' = unsub_map k b).
  { intros h b' H. rewrite nth_error_map in H. destruct (nth_error (subs s) h) as [b|]; [|discriminate]. inversion H. exists b. auto. }
  assert (Hold : forall h b, nth_error (subs s) h = Some b -> nth_error (map (unsub_map k) (subs s)) h = Some (unsub_map k b)).
  { intros h b H. rewrite nth_error_map, H. reflexivity. }
  (* by unsub_map_eq every field but the flag is that of the old record, up to conversion *)
  split; [|split].
  - constructor; subst s1; unfold set_subs, set_table; cbn [subs conns table id_base notif_meth].
    + intros h b' H. destruct (Hnew _ _ H) as [b [Hb ->]]. rewrite unsub_map_eq.
      pose proof (inv_sub s I _ _ Hb) as Hok. constructor; cbn; try (destruct Hok; assumption).
      * intro Hn. destruct (ok_idle Hok Hn) as [B1 [B2 [B3 B4]]]. rewrite B4. repeat split; auto.
        destruct (hits k b) eqn:Eh; [|reflexivity]. apply hits_spec in Eh. destruct Eh. contradiction.
      * intros Ha Hs. rewrite (ok_nosinks Hok Ha Hs). reflexivity.
    + intro k'. rewrite remove_key_In, (inv_table s I). split.
      * intros [[h [b [Hb Kb]]] Ne]. exists h, (unsub_map k b). split; [apply Hold; assumption | apply akey_unsub; auto].
      * intros [h [b' [Hb' Kb']]]. destruct (Hnew _ _ Hb') as [b [Hb ->]]. apply akey_unsub in Kb'. destruct Kb'.
        split; [exists h, b; auto | assumption].
    + intros c2 cn Hc. unfold count_on. cbn [subs]. rewrite filter_map_len; [exact (inv_count s I _ _ Hc)|].
      intro b. rewrite unsub_map_eq. reflexivity.
    + intros c2 cn f Hc Hf Hn. destruct (inv_frames s I _ _ _ Hc Hf Hn) as [h0 [b0 [H0 R]]].
      exists h0, (unsub_map k b0). split; [apply Hold; assumption|]. rewrite unsub_map_eq. exact R.
    + intros h b' H Ha. destruct (Hnew _ _ H) as [b [Hb ->]]. rewrite unsub_map_eq in *. exact (inv_accepted s I _ _ Hb Ha).
    + exact (inv_order s I).
    + intros h b' cn H Hc. destruct (Hnew _ _ H) as [b [Hb ->]]. rewrite unsub_map_eq in *. exact (inv_closing s I _ _ _ Hb Hc).
  - constructor; subst s1; unfold set_subs, set_table; cbn [subs conns table id_base notif_meth].
    + intros h b' cn H Hc. destruct (Hnew _ _ H) as [b [Hb ->]]. rewrite unsub_map_eq in *.
      rewrite log_of_app. cbn. rewrite app_nil_r. exact (io_fifo s o IO _ _ _ Hb Hc).
    + intros h k0 x ok Hin. rewrite map_length. apply in_app_or in Hin. destruct Hin as [Hin | [Hin | []]]; [|discriminate].
      exact (io_bound s o IO _ _ _ _ Hin).
    + intros h b' H Ha Hu Hs. destruct (Hnew _ _ H) as [b [Hb ->]]. rewrite unsub_map_eq in *.
      cbn [s_state s_unsubscribed s_sinks s_conn s_id sb_unsub] in Ha, Hu, Hs |- *.
      destruct (s_unsubscribed b) eqn:Eu.
      * destruct (io_unsub s o IO _ _ Hb Ha Eu Hs) as [r Hr]. exists r. apply in_or_app. auto.
      * (* this very call closed it: its answer is the witness *)
        cbn [orb] in Hu. apply hits_spec in Hu. destruct Hu as [Ek _]. exists req. apply in_or_app. right. left.
        unfold key_of in Ek. subst k. inversion Ek. subst c target.
        replace (mem_key (s_conn b, s_id b) (table s)) with true; [reflexivity|]. symmetry. apply mem_key_In.
        apply (inv_table s I). exists h, b. split; [assumption|]. unfold akey. rewrite Ha, Eu. reflexivity.
  - split.
    + intro c2. subst s1. unfold conn_open. cbn. auto.
    + intros h b Hb. exists (unsub_map k b). split; [subst s1; cbn; apply Hold; assumption|].
      rewrite unsub_map_eq. split; [repeat split|]. cbn. split; [|auto].
      intro Ha. split; [exact Ha|]. intro Hu. rewrite Hu. reflexivity.
Qed.

Lemma conn_of_sub : forall s h b, Inv s -> nth_error (subs s) h = Some b -> exists cn, nth_error (conns s) (s_conn b) = Some cn.
Proof.
  intros s h b I Hb. pose proof (ok_conn (inv_sub s I _ _ Hb)) as Hc.
  destruct (nth_error (conns s) (s_conn b)) as [cn|] eqn:E; [exists cn; reflexivity|]. apply nth_error_None in E. lia.
Qed.

Lemma conn_open_eq : forall s c cn, nth_error (conns s) c = Some cn -> conn_open s c = c_open cn.
Proof. intros s c cn H. unfold conn_open. rewrite H. reflexivity. Qed.

Lemma same_state_inv : forall s o o1, Inv s -> InvO s o -> obs_quiet s o1 -> Inv s /\ InvO s (o ++ o1) /\ Mono s s.
Proof. intros. split; [assumption|]. split; [apply InvO_quiet; assumption | apply Mono_refl]. Qed.

Lemma noop_inv : forall s o, Inv s -> InvO s o -> Inv s /\ InvO s (o ++ []) /\ Mono s s.
Proof. intros s o I IO. apply same_state_inv; [assumption | assumption |]. split; [reflexivity | intros h k x ok []]. Qed.

Lemma push_rel : forall f cn, is_notif f = false -> conn_rel cn (c_push f cn).
Proof.
  intros f cn Hf. destruct (push_opt_conn (Some f) cn) as [P1 [P2 [P3 P4]]]. cbn [c_push_opt] in *.
  constructor; auto; try congruence. exists (opt_frames (Some f) cn). split; [assumption|].
  intros g Hg. apply opt_frames_in in Hg. inversion Hg. subst. assumption.
Qed.

(* accept() as a whole, in the order Gen/AcceptOrderGen.accept_steps has NOW (computed on that constant): a run that
   fails -- at the send to the sink or at the notification of the call -- leaves the subscriber table as it found it.
   False as soon as the table insert stands in front of a fallible step. *)
Lemma accept_failure_keeps_table : forall op call b fs fc t,
  ar_ok (accept_run op call b accept_steps fs fc t) = false -> ar_table (accept_run op call b accept_steps fs fc t) = t.
Proof.
  intros op call b fs fc t. unfold accept_steps. cbn [accept_run].
  destruct op, call; cbn [ar_ok ar_table]; intro H; try discriminate H; reflexivity.
Qed.

(* The seam the model puts into accept(), COMPUTED on the generated constant Gen/AcceptOrderGen.accept_steps: these two
   equations are where the proofs below depend on the order the source has now.  With the table insert moved in front
   of a fallible send they are false, and so are the invariant `inv_table` and the theorems that rest on it. *)
Lemma accept_phase1_now : accept_phase1 = [ASendToSink; ANotifyCall].
Proof. reflexivity. Qed.

Lemma accept_phase2_now : accept_phase2 = [ATableInsert; ABuildSink].
Proof. reflexivity. Qed.

Lemma holds_pending_cases : forall x, holds_pending x = true -> x = SPending \/ x = SAbandoned.
Proof. intros [] H; try discriminate; auto. Qed.

Lemma quiet_no_send : forall s o1, existsb is_send o1 = false -> obs_quiet s o1.
Proof.
  intros s o1 E. split; [intro; apply no_send_log; assumption|].
  intros h k x ok Hin. destruct (no_send_in E Hin).
Qed.

(* a disabled event leaves the state as it is: `auto` closes those branches with noop_inv *)
#[local] Hint Resolve noop_inv : core.

Lemma step_core_inv : forall s o a, Inv s -> InvO s o ->
  Inv (fst (step_core false s a)) /\ InvO (fst (step_core false s a)) (o ++ snd (step_core false s a)) /\
  Mono s (fst (step_core false s a)).
Proof.
  intros s o a I IO. destruct a; cbn [step_core step_core_g when_performed].
  - (* SubscribeCall *)
    destruct (nth_error (conns s) c) as [cn|] eqn:Hc; [|auto].
    destruct (c_open cn && negb (stopped s)); [|auto].
    destruct (c_permits cn) as [|p] eqn:Hp; cbn [fst snd].
    + unfold push. apply (conn_upd_inv s o c cn _ _ I IO Hc); [apply push_rel; reflexivity | apply quiet_no_send; reflexivity].
    + exact (subscribe_admit_inv s o c cn p req I IO Hc Hp).
  - (* Accept1: the answering part of accept(), in the order read from the source *)
    destruct (nth_error (subs s) h) as [b|] eqn:Hb; [|auto].
    destruct (conn_of_sub s h b I Hb) as [cn Hcn]. pose proof (inv_sub s I _ _ Hb) as Hok.
    destruct (holds_pending (s_state b)) eqn:Hp; [|auto].
    pose proof (holds_pending_cases _ Hp) as Hp'.
    rewrite accept_phase1_now. cbn [accept_run]. rewrite (conn_open_eq _ _ _ Hcn).
    destruct (c_open cn) eqn:Ho; [destruct (call_waiting (s_state b)) eqn:Hw|];
      cbn [ar_ok ar_sub ar_conn ar_table fst snd]; eapply (apply_inv I IO Hb Hcn).
    + (* both sends succeed *)
      apply lo_accept1; [assumption|]. destruct (s_state b); try discriminate; reflexivity.
    + (* the call is gone: the response was enqueued, subscribe.send fails *)
      pose proof (lo_fail _ _ _ h b cn (table s) SDone (Some (FSubOk (s_req b) (s_id b))) [OAccept h false]
                    Hok Hp' (or_intror eq_refl) eq_refl eq_refl) as L.
      cbn [c_push_opt opt_frames] in L. unfold c_push in L. rewrite Ho in L. exact L.
    + (* inner.send fails: nothing was done *)
      exact (lo_fail _ _ _ h b cn (table s) SDone None [OAccept h false] Hok Hp' (or_intror eq_refl) eq_refl eq_refl).
  - (* Accept2: the rest of accept() *)
    destruct (nth_error (subs s) h) as [b|] eqn:Hb; [|auto].
    destruct (conn_of_sub s h b I Hb) as [cn Hcn]. pose proof (inv_sub s I _ _ Hb) as Hok.
    destruct (s_state b) eqn:Es; auto.
    rewrite accept_phase2_now. cbn [accept_run ar_ok ar_sub ar_conn ar_table fst snd].
    eapply (apply_inv I IO Hb Hcn). apply lo_accept2; assumption.
  - (* Reject *)
    destruct (nth_error (subs s) h) as [b|] eqn:Hb; [|auto].
    destruct (conn_of_sub s h b I Hb) as [cn Hcn]. pose proof (inv_sub s I _ _ Hb) as Hok.
    destruct (holds_pending (s_state b)) eqn:Hp; [|auto]. cbn [fst snd].
    pose proof (holds_pending_cases _ Hp) as Hp'.
    eapply (apply_inv I IO Hb Hcn).
    exact (lo_fail _ _ _ h b cn (table s) SRejected (Some (FErr (s_req b) (ERejected code))) [OAck] Hok Hp' (or_introl eq_refl) eq_refl eq_refl).
  - (* AbandonCall *)
    destruct (nth_error (subs s) h) as [b|] eqn:Hb; [|auto].
    destruct (conn_of_sub s h b I Hb) as [cn Hcn]. pose proof (inv_sub s I _ _ Hb) as Hok.
    destruct (s_state b) eqn:Es; auto.
    destruct keep; cbn [fst snd]; eapply (apply_inv I IO Hb Hcn).
    + exact (lo_abandon _ _ _ h b cn (table s) (FErr (s_req b) EAbandoned) Hok Es eq_refl).
    + exact (lo_fail _ _ _ h b cn (table s) SDone (Some (FErr (s_req b) EAbandoned)) [OAck] Hok (or_introl Es) (or_intror eq_refl) eq_refl eq_refl).
  - (* DropPending *)
    destruct (nth_error (subs s) h) as [b|] eqn:Hb; [|auto].
    destruct (conn_of_sub s h b I Hb) as [cn Hcn]. pose proof (inv_sub s I _ _ Hb) as Hok.
    destruct (s_state b) eqn:Es; auto; cbn [fst snd]; eapply (apply_inv I IO Hb Hcn).
    + exact (lo_fail _ _ _ h b cn (table s) SDone (Some (FErr (s_req b) EInternal)) [OAck] Hok (or_introl Es) (or_intror eq_refl) eq_refl eq_refl).
    + exact (lo_fail _ _ _ h b cn (table s) SDone None [OAck] Hok (or_intror Es) (or_intror eq_refl) eq_refl eq_refl).
  - (* CloneSink *)
    destruct (nth_error (subs s) h) as [b|] eqn:Hb; [|auto].
    destruct (conn_of_sub s h b I Hb) as [cn Hcn]. pose proof (inv_sub s I _ _ Hb) as Hok.
    destruct (memN src (s_sinks b) && negb (memN k (s_sinks b))) eqn:G; [|auto]. cbn [fst snd].
    apply andb_true_iff in G. destruct G as [G1 _]. apply memN_In in G1.
    eapply (apply_inv I IO Hb Hcn). eapply lo_clone; eassumption.
  - (* DropSink *)
    destruct (nth_error (subs s) h) as [b|] eqn:Hb; [|auto].
    destruct (conn_of_sub s h b I Hb) as [cn Hcn]. pose proof (inv_sub s I _ _ Hb) as Hok.
    destruct (memN k (s_sinks b) && negb (memN k (map fst (s_inflight b)))) eqn:G; [|auto]. cbn [fst snd].
    apply andb_true_iff in G. destruct G as [G1 G2]. apply memN_In in G1.
    assert (G3 : ~ In k (map fst (s_inflight b))). { intro Hin. apply memN_In in Hin. rewrite Hin in G2. discriminate. }
    unfold drop_sink. eapply (apply_inv I IO Hb Hcn). apply lo_drop; assumption.
  - (* SendCheck *)
    destruct (nth_error (subs s) h) as [b|] eqn:Hb; [|auto].
    destruct (conn_of_sub s h b I Hb) as [cn Hcn]. pose proof (inv_sub s I _ _ Hb) as Hok.
    destruct (memN k (s_sinks b) && negb (memN k (map fst (s_inflight b)))) eqn:G; [|auto].
    apply andb_true_iff in G. destruct G as [G1 _]. apply memN_In in G1.
    destruct (sink_closed s b); cbn [fst snd].
    + apply same_state_inv; auto. split; [reflexivity|]. intros h0 k0 x0 ok [E | []]. inversion E; subst.
      apply nth_error_Some. congruence.
    + eapply (apply_inv I IO Hb Hcn). apply lo_sendcheck; assumption.
  - (* SendEnqueue *)
    destruct (nth_error (subs s) h) as [b|] eqn:Hb; [|auto].
    destruct (conn_of_sub s h b I Hb) as [cn Hcn]. pose proof (inv_sub s I _ _ Hb) as Hok.
    destruct (inflight_of k (s_inflight b)) as [x|] eqn:G; [|auto]. cbn [fst snd].
    rewrite (conn_open_eq _ _ _ Hcn). eapply (apply_inv I IO Hb Hcn). apply lo_send_enq; assumption.
  - (* IsClosed *)
    destruct (nth_error (subs s) h) as [b|] eqn:Hb; [|auto].
    destruct (memN k (s_sinks b)); [|auto]. cbn [fst snd].
    apply same_state_inv; auto. apply quiet_no_send. reflexivity.
  - (* HandlerReturn *)
    destruct (nth_error (subs s) h) as [b|] eqn:Hb; [|auto].
    destruct (conn_of_sub s h b I Hb) as [cn Hcn]. pose proof (inv_sub s I _ _ Hb) as Hok.
    destruct (s_returned b) eqn:Er; [auto|].
    destruct (s_state b) eqn:Es; cbn [fst snd]; auto; eapply (apply_inv I IO Hb Hcn).
    1: (* pending: the sink is dropped unanswered *)
       exact (lo_fail _ _ _ h b cn (table s) SDone (Some (FErr (s_req b) EInternal)) [OAck] Hok (or_introl Es) (or_intror eq_refl) eq_refl eq_refl).
    1: { (* active: the closing value goes to the spawned task *)
         apply lo_returned; [exact Hok | exact Er | left; exact Es |].
         intros v0 E. destruct v; try discriminate; inversion E; discriminate. }
    all: (* rejected, failed, abandoned: the value is discarded *)
         apply lo_returned; [exact Hok | exact Er | right; reflexivity | intros; discriminate].
  - (* CloseNotify *)
    destruct (nth_error (subs s) h) as [b|] eqn:Hb; [|auto].
    destruct (conn_of_sub s h b I Hb) as [cn Hcn]. pose proof (inv_sub s I _ _ Hb) as Hok.
    destruct (s_ret b) as [v|] eqn:Er; [|auto]. cbn [fst snd].
    eapply (apply_inv I IO Hb Hcn). apply lo_close_notify; assumption.
  - (* UnsubscribeCall *)
    destruct (nth_error (conns s) c) as [cn|] eqn:Hc; [|auto].
    destruct (c_open cn && negb (stopped s)); [|auto]. cbn [fst snd].
    destruct (unsub_core_inv s o c req target I IO) as [I1 [IO1 M1]].
    match goal with |- Inv (upd_conn ?s2 _ _) /\ _ => set (s1 := s2) in * end.
    assert (Hc1 : nth_error (conns s1) c = Some cn) by exact Hc.
    destruct (conn_upd_inv s1 _ c cn (c_enq (FUnsub req (mem_key (c, target) (table s)))) [] I1 IO1 Hc1) as [I2 [IO2 M2]].
    + constructor; auto. exists [FUnsub req (mem_key (c, target) (table s))]. split.
      * unfold sent, c_enq. cbn. rewrite app_assoc. reflexivity.
      * intros f [<- | []]. reflexivity.
    + apply quiet_no_send. reflexivity.
    + rewrite app_nil_r in IO2. split; [exact I2|]. split; [exact IO2 | eapply Mono_trans; eassumption].
  - (* WriterStep *)
    destruct (nth_error (conns s) c) as [cn|] eqn:Hc; [|auto].
    destruct (c_open cn); [|auto].
    destruct (c_queue cn) as [|f q] eqn:Hq; [auto|]. cbn [fst snd].
    apply (conn_upd_inv s o c cn _ _ I IO Hc); [|apply quiet_no_send; reflexivity].
    unfold c_pop. rewrite Hq. constructor; auto. exists []. split; [|intros ? []].
    unfold sent. cbn. rewrite Hq, app_nil_r, <- app_assoc. reflexivity.
  - (* ConnDrop *)
    destruct (nth_error (conns s) c) as [cn|] eqn:Hc; [|auto].
    destruct (c_open cn); [|auto]. cbn [fst snd].
    apply (conn_upd_inv s o c cn _ _ I IO Hc); [|apply quiet_no_send; reflexivity].
    constructor; auto; try discriminate. exists []. split; [|intros ? []]. unfold sent. cbn. rewrite app_nil_r. reflexivity.
  - (* ServerStop *)
    destruct (stopped s); [auto|]. cbn [fst snd].
    split; [|split].
    + (* no clause reads the stop flag: the fields of Inv (set_stopped s) are those of Inv s up to conversion *)
      destruct I. constructor; assumption.
    + apply InvO_quiet; [|apply quiet_no_send; reflexivity]. destruct IO. constructor; assumption.
    + exact (Mono_refl s).
Qed.

(* after a stop only connections with an unanswered subscribe call are still open *)
Definition inv_stop (s : st) : Prop :=
  stopped s = true -> forall c cn, nth_error (conns s) c = Some cn -> c_open cn = true -> has_pending s c = true.

Lemma settle_from_spec : forall s cs c,
  length (fst (settle_from s c cs)) = length cs /\
  (forall i cn cn', nth_error cs i = Some cn -> nth_error (fst (settle_from s c cs)) i = Some cn' ->
     (cn' = cn /\ (c_open cn = true -> has_pending s (c + i) = true)) \/ (cn' = c_end cn /\ c_open cn = true)) /\
  (forall ob, In ob (snd (settle_from s c cs)) -> (exists c' f, ob = OFrameOut c' f) \/ (exists c', ob = OConnEnd c')).
Proof.
  intros s cs. induction cs as [|cn0 cs IH]; intro c; cbn [settle_from].
  - cbn [fst snd]. split; [reflexivity|]. split.
    + intros i cn cn' H. destruct i; discriminate.
    + intros ob [].
  - specialize (IH (S c)). destruct (settle_from s (S c) cs) as [rest' o'] eqn:E. cbn [fst snd] in IH.
    destruct IH as [IH1 [IH2 IH3]].
    destruct (c_open cn0 && negb (has_pending s c)) eqn:G; cbn [fst snd length].
    + apply andb_true_iff in G. destruct G as [G1 G2]. split; [congruence|]. split.
      * intros [|i] cn cn' H H'; cbn in H, H'.
        -- inversion H; inversion H'; subst. right. auto.
        -- replace (c + S i) with (S c + i) by lia. eapply IH2; eassumption.
      * intros ob Hin. apply in_app_or in Hin. destruct Hin as [Hin | [<- | Hin]].
        -- apply in_map_iff in Hin. destruct Hin as [f [<- _]]. left. eauto.
        -- right. eauto.
        -- auto.
    + split; [congruence|]. split; [|exact IH3].
      intros [|i] cn cn' H H'; cbn in H, H'.
      * inversion H; inversion H'; subst. left. split; [reflexivity|]. intro Ho. rewrite Ho in G. cbn in G.
        rewrite Nat.add_0_r. destruct (has_pending s c); [reflexivity | discriminate].
      * replace (c + S i) with (S c + i) by lia. eapply IH2; eassumption.
Qed.

Lemma c_end_rel : forall cn, conn_rel cn (c_end cn).
Proof.
  intro cn. constructor; auto; try discriminate. exists []. split; [|intros ? []]. unfold sent, c_end. cbn. rewrite !app_nil_r. reflexivity.
Qed.

Lemma settle_inv : forall s o, Inv s -> InvO s o ->
  Inv (fst (settle s)) /\ InvO (fst (settle s)) (o ++ snd (settle s)) /\ Mono s (fst (settle s)) /\ inv_stop (fst (settle s)).
Proof.
  intros s o I IO. unfold settle. destruct (stopped s) eqn:Est.
  - destruct (settle_from_spec s (conns s) 0) as [S1 [S2 S3]]. destruct (settle_from s 0 (conns s)) as [cs o2] eqn:E.
    cbn [fst snd] in *.
    assert (R : conns_rel (conns s) cs).
    { split; [assumption|]. intros c cn cn' H H'. destruct (S2 _ _ _ H H') as [[-> _] | [-> _]]; [apply conn_rel_refl | apply c_end_rel]. }
    assert (Q : obs_quiet s o2).
    { split.
      - intro h2. apply log_of_none. intros h k x ok Hin. apply S3 in Hin. destruct Hin as [[? [? Hx]] | [? Hx]]; discriminate.
      - intros h k x ok Hin. apply S3 in Hin. destruct Hin as [[? [? Hx]] | [? Hx]]; discriminate. }
    destruct (conns_inv s o cs o2 I IO R Q) as [I2 [IO2 M2]].
    split; [exact I2|]. split; [exact IO2|]. split; [exact M2|]. unfold inv_stop.
    intros _ c cn' Hc Ho. cbn in Hc. destruct (nth_error_same_length _ _ _ _ _ _ (eq_sym S1) Hc) as [cn Hc0].
    destruct (S2 _ _ _ Hc0 Hc) as [[-> Hp] | [-> _]]; [|discriminate]. exact (Hp Ho).
  - cbn [fst snd]. rewrite app_nil_r. split; [exact I|]. split; [exact IO|]. split; [apply Mono_refl|].
    intro H. congruence.
Qed.

Lemma step_inv : forall s o a, Inv s -> InvO s o ->
  Inv (fst (step s a)) /\ InvO (fst (step s a)) (o ++ snd (step s a)) /\ Mono s (fst (step s a)) /\ inv_stop (fst (step s a)).
Proof.
  intros s o a I IO. unfold step, step_gen.
  destruct (step_core_inv s o a I IO) as [I1 [IO1 M1]]. destruct (step_core false s a) as [s1 o1]. cbn [fst snd] in *.
  destruct (settle_inv s1 (o ++ o1) I1 IO1) as [I2 [IO2 [M2 St]]]. destruct (settle s1) as [s2 o2]. cbn [fst snd] in *.
  rewrite <- app_assoc in IO2. split; [exact I2|]. split; [exact IO2|]. split; [exact (Mono_trans _ _ _ M1 M2) | exact St].
Qed.

Lemma init_inv : forall caps base meth, Inv (init caps base meth) /\ InvO (init caps base meth) [] /\ inv_stop (init caps base meth).
Proof.
  intros caps base meth. split; [|split].
  - constructor; unfold init; cbn [subs conns table id_base notif_meth].
    + intros [|h] b H; discriminate.
    + intro k. split; [intros [] | intros [[|h] [b [H _]]]; discriminate].
    + intros c cn H. rewrite nth_error_map in H. destruct (nth_error caps c); [|discriminate]. inversion H. cbn. unfold count_on. cbn. lia.
    + intros c cn f H Hf. rewrite nth_error_map in H. destruct (nth_error caps c); [|discriminate]. inversion H; subst. destruct Hf.
    + intros [|h] b H; discriminate.
    + intros c cn H. rewrite nth_error_map in H. destruct (nth_error caps c); [|discriminate]. inversion H; subst.
      intros pre f post E. cbn in E. destruct pre; discriminate.
    + intros [|h] b cn H; discriminate.
  - constructor; cbn.
    + intros [|h] b cn H; discriminate.
    + intros ? ? ? ? [].
    + intros [|h] b H; discriminate.
  - intro H. discriminate.
Qed.

Lemma run_snoc : forall stp s tr a, run_gen stp s (tr ++ [a]) = run_step stp (run_gen stp s tr) a.
Proof. intros. unfold run_gen. rewrite fold_left_app. reflexivity. Qed.

Lemma run_step_eq : forall stp so a, run_step stp so a = (fst (stp (fst so) a), snd so ++ snd (stp (fst so) a)).
Proof. intros. unfold run_step. destruct (stp (fst so) a). reflexivity. Qed.

Definition reach (caps : list nat) (base meth : N) (tr : list act) : st * list obs := run (init caps base meth) tr.

Lemma run_inv_from : forall s0 o0 tr, Inv s0 -> InvO s0 o0 -> inv_stop s0 ->
  let r := fold_left (run_step step) tr (s0, o0) in Inv (fst r) /\ InvO (fst r) (snd r) /\ inv_stop (fst r) /\ Mono s0 (fst r).
Proof.
  intros s0 o0 tr. revert s0 o0. induction tr as [|a tr IH]; intros s0 o0 I IO St; cbn [fold_left].
  - cbn. split; [exact I|]. split; [exact IO|]. split; [exact St | apply Mono_refl].
  - rewrite run_step_eq. cbn [fst snd]. destruct (step_inv s0 o0 a I IO) as [I1 [IO1 [M1 St1]]].
    destruct (IH _ _ I1 IO1 St1) as [I2 [IO2 [St2 M2]]].
    split; [exact I2|]. split; [exact IO2|]. split; [exact St2 | exact (Mono_trans _ _ _ M1 M2)].
Qed.

Lemma reach_inv : forall caps base meth tr,
  Inv (fst (reach caps base meth tr)) /\ InvO (fst (reach caps base meth tr)) (snd (reach caps base meth tr)) /\
  inv_stop (fst (reach caps base meth tr)).
Proof.
  intros. destruct (init_inv caps base meth) as [I [IO St]].
  destruct (run_inv_from _ _ tr I IO St) as [I2 [IO2 [St2 _]]]. auto.
Qed.

Lemma settle_subs : forall s, subs (fst (settle s)) = subs s /\ table (fst (settle s)) = table s /\ stopped (fst (settle s)) = stopped s.
Proof. intro s. unfold settle. destruct (stopped s) eqn:E; [destruct (settle_from s 0 (conns s)) | ]; cbn; auto. Qed.

Lemma settle_from_id : forall s cs c,
  (forall i cn, nth_error cs i = Some cn -> c_open cn = true -> has_pending s (c + i) = true) ->
  settle_from s c cs = (cs, []).
Proof.
  intros s cs. induction cs as [|cn cs IH]; intros c H; cbn [settle_from]; [reflexivity|].
  rewrite IH by (intros i cn' Hi Ho; replace (S c + i) with (c + S i) by lia; apply (H (S i) cn'); assumption).
  assert (G : c_open cn && negb (has_pending s c) = false).
  { destruct (c_open cn) eqn:Eo; [|reflexivity]. cbn. specialize (H 0 cn eq_refl Eo). rewrite Nat.add_0_r in H. rewrite H. reflexivity. }
  rewrite G. reflexivity.
Qed.

Lemma settle_id : forall s, inv_stop s -> settle s = (s, []).
Proof.
  intros s St. unfold settle. destruct (stopped s) eqn:E; [|reflexivity].
  rewrite settle_from_id; [destruct s; reflexivity|]. intros i cn Hi Ho. cbn. exact (St E i cn Hi Ho).
Qed.

Lemma step_fst : forall s a, fst (step s a) = fst (settle (fst (step_core false s a))).
Proof. intros. unfold step, step_gen. destruct (step_core false s a) as [s1 o1]. cbn [fst]. destruct (settle s1). reflexivity. Qed.

Lemma step_snd : forall s a, snd (step s a) = snd (step_core false s a) ++ snd (settle (fst (step_core false s a))).
Proof. intros. unfold step, step_gen. destruct (step_core false s a) as [s1 o1]. cbn [fst snd]. destruct (settle s1). reflexivity. Qed.

Lemma settle_open : forall s c, conn_open (fst (settle s)) c = true -> conn_open s c = true.
Proof.
  intros s c. unfold settle. destruct (stopped s); [|auto].
  destruct (settle_from_spec s (conns s) 0) as [S1 [S2 _]]. destruct (settle_from s 0 (conns s)) as [cs o]. cbn [fst snd] in *.
  unfold conn_open. cbn [conns set_conns]. destruct (nth_error cs c) as [cn'|] eqn:E; [|discriminate].
  destruct (nth_error_same_length _ _ _ _ _ _ (eq_sym S1) E) as [cn Hc]. rewrite Hc.
  destruct (S2 _ _ _ Hc E) as [[-> _] | [-> _]]; [auto | discriminate].
Qed.

Lemma settle_running : forall s, stopped s = false -> settle s = (s, []).
Proof. intros s H. apply settle_id. intro H'. congruence. Qed.

Lemma step_running : forall s a, stopped (fst (step_core false s a)) = false -> step s a = step_core false s a.
Proof.
  intros s a H. unfold step, step_gen. destruct (step_core false s a) as [s1 o1]. cbn [fst] in H.
  rewrite (settle_running _ H), app_nil_r. reflexivity.
Qed.

Lemma step_subscribe : forall s c cn req, nth_error (conns s) c = Some cn -> c_open cn = true -> stopped s = false ->
  step s (SubscribeCall c req) =
    match c_permits cn with
    | S p => (enter_sub s c p req, [OHandler (length (subs s)) c req])
    | O => (push s c (FErr req ETooMany), [ORefused c req])
    end.
Proof.
  intros s c cn req Hc Ho Hst. unfold step, step_gen. cbn [step_core step_core_g]. rewrite Hc, Ho, Hst. cbn [andb negb].
  destruct (c_permits cn); rewrite settle_running by exact Hst; reflexivity.
Qed.

Lemma reach_snoc : forall caps base meth tr a,
  reach caps base meth (tr ++ [a]) =
  (fst (step (fst (reach caps base meth tr)) a), snd (reach caps base meth tr) ++ snd (step (fst (reach caps base meth tr)) a)).
Proof. intros. unfold reach, run. rewrite run_snoc. apply run_step_eq. Qed.

Lemma reach_cons : forall caps base meth tr a tr2,
  reach caps base meth (tr ++ a :: tr2) =
  fold_left (run_step step) tr2 (fst (step (fst (reach caps base meth tr)) a),
                                 snd (reach caps base meth tr) ++ snd (step (fst (reach caps base meth tr)) a)).
Proof.
  intros. unfold reach, run, run_gen. rewrite fold_left_app. cbn [fold_left]. rewrite run_step_eq. reflexivity.
Qed.

Lemma reach_cons_mono : forall caps base meth tr a tr2,
  Mono (fst (step (fst (reach caps base meth tr)) a)) (fst (reach caps base meth (tr ++ a :: tr2))).
Proof.
  intros. rewrite reach_cons. destruct (reach_inv caps base meth tr) as [I [IO _]].
  destruct (step_inv _ _ a I IO) as [I1 [IO1 [_ St1]]].
  destruct (run_inv_from _ _ tr2 I1 IO1 St1) as [_ [_ [_ M]]]. exact M.
Qed.

Lemma naa_prefix : forall l1 l2, notif_after_accept (l1 ++ l2) -> notif_after_accept l1.
Proof. intros l1 l2 H pre f post E Hn. apply (H pre f (post ++ l2)); [|assumption]. rewrite E, <- app_assoc. reflexivity. Qed.

Lemma count_closing_ex : forall sid l, 1 <= count_closing sid l -> exists f, In f l /\ closing_of sid f = true.
Proof.
  intros sid l. unfold count_closing. induction l as [|f l IH]; cbn; [lia|].
  destruct (closing_of sid f) eqn:E; [intros _; exists f; auto|]. intro H. destruct (IH H) as [g [Hg Eg]]. exists g. auto.
Qed.

(* what closes a subscription: a successful unsubscribe naming it, the end of its connection, the server stopping
   (at once when the connection has no unanswered subscribe call) *)
Definition closes (s : st) (a : act) (b : sub) : Prop :=
  (exists req, a = UnsubscribeCall (s_conn b) req (s_id b) /\ In (OUnsubAnswer (s_conn b) req (s_id b) true) (snd (step s a)))
  \/ a = ConnDrop (s_conn b)
  \/ (a = ServerStop /\ has_pending s (s_conn b) = false).

Lemma closes_closed : forall s o a h b, Inv s -> InvO s o -> inv_stop s ->
  nth_error (subs s) h = Some b -> s_state b = SActive -> closes s a b ->
  exists b1, nth_error (subs (fst (step s a))) h = Some b1 /\ s_state b1 = SActive /\ sink_closed (fst (step s a)) b1 = true.
Proof.
  intros s o a h b I IO St Hb Ha Hcl.
  destruct (step_inv s o a I IO) as [I1 [_ [[M1 M2] St1]]].
  destruct (M2 _ _ Hb) as [b1 [Hb1 [[S1 [S2 _]] [Hact _]]]]. destruct (Hact Ha) as [Ha1 Hu1].
  exists b1. split; [assumption|]. split; [assumption|]. unfold sink_closed. rewrite S1.
  destruct Hcl as [[req [-> Hobs]] | [-> | [-> Hnp]]].
  - (* successful unsubscribe: the liveness channel of b is closed in that step *)
    apply orb_true_iff. right.
    unfold step, step_gen in Hb1, Hobs. cbn [step_core step_core_g when_performed] in Hb1, Hobs.
    destruct (nth_error (conns s) (s_conn b)) as [cn|] eqn:Hc; [|rewrite (settle_id s St) in Hobs; destruct Hobs].
    destruct (c_open cn && negb (stopped s)); [|rewrite (settle_id s St) in Hobs; destruct Hobs].
    match type of Hb1 with context [settle ?x] => pose proof (settle_subs x) as [Es _]; destruct (settle x) as [s2 o2] end.
    cbn [fst snd] in *. rewrite Es in Hb1. cbn in Hb1. rewrite nth_error_map, Hb in Hb1. cbn in Hb1. inversion Hb1.
    unfold key_of. rewrite (proj2 (key_eqb_eq (s_conn b, s_id b) (s_conn b, s_id b)) eq_refl), Ha. reflexivity.
  - (* the connection ended *)
    apply orb_true_iff. left. apply negb_true_iff. destruct (conn_open (fst (step s (ConnDrop (s_conn b)))) (s_conn b)) eqn:E; [|reflexivity].
    exfalso. rewrite step_fst in E. apply settle_open in E. cbn [step_core step_core_g] in E. unfold conn_open in E.
    destruct (nth_error (conns s) (s_conn b)) as [cn|] eqn:Hc; [destruct (c_open cn) eqn:Eo|]; cbn [fst] in E.
    + unfold upd_conn in E. cbn [conns set_conns] in E. rewrite (nth_error_upd_same _ _ _ _ _ Hc) in E. discriminate.
    + rewrite Hc in E. congruence.
    + rewrite Hc in E. discriminate.
  - (* server stop on a connection without unanswered subscribe call *)
    apply orb_true_iff. left. apply negb_true_iff. destruct (conn_open (fst (step s ServerStop)) (s_conn b)) eqn:E; [|reflexivity].
    exfalso. unfold conn_open in E. destruct (nth_error (conns (fst (step s ServerStop))) (s_conn b)) as [cn1|] eqn:Hc1; [|discriminate].
    assert (Hs : stopped (fst (step s ServerStop)) = true /\ subs (fst (step s ServerStop)) = subs s).
    { unfold step, step_gen. cbn [step_core step_core_g when_performed]. destruct (stopped s) eqn:Est.
      - rewrite (settle_id s St). cbn. auto.
      - destruct (settle_subs (set_stopped s)) as [Es [_ Est2]]. destruct (settle (set_stopped s)) as [s2 o2]. cbn [fst snd] in *. auto. }
    destruct Hs as [Hs1 Hs2]. pose proof (St1 Hs1 _ _ Hc1 E) as Hp. unfold has_pending in Hp, Hnp. rewrite Hs2 in Hp. congruence.
Qed.

Lemma closed_fails : forall s h b k x, inv_stop s -> nth_error (subs s) h = Some b -> sink_closed s b = true -> In k (s_sinks b) ->
  step s (IsClosed h k) = (s, [OClosed h k true]) /\
  (~ In k (map fst (s_inflight b)) -> step s (SendCheck h k x) = (s, [OSendResult h k x false])).
Proof.
  intros s h b k x St Hb Hc Hk. apply memN_In in Hk. split.
  - unfold step, step_gen. cbn [step_core step_core_g when_performed]. rewrite Hb, Hk, Hc, (settle_id s St). reflexivity.
  - intro Hn. assert (E : memN k (map fst (s_inflight b)) = false).
    { destruct (memN k (map fst (s_inflight b))) eqn:E; [apply memN_In in E; contradiction | reflexivity]. }
    unfold step, step_gen. cbn [step_core step_core_g when_performed]. rewrite Hb, Hk, E. cbn [andb negb]. rewrite Hc, (settle_id s St). reflexivity.
Qed.

(* subscriptions of connection c that exist: pending, being accepted, or active with a sink still held *)
Definition live_on (c : nat) (b : sub) : bool := Nat.eqb (s_conn b) c && live b.
Definition count_live (s : st) (c : nat) : nat := length (filter (live_on c) (subs s)).

Definition active_here (s : st) (c : nat) (t : N) : Prop :=
  exists h b, nth_error (subs s) h = Some b /\ s_conn b = c /\ s_id b = t /\ s_state b = SActive /\
              s_unsubscribed b = false /\ s_sinks b <> [].

Lemma count_live_on : forall s c, Inv s -> count_live s c = count_on s c.
Proof.
  intros s c I. unfold count_live, count_on. f_equal. apply filter_ext_in. intros b Hin.
  apply In_nth_error in Hin. destruct Hin as [h Hb].
  unfold live_on, holds_on. rewrite (ok_permit (inv_sub s I _ _ Hb)). reflexivity.
Qed.

Lemma table_active : forall s c t, Inv s -> (In (c, t) (table s) <-> active_here s c t).
Proof.
  intros s c t I. rewrite (inv_table s I). split.
  - intros [h [b [Hb K]]]. apply akey_key in K. destruct K as [K [Ha Hu]]. unfold key_of in K. inversion K.
    exists h, b. repeat split; auto. intro Hs. rewrite (ok_nosinks (inv_sub s I _ _ Hb) Ha Hs) in Hu. discriminate.
  - intros [h [b [Hb [E1 [E2 [Ha [Hu _]]]]]]]. exists h, b. split; [assumption|]. unfold akey, key_of. rewrite Ha, Hu, E1, E2. reflexivity.
Qed.

Lemma cap_respected : forall caps base meth tr c cn,
  let s := fst (reach caps base meth tr) in
  nth_error (conns s) c = Some cn ->
  count_live s c + c_permits cn = c_cap cn /\ count_live s c <= c_cap cn.
Proof.
  intros caps base meth tr c cn s Hc. destruct (reach_inv caps base meth tr) as [I _]. fold s in I.
  pose proof (inv_count s I _ _ Hc). rewrite (count_live_on s c I). lia.
Qed.

Fixpoint handler_obs (h c : nat) (reqs : list N) : list obs :=
  match reqs with [] => [] | r :: rs => OHandler h c r :: handler_obs (S h) c rs end.

Lemma restart : forall reqs s c cn, nth_error (conns s) c = Some cn -> c_open cn = true -> stopped s = false ->
  length reqs <= c_permits cn ->
  snd (run s (map (SubscribeCall c) reqs)) = handler_obs (length (subs s)) c reqs.
Proof.
  intros reqs. unfold run, run_gen.
  assert (G : forall s o c cn, nth_error (conns s) c = Some cn -> c_open cn = true -> stopped s = false -> length reqs <= c_permits cn ->
            snd (fold_left (run_step step) (map (SubscribeCall c) reqs) (s, o)) = o ++ handler_obs (length (subs s)) c reqs).
  { induction reqs as [|req reqs IH]; intros s o c cn Hc Ho Hst Hl; cbn [map fold_left handler_obs].
    - cbn. rewrite app_nil_r. reflexivity.
    - cbn [length] in Hl. destruct (c_permits cn) as [|p] eqn:Hp; [lia|].
      rewrite run_step_eq. cbn [fst snd]. rewrite (step_subscribe s c cn req Hc Ho Hst), Hp. cbn [fst snd].
      erewrite IH with (cn := c_set_permits p cn).
      + cbn [subs enter_sub upd_conn set_conns set_subs]. rewrite app_length. cbn [length]. rewrite <- app_assoc. cbn [app].
        rewrite Nat.add_1_r. reflexivity.
      + cbn. apply nth_error_upd_same. assumption.
      + assumption.
      + assumption.
      + cbn. lia. }
  intros s c cn Hc Ho Hst Hl. rewrite (G s [] c cn Hc Ho Hst Hl). reflexivity.
Qed.

(* the unrepaired Drop breaks C06_stays_active: after `clone; drop the clone` the surviving sink reports closed and the
   entry is gone *)
Definition old_witness : list act :=
  [SubscribeCall 0 1; Accept1 0; Accept2 0; CloneSink 0 0 1; DropSink 0 1].

Lemma settle_obs_shape : forall s ob, In ob (snd (settle s)) -> (exists c f, ob = OFrameOut c f) \/ (exists c, ob = OConnEnd c).
Proof.
  intros s ob. unfold settle. destruct (stopped s); [|intros []].
  destruct (settle_from_spec s (conns s) 0) as [_ [_ S3]]. destruct (settle_from s 0 (conns s)); cbn in *. auto.
Qed.

Lemma settle_conn : forall s c cn', nth_error (conns (fst (settle s))) c = Some cn' ->
  exists cn, nth_error (conns s) c = Some cn /\ c_permits cn' = c_permits cn /\ c_cap cn' = c_cap cn.
Proof.
  intros s c cn'. unfold settle. destruct (stopped s); [|cbn; intro H; exists cn'; auto].
  destruct (settle_from_spec s (conns s) 0) as [S1 [S2 _]]. destruct (settle_from s 0 (conns s)) as [cs o]; cbn in *.
  intro H. destruct (nth_error_same_length _ _ _ _ _ _ (eq_sym S1) H) as [cn E].
  exists cn. split; [exact E|]. destruct (S2 _ _ _ E H) as [[-> _] | [-> _]]; auto.
Qed.

(* Accept1 on a live pending sink, for the order Gen/AcceptOrderGen.accept_steps has NOW (accept_phase1_now is computed on
   that constant): the three outcomes.  accept1_step and failed_accept_frees_slot rest on it. *)
Lemma accept1_core : forall old s h b cn, nth_error (subs s) h = Some b -> nth_error (conns s) (s_conn b) = Some cn ->
  holds_pending (s_state b) = true ->
  step_core old s (Accept1 h) =
    if c_open cn then
      if call_waiting (s_state b)
      then (apply s h b (sb_state SAccepting) (c_enq (FSubOk (s_req b) (s_id b))) (table s), [OAck])
      else (apply s h b (sb_fail SDone (s_has_permit b))
              (fun x => rel_conn (s_has_permit b) (c_enq (FSubOk (s_req b) (s_id b)) x)) (table s), [OAccept h false])
    else (apply s h b (sb_fail SDone (s_has_permit b)) (rel_conn (s_has_permit b)) (table s), [OAccept h false]).
Proof.
  intros old s h b cn Hb Hcn Hp. cbn [step_core step_core_g when_performed]. rewrite Hb, Hp, accept_phase1_now. cbn [accept_run].
  rewrite (conn_open_eq _ _ _ Hcn). destruct (c_open cn); [destruct (call_waiting (s_state b))|]; reflexivity.
Qed.

Lemma not_active_here : forall s h b, Inv s -> nth_error (subs s) h = Some b -> s_state b <> SActive ->
  ~ active_here s (s_conn b) (s_id b).
Proof.
  intros s h b I Hb Hn [h' [b' [Hb' [_ [Ei [Ha _]]]]]].
  assert (h' = h) by (eapply ids_inj; eauto). subst h'. rewrite Hb in Hb'. inversion Hb'; subst b'. contradiction.
Qed.

Lemma accept1_step : forall s h b cn, nth_error (subs s) h = Some b -> nth_error (conns s) (s_conn b) = Some cn ->
  (s_state b = SPending \/ s_state b = SAbandoned) ->
  (In (OAccept h false) (snd (step s (Accept1 h))) <-> (s_state b = SAbandoned \/ conn_open s (s_conn b) = false)) /\
  (In (OAccept h false) (snd (step s (Accept1 h))) ->
     table (fst (step s (Accept1 h))) = table s /\
     (exists b1, nth_error (subs (fst (step s (Accept1 h)))) h = Some b1 /\ same_static b b1 /\ s_state b1 = SDone) /\
     (forall cn1, nth_error (conns (fst (step s (Accept1 h)))) (s_conn b) = Some cn1 ->
        c_permits cn1 = c_permits cn + Nat.b2n (s_has_permit b) /\ c_cap cn1 = c_cap cn)).
Proof.
  intros s h b cn Hb Hcn Hpa.
  assert (Hp : holds_pending (s_state b) = true) by (destruct Hpa as [E | E]; rewrite E; reflexivity).
  assert (NoAcc : forall s1 o1, In (OAccept h false) (o1 ++ snd (settle s1)) -> In (OAccept h false) o1).
  { intros s1 o1 Hin. apply in_app_or in Hin. destruct Hin as [Hin | Hin]; [assumption|].
    apply settle_obs_shape in Hin. destruct Hin as [[? [? E]] | [? E]]; discriminate E. }
  assert (Post : forall fs fc, (forall x, same_static x (fs x) /\ s_state (fs x) = SDone) ->
            (forall x, c_permits (fc x) = c_permits x + Nat.b2n (s_has_permit b) /\ c_cap (fc x) = c_cap x) ->
            let s1 := apply s h b fs fc (table s) in
            table (fst (settle s1)) = table s /\
            (exists b1, nth_error (subs (fst (settle s1))) h = Some b1 /\ same_static b b1 /\ s_state b1 = SDone) /\
            (forall cn1, nth_error (conns (fst (settle s1))) (s_conn b) = Some cn1 ->
               c_permits cn1 = c_permits cn + Nat.b2n (s_has_permit b) /\ c_cap cn1 = c_cap cn)).
  { intros fs fc Hfs Hfc s1. destruct (settle_subs s1) as [E1 [E2 _]]. split; [rewrite E2; reflexivity|]. split.
    - rewrite E1. exists (fs b). split; [apply nth_error_upd_same; assumption | apply Hfs].
    - intros cn1 H1. destruct (settle_conn _ _ _ H1) as [cn0 [H0 [P C]]].
      unfold s1, apply in H0. cbn [conns] in H0. rewrite nth_error_upd_same with (b := cn) in H0 by assumption.
      inversion H0; subst cn0. rewrite P, C. apply Hfc. }
  assert (Ffs : forall x, same_static x (sb_fail SDone (s_has_permit b) x) /\ s_state (sb_fail SDone (s_has_permit b) x) = SDone).
  { intro x. unfold sb_fail, rel_sub, same_static. destruct (s_has_permit b); cbn; auto. }
  rewrite step_fst, step_snd, (accept1_core false s h b cn Hb Hcn Hp), (conn_open_eq _ _ _ Hcn).
  destruct (c_open cn) eqn:Ho; [destruct (call_waiting (s_state b)) eqn:Hw|]; cbn [fst snd].
  - (* succeeds *)
    assert (N : forall s1, ~ In (OAccept h false) ([OAck] ++ snd (settle s1))).
    { intros s1 Hin. apply NoAcc in Hin. destruct Hin as [Hin | []]. discriminate Hin. }
    split; [|intro Hin; destruct (N _ Hin)]. split; [intro Hin; destruct (N _ Hin)|].
    intros [Ea | Ec]; [rewrite Ea in Hw; discriminate Hw | discriminate Ec].
  - (* the call is gone *)
    split.
    + split; [intros _ | intros _; left; reflexivity].
      left. destruct (s_state b); try discriminate Hp; try discriminate Hw. reflexivity.
    + intros _. apply (Post (sb_fail SDone (s_has_permit b)) (fun x => rel_conn (s_has_permit b) (c_enq (FSubOk (s_req b) (s_id b)) x))); [exact Ffs|].
      intro x. unfold rel_conn, Nat.b2n. destruct (s_has_permit b); cbn; split; auto; lia.
  - (* the connection is closed *)
    split.
    + split; [intros _; right; reflexivity | intros _; left; reflexivity].
    + intros _. apply (Post (sb_fail SDone (s_has_permit b)) (rel_conn (s_has_permit b))); [exact Ffs|].
      intro x. unfold rel_conn, Nat.b2n. destruct (s_has_permit b); cbn; split; auto; lia.
Qed.

Lemma failed_accept_frees_slot : forall caps base meth tr h b cn,
  let s := fst (reach caps base meth tr) in
  nth_error (subs s) h = Some b -> (s_state b = SPending \/ s_state b = SAbandoned) ->
  nth_error (conns s) (s_conn b) = Some cn ->
  In (OAccept h false) (snd (step s (Accept1 h))) ->
  let s1 := fst (step s (Accept1 h)) in
  count_live s1 (s_conn b) + 1 = count_live s (s_conn b) /\
  exists cn1, nth_error (conns s1) (s_conn b) = Some cn1 /\ c_permits cn1 = c_permits cn + 1 /\ c_cap cn1 = c_cap cn.
Proof.
  intros caps base meth tr h b cn s Hb Hp Hcn Hfail s1. destruct (reach_inv caps base meth tr) as [I _]. fold s in I.
  destruct (accept1_step s h b cn Hb Hcn Hp) as [_ Post].
  destruct (Post Hfail) as [_ [[b1 [Hb1 [[Ec _] _]]] Hperm]]. fold s1 in Hb1, Hperm.
  assert (Es1 : s1 = fst (reach caps base meth (tr ++ [Accept1 h]))) by (rewrite reach_snoc; reflexivity).
  destruct (reach_inv caps base meth (tr ++ [Accept1 h])) as [I1 _]. rewrite <- Es1 in I1.
  destruct (conn_of_sub s1 h b1 I1 Hb1) as [cn1 Hcn1]. rewrite Ec in Hcn1.
  destruct (Hperm cn1 Hcn1) as [P C].
  assert (Hl : s_has_permit b = true).
  { rewrite (ok_permit (inv_sub s I _ _ Hb)). unfold live. destruct Hp as [-> | ->]; reflexivity. }
  rewrite Hl in P. cbn [Nat.b2n] in P.
  pose proof (cap_respected caps base meth tr (s_conn b) cn Hcn) as [A _]. fold s in A.
  pose proof (cap_respected caps base meth (tr ++ [Accept1 h]) (s_conn b) cn1) as B. rewrite <- Es1 in B. destruct (B Hcn1) as [B1 _].
  split; [lia|]. exists cn1. auto.
Qed.

Lemma upd_snoc_last : forall A (f : A -> A) l x, upd (length l) f (l ++ [x]) = l ++ [f x].
Proof. induction l as [|a l IH]; intro x; cbn; [reflexivity | rewrite IH; reflexivity]. Qed.

