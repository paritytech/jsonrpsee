(* What every proof about Model/ClientMgr.v starts from, in three parts.

   1. Association lists: `alookup` / `aremove` / `aset` for any key type whose `eqb` decides equality, and the few
      list facts they need.
   2. What each primitive of the state machine writes.  `SameC s s'`: s' differs from s at most in the channel table,
      the send task's flags (busy, dying, sendfail), the unsubscribe futures, the Subscription values and the callers
      that gave up; `SameQ s s'`: at most in queue, waiting and unsubw.  Every primitive is in one of the two, so
      that a fact about a field a primitive leaves alone is a projection.
   3. The dispatch read from the source (Gen/ClientDispatchGen.v, regenerated on every check from
      core/src/client/async_client/mod.rs handle_recv_message): what it IS at the moment, and what Model/ClientMgr.v's
      interpreters compute on it -- the first-byte table; WHAT EACH ARM DOES in the single arm and in the array loop
      (action per reader, looked up by reader: independent of the order in which the readers are tried), the close
      mode of the loop, the `?` on try_parse_inner_as_number, who sets got_notif, the no-reader rules, the rules
      after the loop.  The ORDER of the readers is in Proofs/ClientReadersSingle.v (classify_single_now) and
      Proofs/ClientReadersElem.v (classify_elem_now).

   The `*_now` lemmas about the generated constants are proved by computation; a source with another arm / an early
   return in the loop / no `?` gives other constants, the `*_now` lemma concerned stops building, and with it
   everything that was proved through it.  The closed forms derived from them (classify_frame_now, handle_back_now,
   array_run_now) are what the proofs about frames as `inframe` values use.  What holds for EVERY dispatch is proved
   of the interpreters themselves (Proofs/ClientMgrInv.v Section ComposeBack: the invariant, the potential of C03, the
   id counter); a statement about ANOTHER dispatch unfolds them (Proofs/ClientMgrC05.v array_run_sub_notif,
   C05_dispatch_order_matters).

   `array_loop`, `handle_elem_single_ref`, `handle_back_ref` are not part of the model: they are the closed forms the
   interpreters are proved equal to (the shape the proofs do their case analysis on). *)
From JV Require Import Base.Bytes Base.Dec Model.Wire Model.ClientMgr Model.ClientDispatch Gen.ClientDispatchGen.
Local Open Scope N_scope.

Lemma nodup_app {A} (l1 l2 : list A) :
  NoDup (l1 ++ l2) <-> NoDup l1 /\ NoDup l2 /\ (forall x, In x l1 -> ~ In x l2).
Proof.
  induction l1 as [|a l1 IH]; cbn.
  - split; [intros H; repeat split; auto; constructor | intros (_ & H & _); exact H].
  - rewrite !NoDup_cons_iff, IH, in_app_iff. split.
    + intros (Hn & H1 & H2 & H3). repeat split; auto.
      intros x [-> | Hx]; auto.
    + intros ((Hn & H1) & H2 & H3). repeat split; auto.
      intros [Hx | Hx]; auto. apply (H3 a); auto.
Qed.

Lemma nodup_map_filter {A B} (f : A -> B) (p : A -> bool) l :
  NoDup (map f l) -> NoDup (map f (filter p l)).
Proof.
  induction l as [|a l IH]; cbn; intros H; auto.
  apply NoDup_cons_iff in H as (Hn & H). destruct (p a); cbn; auto.
  constructor; auto. intros Hi. apply Hn.
  apply in_map_iff in Hi as (x & Hx & Hi). apply filter_In in Hi as (Hi & _).
  apply in_map_iff. eauto.
Qed.

Lemma in_map_filter {A B} (f : A -> B) (p : A -> bool) l y :
  In y (map f (filter p l)) -> In y (map f l).
Proof.
  intros Hi. apply in_map_iff in Hi as (x & Hx & Hi). apply filter_In in Hi as (Hi & _).
  apply in_map_iff; eauto.
Qed.

Lemma in_flat_map_filter {A B} (f : A -> list B) (p : A -> bool) l y :
  In y (flat_map f (filter p l)) -> In y (flat_map f l).
Proof.
  intros Hi. apply in_flat_map in Hi as (x & Hi & Hx). apply filter_In in Hi as (Hi & _).
  apply in_flat_map; eauto.
Qed.

Lemma map_fst_filter {A B} (p : A -> bool) (l : list (A * B)) :
  map fst (filter (fun x => p (fst x)) l) = filter p (map fst l).
Proof. induction l as [|[a b] l IH]; cbn; auto. destruct (p a); cbn; congruence. Qed.

Lemma NoDup_map_inj_in {A B} (f : A -> B) : forall l x y, NoDup (map f l) -> In x l -> In y l -> f x = f y -> x = y.
Proof.
  induction l as [|a l IH]; intros x y Hnd Hx Hy E; [destruct Hx|].
  apply NoDup_cons_iff in Hnd as (Hn & Hnd).
  destruct Hx as [<-|Hx], Hy as [<-|Hy]; auto.
  - exfalso. apply Hn. rewrite E. now apply in_map.
  - exfalso. apply Hn. rewrite <- E. now apply in_map.
Qed.

Lemma nodup_keys_fun {K V} k v v' (l : list (K * V)) : NoDup (map fst l) -> In (k, v) l -> In (k, v') l -> v = v'.
Proof. intros Hn H1 H2. now injection (NoDup_map_inj_in fst l _ _ Hn H1 H2 eq_refl). Qed.

Lemma nodup_vals_fun {K V} (l : list (K * V)) k k' v : NoDup (map snd l) -> In (k, v) l -> In (k', v) l -> k = k'.
Proof. intros Hn H1 H2. now injection (NoDup_map_inj_in snd l _ _ Hn H1 H2 eq_refl). Qed.

Lemma in_key {K V} k v (l : list (K * V)) : In (k, v) l -> In k (map fst l).
Proof. intros H. apply in_map_iff. exists (k, v); auto. Qed.

Lemma set_nth_length {A} (x : A) : forall n l, length (set_nth n x l) = length l.
Proof. induction n; intros [|y l]; cbn; auto. Qed.

Section AL.
  Context {K V : Type} (eqb : K -> K -> bool).
  Hypothesis eqb_ok : forall a b, eqb a b = true <-> a = b.

  Lemma eqb_rfl a : eqb a a = true.
  Proof. apply eqb_ok; reflexivity. Qed.

  Lemma eqb_neq a b : a <> b -> eqb a b = false.
  Proof. intros H. destruct (eqb a b) eqn:E; auto. apply eqb_ok in E. contradiction. Qed.

  Lemma aremove_filter k (l : list (K * V)) :
    aremove eqb k l = filter (fun kv => negb (eqb k (fst kv))) l.
  Proof.
    induction l as [|[k' v] l IH]; cbn; auto. destruct (eqb k k'); cbn; congruence.
  Qed.

  Lemma In_aremove k k' v (l : list (K * V)) :
    In (k', v) (aremove eqb k l) <-> In (k', v) l /\ k' <> k.
  Proof.
    rewrite aremove_filter, filter_In. cbn. split; intros (H1 & H2); split; auto.
    - intros ->. rewrite eqb_rfl in H2. discriminate.
    - rewrite eqb_neq; auto.
  Qed.

  Lemma keys_aremove k k' (l : list (K * V)) :
    In k' (map fst (aremove eqb k l)) <-> In k' (map fst l) /\ k' <> k.
  Proof.
    rewrite !in_map_iff. split.
    - intros ([k2 v] & E & Hi). cbn in E; subst k2. apply In_aremove in Hi as (Hi & Hn).
      split; auto. exists (k', v); auto.
    - intros (([k2 v] & E & Hi) & Hn). cbn in E; subst k2. exists (k', v). split; auto.
      apply In_aremove; auto.
  Qed.

  Lemma keys_aremove_nodup k (l : list (K * V)) :
    NoDup (map fst l) -> NoDup (map fst (aremove eqb k l)).
  Proof. rewrite aremove_filter. apply nodup_map_filter. Qed.

  Lemma aremove_notin k (l : list (K * V)) : ~ In k (map fst l) -> aremove eqb k l = l.
  Proof.
    induction l as [|[k' v] l IH]; cbn; auto. intros H.
    rewrite eqb_neq by (intros ->; apply H; auto). f_equal. apply IH. intros Hi; apply H; auto.
  Qed.

  Lemma alookup_In k v (l : list (K * V)) : alookup eqb k l = Some v -> In (k, v) l.
  Proof.
    induction l as [|[k' v'] l IH]; cbn; [discriminate|].
    destruct (eqb k k') eqn:E.
    - apply eqb_ok in E. subst. intros [= ->]. auto.
    - auto.
  Qed.

  Lemma alookup_None k (l : list (K * V)) : alookup eqb k l = None <-> ~ In k (map fst l).
  Proof.
    induction l as [|[k' v'] l IH]; cbn; [tauto|].
    destruct (eqb k k') eqn:E.
    - apply eqb_ok in E. subst. split; [discriminate | intros H; exfalso; apply H; auto].
    - rewrite IH. split; [|tauto]. intros H [-> | Hi]; auto. rewrite eqb_rfl in E. discriminate.
  Qed.

  Lemma In_alookup k v (l : list (K * V)) : NoDup (map fst l) -> In (k, v) l -> alookup eqb k l = Some v.
  Proof.
    induction l as [|[k' v'] l IH]; cbn; [tauto|]. intros Hn. apply NoDup_cons_iff in Hn as (Hn & Hd).
    intros [[= -> ->] | Hi].
    - rewrite eqb_rfl; auto.
    - rewrite eqb_neq; auto. intros ->. apply Hn. eapply in_key, Hi.
  Qed.

  Lemma ahas_false k (l : list (K * V)) : ahas eqb k l = false <-> ~ In k (map fst l).
  Proof.
    unfold ahas. rewrite <- alookup_None. destruct (alookup eqb k l); split; congruence.
  Qed.

  Lemma alookup_aremove_same k (l : list (K * V)) : alookup eqb k (aremove eqb k l) = None.
  Proof. apply alookup_None. intros H. apply keys_aremove in H as (_ & H). congruence. Qed.

  Lemma alookup_aremove_other k k' (l : list (K * V)) : k <> k' -> alookup eqb k (aremove eqb k' l) = alookup eqb k l.
  Proof.
    intros Hn. induction l as [|[k0 v] l IH]; cbn; [reflexivity|].
    destruct (eqb k' k0) eqn:E; [|cbn; rewrite IH; reflexivity].
    apply eqb_ok in E. subst k0. rewrite (eqb_neq _ _ Hn). exact IH.
  Qed.

  Lemma alookup_aremove_none k k' (l : list (K * V)) : alookup eqb k l = None -> alookup eqb k (aremove eqb k' l) = None.
  Proof. rewrite !alookup_None. intros H Hi. apply keys_aremove in Hi as (Hi & _). auto. Qed.

  Lemma alookup_aset_same k v (l : list (K * V)) : alookup eqb k (aset eqb k v l) = Some v.
  Proof. unfold aset. cbn. rewrite eqb_rfl. reflexivity. Qed.

  Lemma alookup_aset_other k k' v (l : list (K * V)) : k <> k' -> alookup eqb k (aset eqb k' v l) = alookup eqb k l.
  Proof. intros Hn. unfold aset. cbn. rewrite (eqb_neq _ _ Hn). apply alookup_aremove_other, Hn. Qed.

  Lemma alookup_map_val {W} (f : V -> W) k (l : list (K * V)) :
    alookup eqb k (map (fun kv => (fst kv, f (snd kv))) l) = option_map f (alookup eqb k l).
  Proof. induction l as [|[k' v] l IH]; cbn; [reflexivity|]. destruct (eqb k k'); [reflexivity | exact IH]. Qed.

  Lemma aset_keys_nodup k v (l : list (K * V)) : NoDup (map fst l) -> NoDup (map fst (aset eqb k v l)).
  Proof.
    intros H. unfold aset. cbn. constructor.
    - intros Hi. apply keys_aremove in Hi as (_ & Hn). congruence.
    - apply keys_aremove_nodup; auto.
  Qed.

  Lemma In_aset i v (l : list (K * V)) j k :
    In (j, k) (aset eqb i v l) <-> (j = i /\ k = v) \/ (In (j, k) l /\ j <> i).
  Proof.
    unfold aset. cbn [In]. rewrite In_aremove. split.
    - intros [[= <- <-] | H]; auto.
    - intros [(-> & ->) | H]; auto.
  Qed.

  Lemma alist_mid k v (l1 l2 : list (K * V)) :
    NoDup (map fst (l1 ++ (k, v) :: l2)) ->
    alookup eqb k (l1 ++ (k, v) :: l2) = Some v /\ aremove eqb k (l1 ++ (k, v) :: l2) = l1 ++ l2 /\
    NoDup (map fst (l1 ++ l2)) /\ ~ In k (map fst (l1 ++ l2)).
  Proof.
    intros N. split; [apply In_alookup; [exact N | apply in_elt]|].
    rewrite !map_app in *. cbn [map fst] in N.
    pose proof (NoDup_remove_1 _ _ _ N) as N1. pose proof (NoDup_remove_2 _ _ _ N) as N2. split; [|split; assumption].
    rewrite aremove_filter, filter_app. cbn [filter fst]. rewrite eqb_rfl. cbn [negb].
    rewrite <- !aremove_filter, !aremove_notin; auto; intros H; apply N2, in_app_iff; auto.
  Qed.
End AL.

Lemma id_eqb_ok a b : id_eqb a b = true <-> a = b.
Proof.
  destruct a, b; cbn; try (split; [discriminate | congruence]); try tauto.
  - rewrite N.eqb_eq. split; congruence.
  - rewrite bytes_eqb_eq. split; congruence.
Qed.

Lemma subid_eqb_ok a b : subid_eqb a b = true <-> a = b.
Proof.
  destruct a, b; cbn; try (split; [discriminate | congruence]).
  - rewrite N.eqb_eq. split; congruence.
  - rewrite bytes_eqb_eq. split; congruence.
Qed.

Lemma range_eqb_ok a b : range_eqb a b = true <-> a = b.
Proof.
  destruct a, b; unfold range_eqb; cbn. rewrite andb_true_iff, !N.eqb_eq. split; [intros (-> & ->); auto | intros [= -> ->]; auto].
Qed.

Lemma Neqb_ok (a b : N) : N.eqb a b = true <-> a = b.
Proof. apply N.eqb_eq. Qed.


Ltac st_simpl :=
  cbn [m chans next_id id_str queue qcap waiting gone gated busy unsubw subkind bufcap dead dying sendfail unacked
       upd_m upd_chans upd_next upd_queue upd_gone upd_busy upd_unsubw upd_subkind upd_dead upd_dying upd_sendfail
       upd_unacked set_chan fst snd] in *.

Record SameC (s s' : st) : Prop := {
  sc_m : m s' = m s; sc_next : next_id s' = next_id s; sc_str : id_str s' = id_str s;
  sc_queue : queue s' = queue s; sc_waiting : waiting s' = waiting s; sc_unacked : unacked s' = unacked s;
  sc_dead : dead s' = dead s; sc_gated : gated s' = gated s; sc_qcap : qcap s' = qcap s; sc_bufcap : bufcap s' = bufcap s
}.

Lemma SameC_refl s : SameC s s.
Proof. constructor; reflexivity. Qed.

Record SameQ (s s' : st) : Prop := {
  sq_m : m s' = m s; sq_next : next_id s' = next_id s; sq_str : id_str s' = id_str s;
  sq_unacked : unacked s' = unacked s; sq_dead : dead s' = dead s; sq_gated : gated s' = gated s;
  sq_qcap : qcap s' = qcap s; sq_chans : chans s' = chans s; sq_busy : busy s' = busy s;
  sq_dying : dying s' = dying s; sq_sendfail : sendfail s' = sendfail s; sq_gone : gone s' = gone s;
  sq_subkind : subkind s' = subkind s; sq_bufcap : bufcap s' = bufcap s
}.

Lemma SameQ_refl s : SameQ s s.
Proof. constructor; reflexivity. Qed.
Lemma SameQ_trans s1 s2 s3 : SameQ s1 s2 -> SameQ s2 s3 -> SameQ s1 s3.
Proof. intros A B. constructor; etransitivity; solve [apply B | apply A]. Qed.

Lemma upd_chans_same s cs : SameC s (upd_chans s cs).
Proof. constructor; reflexivity. Qed.

Lemma set_chan_same s h c : SameC s (set_chan s h c).
Proof. apply upd_chans_same. Qed.

Lemma drop_sink_chans s h : exists cs, drop_sink s h = upd_chans s cs.
Proof. unfold drop_sink. destruct (chan_of s h); [eexists; reflexivity | exists (chans s); destruct s; reflexivity]. Qed.

Lemma drop_sink_same s h : SameC s (drop_sink s h).
Proof. destruct (drop_sink_chans s h) as (cs & ->). apply upd_chans_same. Qed.

Lemma drop_sink_m s h : m (drop_sink s h) = m s.
Proof. exact (sc_m _ _ (drop_sink_same s h)). Qed.

Lemma poll_next_cases s sh : fst (poll_next s sh) = s \/ exists c, fst (poll_next s sh) = set_chan s sh c.
Proof.
  unfold poll_next. destruct (chan_of s sh) as [c|]; auto.
  destruct (negb (c_rx c)); auto. destruct (c_buf c); [destruct (c_tx c); auto|]. right. eexists. reflexivity.
Qed.

Lemma poll_next_same s sh : SameC s (fst (poll_next s sh)).
Proof. destruct (poll_next_cases s sh) as [-> | (c & ->)]; [apply SameC_refl | apply set_chan_same]. Qed.

Lemma poll_next_m s sh : m (fst (poll_next s sh)) = m s.
Proof. exact (sc_m _ _ (poll_next_same s sh)). Qed.

Lemma finish_unsubs_shape s : exists cs,
  fst (finish_unsubs s) = upd_unsubw (upd_chans s cs) (filter (fun x => negb (unsub_done s x)) (unsubw s)) /\
  (NoDup (map fst (chans s)) -> NoDup (map fst cs)).
Proof.
  unfold finish_unsubs. cbn [fst]. generalize (filter (fun x => negb (unsub_done s x)) (unsubw s)) as u.
  generalize (filter (unsub_done s) (unsubw s)) as l. intros l u. revert s.
  induction l as [|[[w c] adm] l IH]; intros s; cbn [fold_left].
  - exists (chans s). split; [destruct s; reflexivity | auto].
  - destruct (chan_of s c) as [ch|]; [|apply IH].
    destruct (IH (set_chan s c (chan_drop_rx ch))) as (cs & E & N). exists cs. split; [exact E|].
    intros H. apply N. st_simpl. apply aset_keys_nodup; [exact Neqb_ok | exact H].
Qed.

Lemma finish_unsubs_same s : SameC s (fst (finish_unsubs s)).
Proof. destruct (finish_unsubs_shape s) as (cs & -> & _). constructor; reflexivity. Qed.

Lemma wire_same s raw : SameC s (fst (wire s raw)).
Proof. unfold wire. destruct (sendfail s); [|destruct (gated s)]; constructor; reflexivity. Qed.

Lemma wire_m s raw : m (fst (wire s raw)) = m s.
Proof. exact (sc_m _ _ (wire_same s raw)). Qed.

Lemma wire_chans s raw : chans (fst (wire s raw)) = chans s.
Proof. unfold wire. destruct (sendfail s); [|destruct (gated s)]; reflexivity. Qed.

Lemma wire_quiet s raw : sendfail s = false -> gated s = false -> wire s raw = (s, [OWire raw]).
Proof. intros F G. unfold wire. rewrite F, G. reflexivity. Qed.

Lemma enqueue_tagged_sameq s msg tag : SameQ s (enqueue_tagged s msg tag).
Proof.
  unfold enqueue_tagged.
  destruct (Nat.ltb (length (queue s)) (qcap s) && match waiting s with [] => true | _ => false end);
    [destruct tag|]; constructor; reflexivity.
Qed.

Lemma try_enqueue_sameq s msg : SameQ s (try_enqueue s msg).
Proof. unfold try_enqueue. destruct (Nat.ltb (length (queue s)) (qcap s)); constructor; reflexivity. Qed.

Lemma admit_waiting_sameq f : forall s, SameQ s (admit_waiting f s).
Proof.
  induction f as [|f IH]; intros s; cbn [admit_waiting]; [apply SameQ_refl|].
  destruct (waiting s) as [|[msg tag] w]; [apply SameQ_refl|].
  destruct (Nat.ltb (length (queue s)) (qcap s)); [|apply SameQ_refl].
  eapply SameQ_trans; [|apply IH]. destruct tag; constructor; reflexivity.
Qed.

Lemma enqueue_tagged_m s msg tag : m (enqueue_tagged s msg tag) = m s.
Proof. exact (sq_m _ _ (enqueue_tagged_sameq s msg tag)). Qed.
Lemma enqueue_m s msg : m (enqueue s msg) = m s.
Proof. apply enqueue_tagged_m. Qed.
Lemma forward_m s msg : m (forward s msg) = m s.
Proof. apply enqueue_tagged_m. Qed.
Lemma try_enqueue_m s msg : m (try_enqueue s msg) = m s.
Proof. exact (sq_m _ _ (try_enqueue_sameq s msg)). Qed.
Lemma enqueue_chans s msg : chans (enqueue s msg) = chans s.
Proof. exact (sq_chans _ _ (enqueue_tagged_sameq s msg None)). Qed.

Lemma enqueue_tagged_msgs s msg tag :
  queue (enqueue_tagged s msg tag) ++ map fst (waiting (enqueue_tagged s msg tag)) = (queue s ++ map fst (waiting s)) ++ [msg].
Proof.
  unfold enqueue_tagged.
  destruct (Nat.ltb (length (queue s)) (qcap s) && match waiting s with [] => true | _ => false end) eqn:E.
  - apply andb_true_iff in E as (_ & E). destruct (waiting s); [|discriminate].
    destruct tag; st_simpl; cbn [map]; rewrite !app_nil_r; reflexivity.
  - st_simpl. rewrite map_app, app_assoc. reflexivity.
Qed.

Lemma enqueue_quiet s msg tag : queue s = [] -> waiting s = [] -> (1 <= qcap s)%nat ->
  enqueue_tagged s msg tag =
  match tag with Some w => upd_unsubw (upd_queue s [msg] []) (mark_admitted w (unsubw s)) | None => upd_queue s [msg] [] end.
Proof.
  intros Q W C. unfold enqueue_tagged. rewrite Q, W. cbn [length app].
  destruct (qcap s); [lia|]. cbn [Nat.ltb Nat.leb andb]. destruct tag; reflexivity.
Qed.

Lemma mark_admitted_fst w u : map (fun x => fst (fst x)) (mark_admitted w u) = map (fun x => fst (fst x)) u.
Proof.
  unfold mark_admitted. rewrite map_map. apply map_ext. intros [[h c] b]. destruct (N.eqb h w); reflexivity.
Qed.

Lemma handle_front_q s msg : queue (fst (handle_front s msg)) = queue s /\ waiting (fst (handle_front s msg)) = waiting s.
Proof.
  assert (W : forall s1 raw, queue (fst (wire s1 raw)) = queue s1 /\ waiting (fst (wire s1 raw)) = waiting s1).
  { intros s1 raw. split; [exact (sc_queue _ _ (wire_same s1 raw)) | exact (sc_waiting _ _ (wire_same s1 raw))]. }
  destruct msg as [lo hi h raw | raw | i w raw | si ui um h raw | me h | me | sid]; cbn [handle_front].
  - destruct (ahas _ _ _); [auto | exact (W _ raw)].
  - exact (W _ raw).
  - destruct (ahas _ _ _); [auto | exact (W _ raw)].
  - destruct (_ && _); [exact (W _ raw) | auto].
  - destruct (ahas _ _ _); auto. destruct (alive s h); auto.
  - destruct (alookup _ _ _) as [ch|]; auto. cbn [fst].
    destruct (drop_sink_chans (upd_m s (set_nhandlers (m s) (aremove bytes_eqb me (nhandlers (m s))))) ch) as (cs & ->). auto.
  - unfold do_unsubscribe. destruct (alookup _ _ _) as [rid|]; auto. destruct (req_lookup _ _) as [[w|u w um|u ch um|j]|]; auto.
    match goal with |- context [drop_sink ?a ch] => destruct (drop_sink_chans a ch) as (cs & ->) end. exact (W _ _).
Qed.

Lemma release_frame u M : subs (release_reserved u M) = subs M /\ batches (release_reserved u M) = batches M /\
  nhandlers (release_reserved u M) = nhandlers M.
Proof. unfold release_reserved. destruct (req_lookup u M) as [[[w|]| | |]|]; auto. Qed.

Lemma release_sub u M x : In x (requests (release_reserved u M)) -> In x (requests M).
Proof.
  unfold release_reserved. destruct (req_lookup u M) as [[[w|]| | |]|]; auto. cbn. destruct x as [j k].
  intros H. apply (In_aremove id_eqb id_eqb_ok) in H. tauto.
Qed.

Lemma first_byte_now : client_first_byte = [(x7b, BSingle); (x5b, BArray)] /\ client_first_byte_default = BError.
Proof. split; reflexivity. Qed.

(* whether a close request is returned or pushed makes no difference in the single arm (nothing follows), so the
   close modes are left open *)
Lemma single_actions_now : exists c1 c2,
  single_action TryResponse client_single_dispatch = Some (ASingleResponse c1) /\
  single_action TrySubResponse client_single_dispatch = Some (ASubItem c2) /\
  single_action TrySubError client_single_dispatch = Some ASubClose /\
  single_action TryNotification client_single_dispatch = Some ANotification.
Proof. do 2 eexists. repeat split; reflexivity. Qed.

Lemma single_no_reader_now : client_single_no_reader = NoReaderFatal.
Proof. reflexivity. Qed.

(* array loop: the action of each reader -- the `?` on the id of a response, the close mode of a subscription item
   (PUSHED: the loop goes on) -- and who sets got_notif *)
Lemma elem_actions_now :
  elem_action TryResponse client_elem_dispatch = Some (ABatchCollect IdNumberOrFatal, false) /\
  elem_action TrySubResponse client_elem_dispatch = Some (ASubItem ClosePushed, true) /\
  elem_action TrySubError client_elem_dispatch = Some (ASubClose, true) /\
  elem_action TryNotification client_elem_dispatch = Some (ANotification, true).
Proof. repeat split; reflexivity. Qed.

Lemma elem_no_reader_now : client_elem_no_reader = NoReaderFatal.
Proof. reflexivity. Qed.

Lemma epilogue_now : client_array_epilogue = [PBatchResponse; PEmptyIsFatal].
Proof. reflexivity. Qed.

Lemma classify_frame_now raw :
  classify_frame raw =
  match drop_while is_ascii_ws raw with
  | c :: _ =>
    if beqb c x7b then FSingle (classify_single raw)
    else if beqb c x5b then
      match raw_array raw with
      | Some ts => FArray (map classify_elem ts)
      | None => FGarbage
      end
    else FGarbage
  | [] => FGarbage
  end.
Proof.
  unfold classify_frame, classify_frame_with. cbn [d_first d_first_default client_dispatch].
  destruct first_byte_now as [-> ->].
  fold (classify_single raw). fold classify_elem.
  destruct (drop_while is_ascii_ws raw) as [|c tl]; [reflexivity|].
  cbn [first_byte_arm]. destruct (beqb c x7b); [reflexivity|]. destruct (beqb c x5b); reflexivity.
Qed.

Definition handle_elem_single_ref (s : st) (x : inmsg) : rres :=
  match x with
  | IResp r => single_response s r
  | ISubNotif _ sid p => ROk (sub_deliver s sid p) []
  | ISubErr _ sid _ => ROk (sub_close s sid) []
  | INotif me p => ROk (notif_deliver s me p) []
  | IBad => RFatal s [] FUnparseable
  end.

Lemma handle_elem_single_now s x : handle_elem_single s x = handle_elem_single_ref s x.
Proof.
  unfold handle_elem_single, handle_single_with. cbn [d_single d_single_no_reader client_dispatch].
  rewrite single_no_reader_now. destruct single_actions_now as (c1 & c2 & E1 & E2 & E3 & E4).
  destruct x; cbn [reader_of]; rewrite ?E1, ?E2, ?E3, ?E4; reflexivity.
Qed.

(* the array loop as it is now: nothing but a fatal error leaves it early *)
Fixpoint array_loop (s : st) (ms : list inmsg) (acc : list response) (rng : option (N * N)) (got : bool)
  : (st * list response * option (N * N) * bool) + (st * fatal) :=
  match ms with
  | [] => inl (s, acc, rng, got)
  | x :: ms' =>
    match x with
    | IResp r =>
      match id_as_number (rs_id r) with
      | None => inr (s, FBadBatchId)
      | Some n =>
        let rng' := match rng with
                    | None => (n, n)
                    | Some (lo, hi) => (if n <? lo then n else lo, if hi <? n then n else hi)
                    end in
        array_loop s ms' (acc ++ [r]) (Some rng') got
      end
    | ISubNotif _ sid p => array_loop (sub_deliver s sid p) ms' acc rng true
    | ISubErr _ sid _ => array_loop (sub_close s sid) ms' acc rng true
    | INotif me p => array_loop (notif_deliver s me p) ms' acc rng true
    | IBad => inr (s, FUnparseable)
    end
  end.

Definition loop_exit (r : (st * list response * option (N * N) * bool) + (st * fatal)) : loop_acc + rres :=
  match r with
  | inl t => inl t
  | inr (s', f) => inr (RFatal s' [] f)
  end.

Lemma array_run_now : forall ms s acc rng got, array_run s ms acc rng got = loop_exit (array_loop s ms acc rng got).
Proof.
  unfold array_run.
  induction ms as [|x ms IH]; intros s acc rng got; [reflexivity|].
  cbn [array_run_with array_loop]. unfold elem_step. cbn [d_elem d_elem_no_reader client_dispatch].
  rewrite elem_no_reader_now. destruct elem_actions_now as (E1 & E2 & E3 & E4).
  destruct x as [r|me sid p|me sid p|me p|]; cbn [reader_of]; rewrite ?E1, ?E2, ?E3, ?E4; cbn [run_elem_action].
  - destruct (id_as_number (rs_id r)); [apply IH | reflexivity].
  - apply IH.
  - apply IH.
  - apply IH.
  - reflexivity.
Qed.

Definition handle_back_ref (s : st) (fr : inframe) : rres :=
  match fr with
  | FGarbage => RFatal s [] FUnparseable
  | FSingle x => handle_elem_single_ref s x
  | FArray ms =>
    match array_loop s ms [] None false with
    | inr (s', f) => RFatal s' [] f
    | inl (s', rs, Some (lo, hi), _) =>
      if hi =? u64_max then RFatal s' [] FNotPending      (* range.end + 1 would overflow *)
      else batch_response s' rs lo (hi + 1)
    | inl (s', _, None, got) => if got then ROk s' [] else RFatal s' [] FEmptyBatch
    end
  end.

Lemma handle_back_now s fr : handle_back s fr = handle_back_ref s fr.
Proof.
  unfold handle_back, handle_back_with. destruct fr as [x|ms|]; cbn [handle_back_ref].
  - apply handle_elem_single_now.
  - fold (array_run s ms [] None false). rewrite array_run_now.
    cbn [d_post client_dispatch]. rewrite epilogue_now.
    destruct (array_loop s ms [] None false) as [[[[s' rs] [[lo hi]|]] got]|[s' f]]; cbn [loop_exit run_post]; reflexivity.
  - reflexivity.
Qed.
