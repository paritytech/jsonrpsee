(* Facts about byte strings (take_while / drop_while / skip_ws / starts_with / join), about single bytes
   (beqb, is_json_ws), and the tactics the JSON proofs share. *)
From JV Require Import Base.Bytes.

Lemma bytes_len_ind (P : bytes -> Prop) :
  (forall s, (forall s', (length s' < length s)%nat -> P s') -> P s) -> forall s, P s.
Proof.
  intros H s. remember (length s) as n eqn:En.
  revert s En. induction n as [n IH] using lt_wf_ind. intros s En. subst n.
  apply H. intros s' Hlt. apply (IH (length s') Hlt s' eq_refl).
Qed.

Lemma blen_app a b : blen (a ++ b) = (blen a + blen b)%N.
Proof. unfold blen. rewrite app_length. lia. Qed.

Definition hd_not (p : byte -> bool) (X : bytes) : bool :=
  match X with [] => true | c :: _ => negb (p c) end.

Lemma take_drop_while p s : take_while p s ++ drop_while p s = s.
Proof.
  induction s as [|c s IH]; cbn; [reflexivity|].
  destruct (p c); cbn; [rewrite IH|]; reflexivity.
Qed.

Lemma take_while_all p s : forallb p (take_while p s) = true.
Proof.
  induction s as [|c s IH]; cbn; [reflexivity|].
  destruct (p c) eqn:E; cbn; [rewrite E, IH|]; reflexivity.
Qed.

Lemma drop_while_stop p s : hd_not p (drop_while p s) = true.
Proof.
  induction s as [|c s IH]; cbn; [reflexivity|].
  destruct (p c) eqn:E; cbn; [exact IH | rewrite E; reflexivity].
Qed.

Lemma take_while_app_stop p a X :
  forallb p a = true -> hd_not p X = true -> take_while p (a ++ X) = a.
Proof.
  induction a as [|c a IH]; cbn; intros Ha HX.
  - destruct X as [|x X]; cbn in *; [reflexivity|].
    destruct (p x); [discriminate | reflexivity].
  - apply andb_true_iff in Ha as [Hc Ha]. rewrite Hc, IH by assumption. reflexivity.
Qed.

Lemma drop_while_app_stop p a X :
  forallb p a = true -> hd_not p X = true -> drop_while p (a ++ X) = X.
Proof.
  induction a as [|c a IH]; cbn; intros Ha HX.
  - destruct X as [|x X]; cbn in *; [reflexivity|].
    destruct (p x); [discriminate | reflexivity].
  - apply andb_true_iff in Ha as [Hc Ha]. rewrite Hc, IH by assumption. reflexivity.
Qed.

Lemma drop_while_hd_not p X : hd_not p X = true -> drop_while p X = X.
Proof. intro H. apply (drop_while_app_stop p [] X eq_refl H). Qed.

Lemma take_while_hd_not p X : hd_not p X = true -> take_while p X = [].
Proof. intro H. apply (take_while_app_stop p [] X eq_refl H). Qed.

Lemma take_while_forallb p a : forallb p a = true -> take_while p a = a.
Proof. intro H. rewrite <- (app_nil_r a) at 1. apply (take_while_app_stop p a [] H eq_refl). Qed.

Lemma drop_while_forallb p a : forallb p a = true -> drop_while p a = [].
Proof. intro H. rewrite <- (app_nil_r a). apply (drop_while_app_stop p a [] H eq_refl). Qed.

Lemma drop_while_idem p s : drop_while p (drop_while p s) = drop_while p s.
Proof. apply drop_while_hd_not, drop_while_stop. Qed.

Lemma take_while_drop_while p s : take_while p (drop_while p s) = [].
Proof. apply take_while_hd_not, drop_while_stop. Qed.

Lemma drop_while_app_ne p s rest :
  drop_while p s <> [] -> drop_while p (s ++ rest) = drop_while p s ++ rest.
Proof.
  induction s as [|c s IH]; cbn; intro H; [congruence|].
  destruct (p c); [apply IH, H | reflexivity].
Qed.

Lemma take_while_app_ne p s rest :
  drop_while p s <> [] -> take_while p (s ++ rest) = take_while p s.
Proof.
  induction s as [|c s IH]; cbn; intro H; [congruence|].
  destruct (p c); [rewrite IH by exact H|]; reflexivity.
Qed.

Lemma drop_while_app_hd p s rest :
  hd_not p rest = true -> drop_while p (s ++ rest) = drop_while p s ++ rest.
Proof.
  intro H. induction s as [|c s IH]; cbn.
  - apply drop_while_hd_not, H.
  - destruct (p c); [exact IH | reflexivity].
Qed.

Lemma take_while_app_hd p s rest :
  hd_not p rest = true -> take_while p (s ++ rest) = take_while p s.
Proof.
  intro H. induction s as [|c s IH]; cbn.
  - apply take_while_hd_not, H.
  - destruct (p c); [rewrite IH|]; reflexivity.
Qed.

Lemma drop_while_length p s : (length (drop_while p s) <= length s)%nat.
Proof.
  induction s as [|c s IH]; cbn; [lia|]. destruct (p c); cbn; lia.
Qed.

Lemma forallb_impl (p q : byte -> bool) l :
  (forall x, p x = true -> q x = true) -> forallb p l = true -> forallb q l = true.
Proof.
  intro I. induction l as [|x l IH]; cbn; [reflexivity|]. intro H.
  apply andb_true_iff in H as [H1 H2]. rewrite (I x H1), (IH H2). reflexivity.
Qed.

Lemma skip_ws_app_cons s c s1 rest : skip_ws s = c :: s1 -> skip_ws (s ++ rest) = c :: s1 ++ rest.
Proof.
  unfold skip_ws. intro H. rewrite drop_while_app_ne by (rewrite H; discriminate).
  rewrite H. reflexivity.
Qed.

Lemma skip_ws_idem s : skip_ws (skip_ws s) = skip_ws s.
Proof. apply drop_while_idem. Qed.

Lemma skip_ws_length s : (length (skip_ws s) <= length s)%nat.
Proof. apply drop_while_length. Qed.

Lemma skip_ws_hd s c s1 : skip_ws s = c :: s1 -> is_json_ws c = false.
Proof.
  intro H. pose proof (drop_while_stop is_json_ws s) as D. unfold skip_ws in H.
  rewrite H in D. cbn in D. destruct (is_json_ws c); [discriminate | reflexivity].
Qed.

Lemma skip_ws_cons_nws c s : is_json_ws c = false -> skip_ws (c :: s) = c :: s.
Proof. intro H. unfold skip_ws. cbn. rewrite H. reflexivity. Qed.

Lemma starts_with_split p : forall s r, starts_with p s = Some r -> s = p ++ r.
Proof.
  induction p as [|x p IH]; intros s r H; cbn in *.
  - injection H as ->. reflexivity.
  - destruct s as [|y s]; [discriminate|].
    destruct (Byte.eqb x y) eqn:E; [|discriminate].
    apply byte_eqb_eq in E. subst y. rewrite (IH _ _ H). reflexivity.
Qed.

Lemma starts_with_app p : forall s r rest,
  starts_with p s = Some r -> starts_with p (s ++ rest) = Some (r ++ rest).
Proof.
  induction p as [|x p IH]; intros s r rest H; cbn in *.
  - injection H as ->. reflexivity.
  - destruct s as [|y s]; [discriminate|]. cbn.
    destruct (Byte.eqb x y); [apply IH, H | discriminate].
Qed.

Lemma starts_with_refl p r : starts_with p (p ++ r) = Some r.
Proof.
  induction p as [|x p IH]; cbn; [reflexivity|]. rewrite byte_eqb_refl. exact IH.
Qed.

Lemma join_cons2 sep x y l : join sep (x :: y :: l) = x ++ sep ++ join sep (y :: l).
Proof. reflexivity. Qed.

Lemma beqb_true a b : beqb a b = true -> a = b.
Proof. apply byte_eqb_eq. Qed.

Lemma beqb_refl a : beqb a a = true.
Proof. apply byte_eqb_refl. Qed.

Lemma beqb_false_of (p : byte -> bool) c k : p c = true -> p k = false -> beqb c k = false.
Proof.
  intros Hc Hk. destruct (beqb c k) eqn:E; [|reflexivity]. apply beqb_true in E. congruence.
Qed.

Lemma is_json_ws_inv c : is_json_ws c = true -> c = x20 \/ c = x09 \/ c = x0a \/ c = x0d.
Proof. destruct c; try discriminate; auto. Qed.

Lemma not_ws_of (p : byte -> bool) c :
  p c = true -> p x20 = false -> p x09 = false -> p x0a = false -> p x0d = false -> is_json_ws c = false.
Proof.
  intros Hc H1 H2 H3 H4. destruct (is_json_ws c) eqn:E; [|reflexivity].
  apply is_json_ws_inv in E as [-> | [-> | [-> | ->]]]; congruence.
Qed.

(* H mentions a match: destruct the scrutinee of one of them (the one `context` finds), keep the
   equation, drop the case if it makes H absurd.  `repeat step H` walks through an unfolded function body. *)
Ltac step H :=
  match type of H with
  | context [match ?x with _ => _ end] =>
      let E := fresh "E" in destruct x eqn:E; try discriminate H
  end.

Ltac beqb_norm :=
  repeat match goal with
  | E : beqb ?c _ = true |- _ => apply beqb_true in E; subst c
  end.

(* H : Some a = Some b  is replaced by the equations between the components of a and b;
   each of them with a variable on one side is substituted, other hypotheses are left as they are *)
Ltac inv_some H :=
  match type of H with
  | Some _ = Some _ =>
      injection H; clear H;
      repeat match goal with
             | |- ?x = ?y -> _ => let E := fresh "E" in intro E; first [subst x | subst y | idtac]
             end
  end.

Ltac rw_eqs :=
  repeat match goal with
  | E : ?x = _ |- context [match ?x with _ => _ end] => rewrite E; cbv beta iota
  end.
