(* The strict parser (parse_value / parse_elems / parse_members) and the lenient scanner (skip_value / ...) of
   Json/JsonParse.v: the scanner splits its input, both are monotone in fuel (and depth), need no more fuel than
   bytes consumed, are unchanged by bytes appended after a complete value, and whatever the parser accepts the
   scanner accepts.  Both fixpoints are first turned into inductive relations (their graphs); each fact is an
   induction over derivations and is carried back to the functions right after it. *)
From JV Require Import Base.Bytes Base.Dec Base.Utf8 Json.Json Json.JsonSer Json.JsonParse Json.JsonWf.
From JV Require Export Proofs.BytesFacts Proofs.DecFacts Proofs.Utf8Facts Proofs.LexFacts.
Local Open Scope N_scope.

Lemma skip_value_S f s : skip_value (S f) s =
    let w := ws_prefix s in
    match skip_ws s with
    | [] => None
    | c :: s1 =>
      if beqb c x6e then match starts_with b#"ull" s1 with Some r => Some (w ++ b#"null", r) | None => None end
      else if beqb c x74 then match starts_with b#"rue" s1 with Some r => Some (w ++ b#"true", r) | None => None end
      else if beqb c x66 then match starts_with b#"alse" s1 with Some r => Some (w ++ b#"false", r) | None => None end
      else if beqb c x22 then match skip_str s1 with Some (t, r) => Some (w ++ c :: t, r) | None => None end
      else if is_num_start c then
        match scan_number (c :: s1) with Some (l, r) => Some (w ++ numlex_bytes l, r) | None => None end
      else if beqb c x5b then
        match skip_ws s1 with
        | c2 :: r => if beqb c2 x5d then Some (w ++ c :: ws_prefix s1 ++ [c2], r)
                     else match skip_elems f s1 with Some (t, r') => Some (w ++ c :: t, r') | None => None end
        | [] => None
        end
      else if beqb c x7b then
        match skip_ws s1 with
        | c2 :: r => if beqb c2 x7d then Some (w ++ c :: ws_prefix s1 ++ [c2], r)
                     else match skip_members f s1 with Some (t, r') => Some (w ++ c :: t, r') | None => None end
        | [] => None
        end
      else None
    end.
Proof. reflexivity. Qed.

Lemma skip_elems_S f s : skip_elems (S f) s =
    match skip_value f s with
    | Some (t, r) =>
      match skip_ws r with
      | c :: r1 =>
        if beqb c x2c then
          match skip_elems f r1 with Some (t2, r2) => Some (t ++ ws_prefix r ++ c :: t2, r2) | None => None end
        else if beqb c x5d then Some (t ++ ws_prefix r ++ [c], r1)
        else None
      | [] => None
      end
    | None => None
    end.
Proof. reflexivity. Qed.

Lemma skip_members_S f s : skip_members (S f) s =
    match skip_ws s with
    | q :: s1 =>
      if beqb q x22 then
        match skip_str s1 with
        | Some (k, r0) =>
          match skip_ws r0 with
          | col :: r1 =>
            if beqb col x3a then
              match skip_value f r1 with
              | Some (t, r) =>
                match skip_ws r with
                | c :: r2 =>
                  let pre := ws_prefix s ++ q :: k ++ ws_prefix r0 ++ col :: t ++ ws_prefix r in
                  if beqb c x2c then
                    match skip_members f r2 with Some (t3, r3) => Some (pre ++ c :: t3, r3) | None => None end
                  else if beqb c x7d then Some (pre ++ [c], r2)
                  else None
                | [] => None
                end
              | None => None
              end
            else None
          | [] => None
          end
        | None => None
        end
      else None
    | [] => None
    end.
Proof. reflexivity. Qed.

Lemma parse_value_S f depth s : parse_value (S f) depth s =
    match skip_ws s with
    | [] => None
    | c :: s1 =>
      if beqb c x6e then match starts_with b#"ull" s1 with Some r => Some (JNull, r) | None => None end
      else if beqb c x74 then match starts_with b#"rue" s1 with Some r => Some (JBool true, r) | None => None end
      else if beqb c x66 then match starts_with b#"alse" s1 with Some r => Some (JBool false, r) | None => None end
      else if beqb c x22 then match scan_str_valid s1 with Some (t, r) => Some (JStr t, r) | None => None end
      else if is_num_start c then
        match scan_number (c :: s1) with Some (l, r) => Some (JNum (classify_num l), r) | None => None end
      else if beqb c x5b then
        match depth with
        | S (S d) =>
          match skip_ws s1 with
          | c2 :: r => if beqb c2 x5d then Some (JArr [], r)
                       else match parse_elems f (S d) s1 with Some (vs, r') => Some (JArr vs, r') | None => None end
          | [] => None
          end
        | _ => None
        end
      else if beqb c x7b then
        match depth with
        | S (S d) =>
          match skip_ws s1 with
          | c2 :: r => if beqb c2 x7d then Some (JObj [], r)
                       else match parse_members f (S d) s1 with Some (ms, r') => Some (JObj ms, r') | None => None end
          | [] => None
          end
        | _ => None
        end
      else None
    end.
Proof. reflexivity. Qed.

Lemma parse_elems_S f depth s : parse_elems (S f) depth s =
    match parse_value f depth s with
    | Some (v, r) =>
      match skip_ws r with
      | c :: r1 =>
        if beqb c x2c then match parse_elems f depth r1 with Some (vs, r2) => Some (v :: vs, r2) | None => None end
        else if beqb c x5d then Some ([v], r1)
        else None
      | [] => None
      end
    | None => None
    end.
Proof. reflexivity. Qed.

Lemma parse_members_S f depth s : parse_members (S f) depth s =
    match skip_ws s with
    | q :: s1 =>
      if beqb q x22 then
        match scan_str_valid s1 with
        | Some (k, r0) =>
          match skip_ws r0 with
          | col :: r1 =>
            if beqb col x3a then
              match parse_value f depth r1 with
              | Some (v, r) =>
                match skip_ws r with
                | c :: r2 =>
                  if beqb c x2c then
                    match parse_members f depth r2 with Some (ms, r3) => Some ((k, v) :: ms, r3) | None => None end
                  else if beqb c x7d then Some ([(k, v)], r2)
                  else None
                | [] => None
                end
              | None => None
              end
            else None
          | [] => None
          end
        | None => None
        end
      else None
    | [] => None
    end.
Proof. reflexivity. Qed.

Lemma ws_split s : ws_prefix s ++ skip_ws s = s.
Proof. apply take_drop_while. Qed.

Lemma ws_eq s c s1 : skip_ws s = c :: s1 -> s = ws_prefix s ++ c :: s1.
Proof. intro H. rewrite <- H. symmetry. apply ws_split. Qed.

Ltac list_solve := repeat (first [rewrite <- app_assoc | progress (cbn [app unBS])]); reflexivity.
(* the hypotheses that speak of the length of an append or of bytes written out join the goal, where these
   lengths are computed once; the rest is arithmetic *)
Ltac len_norm :=
  repeat match goal with H : context [length (_ _)] |- _ => revert H end;
  repeat first [rewrite app_length | progress cbn [length unBS]].
Ltac len_solve := len_norm; lia.

Lemma scan_str_valid_inv s t r : scan_str_valid s = Some (t, r) -> scan_str s = Some (t, r) /\ utf8_valid t = true.
Proof.
  unfold scan_str_valid. intro H. repeat step H. inv_some H. split; [reflexivity | assumption].
Qed.

(* Graph of the strict parser: one constructor for each way parse_value / parse_elems / parse_members
   return Some.  The look-ahead for an empty container is not recorded in pv_arr / pv_obj: a non-empty
   one starts with a value or a key, never with the closing bracket (pelems_head, pmembers_head). *)
Inductive pval : nat -> nat -> bytes -> json -> bytes -> Prop :=
| pv_null f d s s1 r : skip_ws s = x6e :: s1 -> starts_with b#"ull" s1 = Some r -> pval (S f) d s JNull r
| pv_true f d s s1 r : skip_ws s = x74 :: s1 -> starts_with b#"rue" s1 = Some r -> pval (S f) d s (JBool true) r
| pv_false f d s s1 r : skip_ws s = x66 :: s1 -> starts_with b#"alse" s1 = Some r -> pval (S f) d s (JBool false) r
| pv_str f d s s1 k r : skip_ws s = x22 :: s1 -> scan_str_valid s1 = Some (k, r) -> pval (S f) d s (JStr k) r
| pv_num f d s c s1 l r : skip_ws s = c :: s1 -> is_num_start c = true -> scan_number (c :: s1) = Some (l, r) ->
    pval (S f) d s (JNum (classify_num l)) r
| pv_arr0 f d s s1 r : skip_ws s = x5b :: s1 -> skip_ws s1 = x5d :: r -> pval (S f) (S (S d)) s (JArr []) r
| pv_arr f d s s1 vs r : skip_ws s = x5b :: s1 -> pelems f (S d) s1 vs r -> pval (S f) (S (S d)) s (JArr vs) r
| pv_obj0 f d s s1 r : skip_ws s = x7b :: s1 -> skip_ws s1 = x7d :: r -> pval (S f) (S (S d)) s (JObj []) r
| pv_obj f d s s1 ms r : skip_ws s = x7b :: s1 -> pmembers f (S d) s1 ms r -> pval (S f) (S (S d)) s (JObj ms) r
with pelems : nat -> nat -> bytes -> list json -> bytes -> Prop :=
| pe_last f d s v r r1 : pval f d s v r -> skip_ws r = x5d :: r1 -> pelems (S f) d s [v] r1
| pe_more f d s v r r1 vs r2 : pval f d s v r -> skip_ws r = x2c :: r1 -> pelems f d r1 vs r2 ->
    pelems (S f) d s (v :: vs) r2
with pmembers : nat -> nat -> bytes -> list (bytes * json) -> bytes -> Prop :=
| pm_last f d s s1 k r0 r1 v r r2 : skip_ws s = x22 :: s1 -> scan_str_valid s1 = Some (k, r0) ->
    skip_ws r0 = x3a :: r1 -> pval f d r1 v r -> skip_ws r = x7d :: r2 -> pmembers (S f) d s [(k, v)] r2
| pm_more f d s s1 k r0 r1 v r r2 ms r3 : skip_ws s = x22 :: s1 -> scan_str_valid s1 = Some (k, r0) ->
    skip_ws r0 = x3a :: r1 -> pval f d r1 v r -> skip_ws r = x2c :: r2 -> pmembers f d r2 ms r3 ->
    pmembers (S f) d s ((k, v) :: ms) r3.

(* pgraph_ind (and sgraph_ind below) is the induction principle of every lemma about the graphs:
   a conjunction of three statements, one case per constructor, in the order of the constructors *)
Scheme pval_mind := Minimality for pval Sort Prop
  with pelems_mind := Minimality for pelems Sort Prop
  with pmembers_mind := Minimality for pmembers Sort Prop.
Combined Scheme pgraph_ind from pval_mind, pelems_mind, pmembers_mind.

(* Graph of the lenient scanner; the third index is the consumed span. *)
Inductive sval : nat -> bytes -> bytes -> bytes -> Prop :=
| sv_null f s s1 r : skip_ws s = x6e :: s1 -> starts_with b#"ull" s1 = Some r -> sval (S f) s (ws_prefix s ++ b#"null") r
| sv_true f s s1 r : skip_ws s = x74 :: s1 -> starts_with b#"rue" s1 = Some r -> sval (S f) s (ws_prefix s ++ b#"true") r
| sv_false f s s1 r : skip_ws s = x66 :: s1 -> starts_with b#"alse" s1 = Some r -> sval (S f) s (ws_prefix s ++ b#"false") r
| sv_str f s s1 k r : skip_ws s = x22 :: s1 -> skip_str s1 = Some (k, r) -> sval (S f) s (ws_prefix s ++ x22 :: k) r
| sv_num f s c s1 l r : skip_ws s = c :: s1 -> is_num_start c = true -> scan_number (c :: s1) = Some (l, r) ->
    sval (S f) s (ws_prefix s ++ numlex_bytes l) r
| sv_arr0 f s s1 r : skip_ws s = x5b :: s1 -> skip_ws s1 = x5d :: r ->
    sval (S f) s (ws_prefix s ++ x5b :: ws_prefix s1 ++ [x5d]) r
| sv_arr f s s1 t r : skip_ws s = x5b :: s1 -> selems f s1 t r -> sval (S f) s (ws_prefix s ++ x5b :: t) r
| sv_obj0 f s s1 r : skip_ws s = x7b :: s1 -> skip_ws s1 = x7d :: r ->
    sval (S f) s (ws_prefix s ++ x7b :: ws_prefix s1 ++ [x7d]) r
| sv_obj f s s1 t r : skip_ws s = x7b :: s1 -> smembers f s1 t r -> sval (S f) s (ws_prefix s ++ x7b :: t) r
with selems : nat -> bytes -> bytes -> bytes -> Prop :=
| se_last f s t r r1 : sval f s t r -> skip_ws r = x5d :: r1 -> selems (S f) s (t ++ ws_prefix r ++ [x5d]) r1
| se_more f s t r r1 t2 r2 : sval f s t r -> skip_ws r = x2c :: r1 -> selems f r1 t2 r2 ->
    selems (S f) s (t ++ ws_prefix r ++ x2c :: t2) r2
with smembers : nat -> bytes -> bytes -> bytes -> Prop :=
| sm_last f s s1 k r0 r1 t r r2 : skip_ws s = x22 :: s1 -> skip_str s1 = Some (k, r0) ->
    skip_ws r0 = x3a :: r1 -> sval f r1 t r -> skip_ws r = x7d :: r2 ->
    smembers (S f) s ((ws_prefix s ++ x22 :: k ++ ws_prefix r0 ++ x3a :: t ++ ws_prefix r) ++ [x7d]) r2
| sm_more f s s1 k r0 r1 t r r2 t3 r3 : skip_ws s = x22 :: s1 -> skip_str s1 = Some (k, r0) ->
    skip_ws r0 = x3a :: r1 -> sval f r1 t r -> skip_ws r = x2c :: r2 -> smembers f r2 t3 r3 ->
    smembers (S f) s ((ws_prefix s ++ x22 :: k ++ ws_prefix r0 ++ x3a :: t ++ ws_prefix r) ++ x2c :: t3) r3.

Scheme sval_mind := Minimality for sval Sort Prop
  with selems_mind := Minimality for selems Sort Prop
  with smembers_mind := Minimality for smembers Sort Prop.
Combined Scheme sgraph_ind from sval_mind, selems_mind, smembers_mind.

(* Each way through a function body that ends in Some: every scrutinee on the way is destructed (repeat step),
   the result is read off (inv_some), the bytes tested become constants (beqb_norm); the constructor of that way
   applies to the equations collected, with the induction hypotheses for the recursive calls. *)
Lemma pgraph_sound f :
  (forall d s v r, parse_value f d s = Some (v, r) -> pval f d s v r) /\
  (forall d s vs r, parse_elems f d s = Some (vs, r) -> pelems f d s vs r) /\
  (forall d s ms r, parse_members f d s = Some (ms, r) -> pmembers f d s ms r).
Proof.
  induction f as [|f (IHv & IHe & IHm)]; [repeat split; intros; discriminate|].
  repeat apply conj; intros d s v r H.
  - rewrite parse_value_S in H. repeat step H; inv_some H; beqb_norm; solve [econstructor; eauto].
  - rewrite parse_elems_S in H. repeat step H; inv_some H; beqb_norm; solve [econstructor; eauto].
  - rewrite parse_members_S in H. repeat step H; inv_some H; beqb_norm; solve [econstructor; eauto].
Qed.

Lemma sgraph_sound f :
  (forall s t r, skip_value f s = Some (t, r) -> sval f s t r) /\
  (forall s t r, skip_elems f s = Some (t, r) -> selems f s t r) /\
  (forall s t r, skip_members f s = Some (t, r) -> smembers f s t r).
Proof.
  induction f as [|f (IHv & IHe & IHm)]; [repeat split; intros; discriminate|].
  repeat apply conj; intros s t r H.
  - rewrite skip_value_S in H. cbv zeta in H. repeat step H; inv_some H; beqb_norm; solve [econstructor; eauto].
  - rewrite skip_elems_S in H. repeat step H; inv_some H; beqb_norm; solve [econstructor; eauto].
  - rewrite skip_members_S in H. cbv zeta in H. repeat step H; inv_some H; beqb_norm; solve [econstructor; eauto].
Qed.

(* what completeness needs of the first byte of a value; JsonFacts.sval_vstart says which bytes it can be *)
Lemma sval_head f s t r : sval f s t r ->
  exists c s1, skip_ws s = c :: s1 /\ beqb c x5d = false /\ beqb c x7d = false.
Proof.
  destruct 1; do 2 eexists; (split; [eassumption|]);
    split; first [reflexivity | eapply (beqb_false_of is_num_start); [eassumption | reflexivity]].
Qed.
Lemma selems_head f s t r : selems f s t r -> exists c s1, skip_ws s = c :: s1 /\ beqb c x5d = false.
Proof.
  destruct 1; match goal with H : sval _ _ _ _ |- _ => destruct (sval_head _ _ _ _ H) as (c & s1 & E & N & _) end; eauto.
Qed.
Lemma smembers_head f s t r : smembers f s t r -> exists c s1, skip_ws s = c :: s1 /\ beqb c x7d = false.
Proof. destruct 1; do 2 eexists; (split; [eassumption | reflexivity]). Qed.

Lemma scan_number_len1 s l r : scan_number s = Some (l, r) -> (1 <= length (numlex_bytes l))%nat.
Proof. intro H. apply scan_number_nonempty in H. destruct (numlex_bytes l); [congruence | cbn; lia]. Qed.

(* Every constructor puts at least one byte into the span t, a container puts its bracket in front of the
   span of its content: so any fuel f' >= length t is enough for the parser as well. *)
Lemma pgraph_span :
  (forall f d s v r, pval f d s v r ->
     exists t, sval f s t r /\ forall f', (length t <= f')%nat -> pval f' d s v r) /\
  (forall f d s vs r, pelems f d s vs r ->
     exists t, selems f s t r /\ forall f', (length t <= f')%nat -> pelems f' d s vs r) /\
  (forall f d s ms r, pmembers f d s ms r ->
     exists t, smembers f s t r /\ forall f', (length t <= f')%nat -> pmembers f' d s ms r).
Proof.
  apply pgraph_ind; intros;
    repeat match goal with IH : exists _, _ |- _ => destruct IH as (? & ? & ?) end;
    try match goal with E : scan_str_valid _ = Some _ |- _ =>
      destruct (scan_str_skip_str _ _ _ (proj1 (scan_str_valid_inv _ _ _ E))) as [? ?] end;
    try match goal with E : scan_number _ = Some _ |- _ => pose proof (scan_number_len1 _ _ _ E) end;
    eexists; (split; [solve [econstructor; eassumption]|]);
    intros f' L; len_norm; intros; (destruct f' as [|f']; [lia|]);
    econstructor; try eassumption; match goal with IH : forall f', _ -> _ |- _ => apply IH end; lia.
Qed.

Lemma pgraph_lenient :
  (forall f d s v r, pval f d s v r -> exists t, sval f s t r) /\
  (forall f d s vs r, pelems f d s vs r -> exists t, selems f s t r) /\
  (forall f d s ms r, pmembers f d s ms r -> exists t, smembers f s t r).
Proof. repeat apply conj; intros * H; apply pgraph_span in H as (t & H & _); exists t; exact H. Qed.

Lemma pelems_head f d s vs r : pelems f d s vs r -> exists c s1, skip_ws s = c :: s1 /\ beqb c x5d = false.
Proof. intro H. apply pgraph_lenient in H as [t H]. exact (selems_head _ _ _ _ H). Qed.
Lemma pmembers_head f d s ms r : pmembers f d s ms r -> exists c s1, skip_ws s = c :: s1 /\ beqb c x7d = false.
Proof. intro H. apply pgraph_lenient in H as [t H]. exact (smembers_head _ _ _ _ H). Qed.

(* the tests that come before the number case in parse_value / skip_value *)
Lemma num_start_not_lit c : is_num_start c = true ->
  beqb c x6e = false /\ beqb c x74 = false /\ beqb c x66 = false /\ beqb c x22 = false.
Proof. intro H. repeat split; apply (beqb_false_of is_num_start c _ H); reflexivity. Qed.

Lemma pgraph_complete :
  (forall f d s v r, pval f d s v r -> parse_value f d s = Some (v, r)) /\
  (forall f d s vs r, pelems f d s vs r -> parse_elems f d s = Some (vs, r)) /\
  (forall f d s ms r, pmembers f d s ms r -> parse_members f d s = Some (ms, r)).
Proof.
  apply pgraph_ind; intros;
    try match goal with
    | E : pelems _ _ _ _ _ |- parse_value _ _ _ = _ => destruct (pelems_head _ _ _ _ _ E) as (? & ? & ? & ?)
    | E : pmembers _ _ _ _ _ |- parse_value _ _ _ = _ => destruct (pmembers_head _ _ _ _ _ E) as (? & ? & ? & ?)
    end;
    try match goal with E : is_num_start _ = true |- _ => destruct (num_start_not_lit _ E) as (? & ? & ? & ?) end;
    rw_head; reflexivity.
Qed.

Lemma sgraph_complete :
  (forall f s t r, sval f s t r -> skip_value f s = Some (t, r)) /\
  (forall f s t r, selems f s t r -> skip_elems f s = Some (t, r)) /\
  (forall f s t r, smembers f s t r -> skip_members f s = Some (t, r)).
Proof.
  apply sgraph_ind; intros;
    try match goal with
    | E : selems _ _ _ _ |- skip_value _ _ = _ => destruct (selems_head _ _ _ _ E) as (? & ? & ? & ?)
    | E : smembers _ _ _ _ |- skip_value _ _ = _ => destruct (smembers_head _ _ _ _ E) as (? & ? & ? & ?)
    end;
    try match goal with E : is_num_start _ = true |- _ => destruct (num_start_not_lit _ E) as (? & ? & ? & ?) end;
    rw_head; reflexivity.
Qed.

Lemma strict_is_lenient f d s v r : parse_value f d s = Some (v, r) -> exists t, skip_value f s = Some (t, r).
Proof.
  intro H. apply pgraph_sound in H. apply pgraph_lenient in H as [t H]. exists t. revert H. apply sgraph_complete.
Qed.

(* turn   skip_ws s = c :: s1   (s a variable) into   s := w ++ c :: s1 *)
Ltac ws_norm :=
  repeat match goal with
  | E : skip_ws ?s = ?c :: ?s1 |- _ =>
      is_var s;
      let Hw := fresh "Hw" in pose proof (ws_eq _ _ _ E) as Hw; clear E;
      let w := fresh "w" in set (w := ws_prefix s) in *; clearbody w; subst s
  end.

Lemma sgraph_split :
  (forall f s t r, sval f s t r -> s = t ++ r) /\
  (forall f s t r, selems f s t r -> s = t ++ r) /\
  (forall f s t r, smembers f s t r -> s = t ++ r).
Proof.
  apply sgraph_ind; intros;
    repeat match goal with
    | E : starts_with _ _ = Some _ |- _ => apply starts_with_split in E
    | E : skip_str _ = Some _ |- _ => apply skip_str_split in E
    | E : scan_number _ = Some _ |- _ => apply scan_number_split in E
    end; subst; ws_norm.
  (* the number case: scan_number_split speaks of c :: s1 as a whole *)
  all: try match goal with E : _ :: _ = _ |- _ => rewrite E end.
  all: list_solve.
Qed.

Lemma skip_value_split f s t r : skip_value f s = Some (t, r) -> s = t ++ r.
Proof. intro H. apply sgraph_sound, sgraph_split in H. exact H. Qed.

Lemma sgraph_mono :
  (forall f s t r, sval f s t r -> forall f', (f <= f')%nat -> sval f' s t r) /\
  (forall f s t r, selems f s t r -> forall f', (f <= f')%nat -> selems f' s t r) /\
  (forall f s t r, smembers f s t r -> forall f', (f <= f')%nat -> smembers f' s t r).
Proof.
  apply sgraph_ind; intros; (destruct f' as [|f']; [lia|]); econstructor; eauto with arith.
Qed.

Lemma pgraph_mono :
  (forall f d s v r, pval f d s v r -> forall f' d', (f <= f')%nat -> (d <= d')%nat -> pval f' d' s v r) /\
  (forall f d s vs r, pelems f d s vs r -> forall f' d', (f <= f')%nat -> (d <= d')%nat -> pelems f' d' s vs r) /\
  (forall f d s ms r, pmembers f d s ms r -> forall f' d', (f <= f')%nat -> (d <= d')%nat -> pmembers f' d' s ms r).
Proof.
  apply pgraph_ind; intros; (destruct f' as [|f']; [lia|]);
    try (destruct d' as [|[|d']]; [lia | lia |]); econstructor; eauto with arith.
Qed.

Lemma skip_value_fuel_mono f f' s x : skip_value f s = Some x -> (f <= f')%nat -> skip_value f' s = Some x.
Proof.
  destruct x as [t r]. intros H L. apply sgraph_complete. eapply sgraph_mono; [apply sgraph_sound, H | exact L].
Qed.
Lemma skip_elems_fuel_mono f f' s x : skip_elems f s = Some x -> (f <= f')%nat -> skip_elems f' s = Some x.
Proof.
  destruct x as [t r]. intros H L. apply sgraph_complete. eapply sgraph_mono; [apply sgraph_sound, H | exact L].
Qed.
Lemma skip_members_fuel_mono f f' s x : skip_members f s = Some x -> (f <= f')%nat -> skip_members f' s = Some x.
Proof.
  destruct x as [t r]. intros H L. apply sgraph_complete. eapply sgraph_mono; [apply sgraph_sound, H | exact L].
Qed.

Lemma parse_value_mono f f' d d' s x : parse_value f d s = Some x -> (f <= f')%nat -> (d <= d')%nat ->
  parse_value f' d' s = Some x.
Proof.
  destruct x as [v r]. intros H Lf Ld. apply pgraph_complete.
  eapply pgraph_mono; [apply pgraph_sound, H | exact Lf | exact Ld].
Qed.
Lemma parse_value_fuel_mono f f' d s x : parse_value f d s = Some x -> (f <= f')%nat -> parse_value f' d s = Some x.
Proof. intros H L. exact (parse_value_mono f f' d d s x H L (le_n d)). Qed.
Lemma parse_value_depth_mono f d d' s x : parse_value f d s = Some x -> (d <= d')%nat -> parse_value f d' s = Some x.
Proof. intros H L. exact (parse_value_mono f f d d' s x H (le_n f) L). Qed.
Lemma parse_elems_fuel_mono f f' d s x : parse_elems f d s = Some x -> (f <= f')%nat -> parse_elems f' d s = Some x.
Proof.
  destruct x as [v r]. intros H L. apply pgraph_complete. eapply pgraph_mono; [apply pgraph_sound, H | exact L | apply le_n].
Qed.
Lemma parse_elems_depth_mono f d d' s x : parse_elems f d s = Some x -> (d <= d')%nat -> parse_elems f d' s = Some x.
Proof.
  destruct x as [v r]. intros H L. apply pgraph_complete. eapply pgraph_mono; [apply pgraph_sound, H | apply le_n | exact L].
Qed.
Lemma parse_members_fuel_mono f f' d s x : parse_members f d s = Some x -> (f <= f')%nat -> parse_members f' d s = Some x.
Proof.
  destruct x as [v r]. intros H L. apply pgraph_complete. eapply pgraph_mono; [apply pgraph_sound, H | exact L | apply le_n].
Qed.
Lemma parse_members_depth_mono f d d' s x : parse_members f d s = Some x -> (d <= d')%nat -> parse_members f d' s = Some x.
Proof.
  destruct x as [v r]. intros H L. apply pgraph_complete. eapply pgraph_mono; [apply pgraph_sound, H | apply le_n | exact L].
Qed.

(* Fuel is spent once per value, element and member, and each of them puts at least one byte into the span:
   fuel = length of the span is enough. *)
Lemma sgraph_fuel_len :
  (forall f s t r, sval f s t r -> (1 <= length t)%nat /\ forall f', (length t <= f')%nat -> sval f' s t r) /\
  (forall f s t r, selems f s t r -> (1 <= length t)%nat /\ forall f', (length t <= f')%nat -> selems f' s t r) /\
  (forall f s t r, smembers f s t r -> (1 <= length t)%nat /\ forall f', (length t <= f')%nat -> smembers f' s t r).
Proof.
  apply sgraph_ind; intros;
    try match goal with E : scan_number _ = Some _ |- _ => pose proof (scan_number_len1 _ _ _ E) end;
    repeat match goal with E : _ /\ _ |- _ => destruct E end;
    len_norm; intros; (split; [lia|]); intros f' L; (destruct f' as [|f']; [lia|]);
    econstructor; eauto; match goal with IH : forall f', _ -> _ |- _ => apply IH end; lia.
Qed.

Lemma skip_value_fuel_len f s t r : skip_value f s = Some (t, r) ->
  forall f', (length t <= f')%nat -> skip_value f' s = Some (t, r).
Proof. intros H f' L. apply sgraph_sound, sgraph_fuel_len in H as [_ H]. apply sgraph_complete, H, L. Qed.
Lemma skip_elems_fuel_len f s t r : skip_elems f s = Some (t, r) ->
  forall f', (length t <= f')%nat -> skip_elems f' s = Some (t, r).
Proof. intros H f' L. apply sgraph_sound, sgraph_fuel_len in H as [_ H]. apply sgraph_complete, H, L. Qed.
Lemma skip_members_fuel_len f s t r : skip_members f s = Some (t, r) ->
  forall f', (length t <= f')%nat -> skip_members f' s = Some (t, r).
Proof. intros H f' L. apply sgraph_sound, sgraph_fuel_len in H as [_ H]. apply sgraph_complete, H, L. Qed.
Lemma skip_value_nonempty f s t r : skip_value f s = Some (t, r) -> (1 <= length t)%nat.
Proof. intro H. apply sgraph_sound, sgraph_fuel_len in H. apply H. Qed.

Lemma skip_value_enough_fuel f s x : skip_value f s = Some x -> skip_value (S (length s)) s = Some x.
Proof.
  destruct x as [t r]. intro H. apply (skip_value_fuel_len _ _ _ _ H).
  apply skip_value_split in H. subst s. rewrite app_length. lia.
Qed.

Lemma parse_value_split f d s v r : parse_value f d s = Some (v, r) -> exists t, s = t ++ r /\ (1 <= length t)%nat.
Proof.
  intro H. apply strict_is_lenient in H as [t H]. exists t. split.
  - apply (skip_value_split _ _ _ _ H).
  - apply (skip_value_nonempty _ _ _ _ H).
Qed.

(* for the parser the span is what the input has lost *)
Lemma parse_value_fuel_len f d s v r : parse_value f d s = Some (v, r) ->
  forall f', (length s - length r <= f')%nat -> parse_value f' d s = Some (v, r).
Proof.
  intros H f' L. apply pgraph_sound, pgraph_span in H as (t & Hs & Hf). apply pgraph_complete, Hf.
  apply sgraph_split in Hs. subst s. rewrite app_length in L. lia.
Qed.
Lemma parse_elems_fuel_len f d s v r : parse_elems f d s = Some (v, r) ->
  forall f', (length s - length r <= f')%nat -> parse_elems f' d s = Some (v, r).
Proof.
  intros H f' L. apply pgraph_sound, pgraph_span in H as (t & Hs & Hf). apply pgraph_complete, Hf.
  apply sgraph_split in Hs. subst s. rewrite app_length in L. lia.
Qed.
Lemma parse_members_fuel_len f d s v r : parse_members f d s = Some (v, r) ->
  forall f', (length s - length r <= f')%nat -> parse_members f' d s = Some (v, r).
Proof.
  intros H f' L. apply pgraph_sound, pgraph_span in H as (t & Hs & Hf). apply pgraph_complete, Hf.
  apply sgraph_split in Hs. subst s. rewrite app_length in L. lia.
Qed.

Lemma parse_value_enough_fuel f d s x : parse_value f d s = Some x -> parse_value (S (length s)) d s = Some x.
Proof. destruct x as [v r]. intro H. apply (parse_value_fuel_len _ _ _ _ _ H). lia. Qed.

Lemma ws_prefix_app_cons s c s1 rest : skip_ws s = c :: s1 -> ws_prefix (s ++ rest) = ws_prefix s.
Proof.
  intro H. unfold ws_prefix. apply take_while_app_ne. unfold skip_ws in H. rewrite H. discriminate.
Qed.

Lemma skip_ws_cons_ne s c s1 : skip_ws s = c :: s1 -> s <> [].
Proof. intros H ->. discriminate H. Qed.

(* scan_number_extend at c :: s1, in the shape the number constructors have it *)
Lemma scan_number_extend_cons c s1 l r rest :
  scan_number (c :: s1) = Some (l, r) -> (r <> [] \/ ok_follow rest = true) ->
  scan_number (c :: s1 ++ rest) = Some (l, r ++ rest).
Proof. apply (scan_number_extend (c :: s1)). Qed.

Lemma scan_str_valid_extend s t r rest :
  scan_str_valid s = Some (t, r) -> scan_str_valid (s ++ rest) = Some (t, r ++ rest).
Proof.
  intro H. apply scan_str_valid_inv in H as [H U]. unfold scan_str_valid.
  rewrite (scan_str_extend _ _ _ rest H), U. reflexivity.
Qed.

(* Only a number is sensitive to what follows it, hence the proviso for a value.  Inside a container a value
   is followed by a comma or a closing bracket, so its rest is not empty (skip_ws_cons_ne) and the induction
   hypothesis applies without a condition on the appended bytes: elements and members need no proviso. *)
Lemma sgraph_extend rest :
  (forall f s t r, sval f s t r -> (r <> [] \/ ok_follow rest = true) -> sval f (s ++ rest) t (r ++ rest)) /\
  (forall f s t r, selems f s t r -> selems f (s ++ rest) t (r ++ rest)) /\
  (forall f s t r, smembers f s t r -> smembers f (s ++ rest) t (r ++ rest)).
Proof.
  apply sgraph_ind; intros;
    repeat match goal with
    | E : skip_ws ?s = _ :: _ |- context [ws_prefix ?s] => rewrite <- (ws_prefix_app_cons s _ _ rest E)
    end;
    econstructor;
    eauto using skip_ws_app_cons, starts_with_app, skip_str_extend, scan_number_extend_cons, skip_ws_cons_ne.
Qed.

Lemma pgraph_extend rest :
  (forall f d s v r, pval f d s v r -> (r <> [] \/ ok_follow rest = true) -> pval f d (s ++ rest) v (r ++ rest)) /\
  (forall f d s vs r, pelems f d s vs r -> pelems f d (s ++ rest) vs (r ++ rest)) /\
  (forall f d s ms r, pmembers f d s ms r -> pmembers f d (s ++ rest) ms (r ++ rest)).
Proof.
  apply pgraph_ind; intros; econstructor;
    eauto using skip_ws_app_cons, starts_with_app, scan_str_valid_extend, scan_number_extend_cons, skip_ws_cons_ne.
Qed.

Lemma skip_value_extend f s t r rest :
  skip_value f s = Some (t, r) -> (r <> [] \/ ok_follow rest = true) ->
  skip_value f (s ++ rest) = Some (t, r ++ rest).
Proof. intros H Hr. apply sgraph_complete, sgraph_extend; [apply sgraph_sound, H | exact Hr]. Qed.
Lemma skip_elems_extend f s t r rest :
  skip_elems f s = Some (t, r) -> skip_elems f (s ++ rest) = Some (t, r ++ rest).
Proof. intro H. apply sgraph_complete, sgraph_extend, sgraph_sound, H. Qed.
Lemma skip_members_extend f s t r rest :
  skip_members f s = Some (t, r) -> skip_members f (s ++ rest) = Some (t, r ++ rest).
Proof. intro H. apply sgraph_complete, sgraph_extend, sgraph_sound, H. Qed.

Lemma parse_value_extend f d s v r rest :
  parse_value f d s = Some (v, r) -> (r <> [] \/ ok_follow rest = true) ->
  parse_value f d (s ++ rest) = Some (v, r ++ rest).
Proof. intros H Hr. apply pgraph_complete, pgraph_extend; [apply pgraph_sound, H | exact Hr]. Qed.
Lemma parse_elems_extend f d s v r rest :
  parse_elems f d s = Some (v, r) -> parse_elems f d (s ++ rest) = Some (v, r ++ rest).
Proof. intro H. apply pgraph_complete, pgraph_extend, pgraph_sound, H. Qed.
Lemma parse_members_extend f d s v r rest :
  parse_members f d s = Some (v, r) -> parse_members f d (s ++ rest) = Some (v, r ++ rest).
Proof. intro H. apply pgraph_complete, pgraph_extend, pgraph_sound, H. Qed.
