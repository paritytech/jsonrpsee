(* UTF-8 validity is closed under concatenation; ASCII prefixes are transparent. *)
From JV Require Import Base.Bytes Base.Utf8 Proofs.BytesFacts.
Local Open Scope N_scope.

Definition ascii (c : byte) : bool := bN c <? 128.

Lemma utf8_valid_cons a s1 :
  utf8_valid (a :: s1) =
    let n := bN a in
    if n <? 128 then utf8_valid s1
    else if (194 <=? n) && (n <=? 223) then
      match s1 with b :: s2 => is_cont b && utf8_valid s2 | _ => false end
    else if n =? 224 then
      match s1 with b :: c :: s3 => in_range 160 191 b && is_cont c && utf8_valid s3 | _ => false end
    else if ((225 <=? n) && (n <=? 236)) || (n =? 238) || (n =? 239) then
      match s1 with b :: c :: s3 => is_cont b && is_cont c && utf8_valid s3 | _ => false end
    else if n =? 237 then
      match s1 with b :: c :: s3 => in_range 128 159 b && is_cont c && utf8_valid s3 | _ => false end
    else if n =? 240 then
      match s1 with b :: c :: d :: s4 => in_range 144 191 b && is_cont c && is_cont d && utf8_valid s4 | _ => false end
    else if (241 <=? n) && (n <=? 243) then
      match s1 with b :: c :: d :: s4 => is_cont b && is_cont c && is_cont d && utf8_valid s4 | _ => false end
    else if n =? 244 then
      match s1 with b :: c :: d :: s4 => in_range 128 143 b && is_cont c && is_cont d && utf8_valid s4 | _ => false end
    else false.
Proof. reflexivity. Qed.

Lemma utf8_valid_ascii_cons c s : ascii c = true -> utf8_valid (c :: s) = utf8_valid s.
Proof. intro H. rewrite utf8_valid_cons. cbv zeta. unfold ascii in H. rewrite H. reflexivity. Qed.

Lemma utf8_valid_ascii_app a b : forallb ascii a = true -> utf8_valid (a ++ b) = utf8_valid b.
Proof.
  induction a as [|c a IH]; cbn [app forallb]; intro H; [reflexivity|].
  apply andb_true_iff in H as [H1 H2]. rewrite utf8_valid_ascii_cons by exact H1. apply IH, H2.
Qed.

Lemma utf8_valid_ascii a : forallb ascii a = true -> utf8_valid a = true.
Proof. intro H. rewrite <- (app_nil_r a). rewrite utf8_valid_ascii_app by exact H. reflexivity. Qed.

Lemma in_range_hi lo hi y : in_range lo hi y = true -> 128 <= lo -> ascii y = false.
Proof.
  unfold in_range, ascii. intros H Hlo. apply andb_true_iff in H as [H1 _].
  apply N.leb_le in H1. apply N.ltb_ge. lia.
Qed.

Lemma is_cont_hi y : is_cont y = true -> ascii y = false.
Proof. intro H. apply (in_range_hi _ _ _ H). lia. Qed.

Ltac prefix_of l r :=
  match l with
  | r => constr:(@nil byte)
  | ?a :: ?l' => let p := prefix_of l' r in constr:(a :: p)
  end.

(* A valid string is a sequence of chunks: an ASCII byte, or a multi-byte sequence whose bytes are all
   non-ASCII and which utf8_valid steps over whatever follows.  The case analysis of utf8_valid is done here only. *)
Lemma utf8_chunks (P : bytes -> Prop) :
  P [] ->
  (forall c s, ascii c = true -> P s -> P (c :: s)) ->
  (forall ch s, Forall (fun y => ascii y = false) ch ->
     (forall X, utf8_valid (ch ++ X) = utf8_valid X) -> P s -> P (ch ++ s)) ->
  forall s, utf8_valid s = true -> P s.
Proof.
  intros P0 Pa Pc. induction s as [s IH] using bytes_len_ind. intro H.
  destruct s as [|x s]; [exact P0|].
  rewrite utf8_valid_cons in H. cbv zeta in H.
  destruct (bN x <? 128) eqn:E0.
  { apply Pa; [exact E0 | apply IH; [cbn [length]; lia | exact H]]. }
  assert (Hx : ascii x = false) by exact E0.
  (* the seven kinds of lead byte; each test of utf8_valid_cons is decided and its equation kept *)
  repeat match type of H with (if ?c then _ else _) = true => destruct c eqn:? end; [.. | discriminate H].
  (* the continuation bytes the lead byte asks for are there; H : conditions on them && utf8_valid of the rest *)
  all: repeat match type of H with match ?l with _ => _ end = true => destruct l as [|? l]; [discriminate H|] end.
  all: apply andb_true_iff in H as [HP HV].
  (* the chunk is the lead byte with its continuation bytes *)
  all: match goal with |- _ ?l => match type of HV with utf8_valid ?r = true =>
         let ch := prefix_of l r in apply (Pc ch r) end end.
  all: try (apply IH; [cbn [length]; lia | exact HV]).
  (* utf8_valid steps over the chunk: the same tests come out the same way (rw_eqs), the conditions are HP *)
  all: try (intro X; cbn [app]; rewrite utf8_valid_cons; cbv zeta; rw_eqs; rewrite HP; reflexivity).
  (* no byte of the chunk is ASCII: the lead byte by Hx, the others by their range *)
  all: repeat match type of HP with _ && _ = true => let A := fresh in apply andb_true_iff in HP as [HP A] end.
  all: repeat constructor; try exact Hx;
       first [apply is_cont_hi; assumption | eapply in_range_hi; [eassumption | lia]].
Qed.

Lemma utf8_valid_app a b : utf8_valid a = true -> utf8_valid b = true -> utf8_valid (a ++ b) = true.
Proof.
  intros Ha Hb. revert a Ha. apply utf8_chunks.
  - exact Hb.
  - intros c s Hc IH. cbn [app]. rewrite utf8_valid_ascii_cons by exact Hc. exact IH.
  - intros ch s _ Hch IH. rewrite <- app_assoc, Hch. exact IH.
Qed.
