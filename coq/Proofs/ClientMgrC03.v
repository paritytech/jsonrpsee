(* C03: each client call completes with exactly the response bearing its own id.
   Which outputs each part of a step can emit (routing in state form, fresh keys, unknown ids); a potential function on
   pending waiters, by which every handle completes at most once; the origin of table entries in the event history
   (routing in trace form). *)
From JV Require Import Base.Bytes Base.Dec Base.Utf8 Json.Json Model.Wire Model.ClientMgr Proofs.DecFacts Proofs.ClientMgrInv.
From JV Require Import Proofs.ClientDispatchFacts.
From Coq Require Import Permutation.
Local Open Scope N_scope.
#[local] Arguments N.add : simpl never.
#[local] Arguments N.sub : simpl never.
#[local] Arguments N.mul : simpl never.
#[local] Arguments N.ltb : simpl never.
#[local] Arguments N.leb : simpl never.
#[local] Arguments N.eqb : simpl never.

Lemma complete_Forall (P : out -> Prop) s h r : (alive s h = true -> P (OComplete h r)) -> Forall P (complete s h r).
Proof. unfold complete. destruct (alive s h); intros H; repeat constructor; auto. Qed.

Definition settle_cres (c : cres) : Prop :=
  match c with
  | CErr EOccupied | CErr EAlreadyRegistered | CErr EDisconnected | CRegOk | CDone => True
  | _ => False
  end.
Definition settle_out (o : out) : Prop := match o with OComplete _ c => settle_cres c | _ => True end.

Lemma wire_out (P : out -> Prop) s raw : P (OWire raw) -> Forall P (snd (wire s raw)).
Proof. unfold wire. destruct (sendfail s); cbn; intros; repeat constructor; auto. Qed.

Lemma handle_front_out (P : out -> Prop) s msg :
  (forall raw, P (OWire raw)) -> (forall h, P (OComplete h (CErr EOccupied))) ->
  (forall h, P (OComplete h (CErr EAlreadyRegistered))) -> (forall h, P (OComplete h CRegOk)) ->
  Forall P (snd (handle_front s msg)).
Proof.
  intros W O A R. destruct msg as [lo hi h raw | raw | i w raw | si ui um h raw | me h | me | sid]; cbn [handle_front].
  - destruct (ahas _ _ _); [apply complete_Forall; auto | apply wire_out; auto].
  - apply wire_out; auto.
  - destruct (ahas _ _ _); [|apply wire_out; auto]. destruct w; [apply complete_Forall; auto | constructor].
  - destruct (_ && _); [apply wire_out; auto | apply complete_Forall; auto].
  - destruct (ahas _ _ _); [apply complete_Forall; auto|]. destruct (alive s h); cbn; repeat constructor; auto.
  - destruct (alookup _ _ _); constructor.
  - unfold do_unsubscribe. destruct (alookup _ _ _); [|constructor].
    destruct (req_lookup _ _) as [[w|u w um|u ch um|j]|]; try constructor. apply wire_out; auto.
Qed.

Lemma kill_out (P : out -> Prop) s f : P (OFatal f) -> (forall h, P (OComplete h (CErr EDisconnected))) -> Forall P (snd (kill s f)).
Proof.
  intros F D. unfold kill. cbn [snd]. constructor; auto. apply Forall_flat_map, Forall_forall. intros h _. apply complete_Forall; auto.
Qed.

Lemma finish_unsubs_out (P : out -> Prop) s : (forall h, P (OComplete h CDone)) -> Forall P (snd (finish_unsubs s)).
Proof.
  intros D. unfold finish_unsubs. cbn [snd]. apply Forall_flat_map, Forall_forall. intros [[w c] a] _. apply complete_Forall; auto.
Qed.

Lemma settle_outs s : Forall settle_out (snd (settle s)).
Proof.
  apply (settle_lift (fun _ => True) settle_out); auto.
  - intros. split; auto. apply handle_front_out; cbn; auto.
  - intros. split; auto. apply kill_out; cbn; auto.
  - intros. split; auto. apply finish_unsubs_out; cbn; auto.
Qed.

Lemma in_complete s h r o : In o (complete s h r) -> o = OComplete h r.
Proof. unfold complete. destruct (alive s h); cbn; [intros [<- | []]; auto | intros []]. Qed.

Lemma close_msg_cases s sh msg : close_msg_of s sh = Some msg -> (exists sid, msg = MSubClosed sid) \/ exists me, msg = MUnregister me.
Proof. unfold close_msg_of. destruct (alookup N.eqb sh (subkind s)) as [[sid|me]|]; intros [= <-]; eauto. Qed.

Definition sub_answer (c : cres) : Prop :=
  match c with CErr (ECall _) | CErr EParse | CErr EInvalidSubId | CSubOk _ => True | _ => False end.

Lemma single_response_outs s r o : In o (rres_out (single_response s r)) ->
  match o with
  | OComplete h (CResp r') => r' = r /\ req_lookup (rs_id r) (m s) = Some (KCall (Some h))
  | OComplete h c => sub_answer c /\ exists u um, req_lookup (rs_id r) (m s) = Some (KPendSub u h um)
  | _ => False
  end.
Proof.
  unfold single_response. destruct (req_lookup (rs_id r) (m s)) as [[w|u w um|u ch um|sub]|] eqn:A; cbn [rres_out]; try contradiction.
  - destruct w as [h|]; [|contradiction]. intros H. apply in_complete in H. subst o. auto.
  - assert (X : forall c, sub_answer c -> In o (complete s w c) ->
              match o with
              | OComplete h (CResp r') => r' = r /\ Some (KPendSub u w um) = Some (KCall (Some h))
              | OComplete h c => sub_answer c /\ exists u0 um0, Some (KPendSub u w um) = Some (KPendSub u0 h um0)
              | _ => False end).
    { intros c Hc H. apply in_complete in H. subst o. destruct c as [| | | | |[]]; try contradiction; split; eauto. }
    destruct (rs_payload r) as [raw|e]; cbn [rres_out]; [|apply X; exact Logic.I].
    destruct (parse_subid raw) as [sid|]; cbn [rres_out]; [|apply X; exact Logic.I].
    destruct (ahas subid_eqb sid _); cbn [rres_out]; [apply X; exact Logic.I|].
    destruct (alive s w); cbn [rres_out]; [|contradiction].
    intros [<- | []]. split; [exact Logic.I | eauto].
Qed.

Lemma handle_back_outs s fr o : In o (rres_out (handle_back s fr)) ->
  match o with
  | OComplete h (CResp r) => fr = FSingle (IResp r) /\ req_lookup (rs_id r) (m s) = Some (KCall (Some h))
  | OComplete h (CBatch _) => exists ms, fr = FArray ms
  | OComplete h c => sub_answer c /\ exists r u um, fr = FSingle (IResp r) /\ req_lookup (rs_id r) (m s) = Some (KPendSub u h um)
  | _ => False
  end.
Proof.
  destruct fr as [x|ms|]; rewrite ?handle_back_now; cbn [handle_back_ref rres_out]; [| |contradiction].
  - destruct x as [r|me sid p|me sid p|me p|]; cbn [handle_elem_single_ref rres_out]; try contradiction.
    intros H. apply single_response_outs in H. destruct o as [|h c|]; auto.
    destruct c as [r'| | | | |e]; try (destruct H as (H1 & u & um & H2); first [exfalso; exact H1 | split; eauto]; fail).
    destruct H as (-> & H). auto.
  - destruct (array_loop s ms [] None false) as [[[[s' rs] [[lo hi]|]] got]|[s' f]]; cbn [rres_out]; try contradiction.
    + destruct (hi =? u64_max); cbn [rres_out]; [contradiction|]. unfold batch_response.
      destruct (alookup range_eqb _ _); cbn [rres_out]; [|contradiction].
      intros H. apply in_complete in H. subst o. eauto.
    + destruct got; cbn [rres_out]; contradiction.
Qed.

Definition apply_cres (c : cres) : Prop :=
  match c with CErr EOccupied | CErr EAlreadyRegistered | CRegOk => False | _ => True end.

Lemma apply_outs s e o : In o (snd (fst (apply s e))) ->
  match o with
  | OComplete h (CResp r) =>
      dead s = false /\ dying s = None /\ exists raw, e = Back raw /\ classify_frame raw = FSingle (IResp r) /\
      req_lookup (rs_id r) (m s) = Some (KCall (Some h))
  | OComplete h c => apply_cres c
  | _ => False
  end.
Proof.
  unfold apply. destruct (dead s) eqn:D.
  - destruct e; cbn [fst snd]; try contradiction; try (intros [<- | []]; exact Logic.I).
    + destruct (poll_next s sh); contradiction.
    + destruct (close_msg_of s sh); [|contradiction]. destruct (chan_of s sh); [|contradiction]. intros [<- | []]; exact Logic.I.
    + destruct (close_msg_of s sh); [|contradiction]. destruct (chan_of s sh); contradiction.
  - destruct e; cbn [fst snd]; try contradiction.
    + destruct entries; cbn [fst snd]; [intros [<- | []]; exact Logic.I | contradiction].
    + destruct (bytes_eqb sub unsub); cbn [fst snd]; [intros [<- | []]; exact Logic.I | contradiction].
    + destruct (poll_next s sh); contradiction.
    + destruct (close_msg_of s sh); contradiction.
    + destruct (close_msg_of s sh); [|contradiction]. destruct (chan_of s sh); contradiction.
    + destruct (dying s) eqn:DY; [contradiction|].
      intros H. assert (H' : In o (rres_out (handle_back s (classify_frame raw)))).
      { destruct (handle_back s (classify_frame raw)); exact H. }
      apply handle_back_outs in H'. destruct o as [|h c|]; auto.
      destruct c as [r| | | | |ce]; try exact Logic.I.
      * destruct H' as (H1 & H2). repeat split; auto. exists raw. auto.
      * destruct H' as (H1 & _). exact H1.
      * destruct H' as (H1 & _). destruct ce; try contradiction; exact Logic.I.
Qed.

Lemma step_outs s e o : In o (snd (fst (step s e))) ->
  In o (snd (fst (apply s e))) \/ settle_out o.
Proof.
  unfold step. destruct (apply s e) as [[s1 o1] r]. pose proof (settle_outs s1) as S.
  destruct (settle s1) as [s2 o2]. cbn [fst snd] in *. intros H. apply in_app_iff in H as [H | H]; auto.
  right. rewrite Forall_forall in S. auto.
Qed.

Definition not_occ (o : out) : Prop := forall h, o <> OComplete h (CErr EOccupied).

Lemma handle_front_fresh s msg : InvC (m s) (msg :: qmsgs s) (next_id s) (id_str s) (unacked s) ->
  Forall not_occ (snd (handle_front s msg)).
Proof.
  intros C. destruct msg as [lo hi h raw | raw | i w raw | si ui um h raw | me h | me | sid]; cbn [handle_front].
  - apply InvC_front_batch in C as (F & _). apply (ahas_false range_eqb range_eqb_ok) in F. rewrite F.
    apply wire_out. discriminate.
  - apply wire_out. discriminate.
  - apply InvC_front_req in C as (F & _). apply (ahas_false id_eqb id_eqb_ok) in F. rewrite F. apply wire_out. discriminate.
  - apply InvC_front_sub in C as (F1 & F2 & F3 & _).
    apply (ahas_false id_eqb id_eqb_ok) in F1. apply (ahas_false id_eqb id_eqb_ok) in F2.
    rewrite F1, F2, (eqb_neq id_eqb id_eqb_ok _ _ F3). cbn [negb andb]. apply wire_out. discriminate.
  - destruct (ahas _ _ _); [apply complete_Forall; discriminate|]. destruct (alive s h); cbn; repeat constructor; discriminate.
  - destruct (alookup _ _ _); constructor.
  - unfold do_unsubscribe. destruct (alookup _ _ _); [|constructor].
    destruct (req_lookup _ _) as [[w|u w um|u ch um|j]|]; try constructor. apply wire_out; discriminate.
Qed.

(* Inv through the dequeue form of handle_front, for use as J *)
Lemma Inv_front s0 msg q : Inv s0 -> queue s0 = msg :: q -> dead s0 = false ->
  Inv (fst (handle_front (upd_queue s0 q (waiting s0)) msg)) /\
  InvC (m s0) (msg :: qmsgs (upd_queue s0 q (waiting s0))) (next_id s0) (id_str s0) (unacked s0).
Proof.
  intros I Q D.
  assert (QM : qmsgs s0 = msg :: qmsgs (upd_queue s0 q (waiting s0))) by (unfold qmsgs; st_simpl; rewrite Q; reflexivity).
  split; [|rewrite <- QM; apply I].
  apply (handle_front_good s0 (upd_queue s0 q (waiting s0)) msg I D); [constructor; reflexivity | exact QM].
Qed.

Theorem keys_fresh_run es s : Inv s -> Inv (fst (run s es)) /\ Forall (fun x => Forall not_occ (fst x)) (snd (run s es)).
Proof.
  apply (run_lift Inv not_occ).
  - intros f s0 I. apply (admit_waiting_good f s0 I).
  - intros s0 msg q I Q D _ _. destruct (Inv_front s0 msg q I Q D) as (I1 & C). split; auto.
    apply handle_front_fresh. st_simpl. exact C.
  - intros s0 f I _ _ _. split; [apply (kill_good s0 f I) | apply kill_out; discriminate].
  - intros s0 I. split; [apply (finish_unsubs_good s0 I) | apply finish_unsubs_out; discriminate].
  - intros s0 e0 I. split; [apply (apply_good s0 e0 I)|]. apply Forall_forall. intros o Ho.
    apply apply_outs in Ho. intros h ->. exact Ho.
Qed.

Definition doomed (s : st) : Prop := dying s <> None \/ dead s = true.

Lemma settle_doomed s : doomed s -> doomed (fst (settle s)).
Proof.
  apply (settle_rel (fun s _ s' => doomed s -> doomed s')); auto.
  - intros f s0. unfold doomed. rewrite (sq_dead _ _ (admit_waiting_sameq f s0)), (sq_dying _ _ (admit_waiting_sameq f s0)). auto.
  - intros s0 msg q _ D _ DY [DY' | D']; congruence.
  - intros s0 f _ _ _ _. right; reflexivity.
  - intros s0 J. destruct (finish_unsubs_shape s0) as (cs & -> & _). exact J.
Qed.

Lemma apply_unknown_id s raw r :
  classify_frame raw = FSingle (IResp r) -> dying s = None -> dead s = false ->
  (req_lookup (rs_id r) (m s) = None \/ exists u ch um, req_lookup (rs_id r) (m s) = Some (KSub u ch um)) ->
  apply s (Back raw) = (upd_dying s FNotPending, [], None).
Proof.
  intros CF DY D L. unfold apply. rewrite D, DY, CF, handle_back_now. cbn [handle_back_ref handle_elem_single_ref].
  unfold single_response. destruct L as [-> | (u & ch & um & ->)]; reflexivity.
Qed.


Definition cnt (h : handle) (l : list handle) : nat := count_occ N.eq_dec l h.

Lemma cnt_app h l1 l2 : cnt h (l1 ++ l2) = (cnt h l1 + cnt h l2)%nat.
Proof. apply count_occ_app. Qed.
Lemma cnt_nil h : cnt h [] = 0%nat.
Proof. reflexivity. Qed.
Lemma cnt_flat_map_app {A} h (f : A -> list handle) l1 l2 : cnt h (flat_map f (l1 ++ l2)) = (cnt h (flat_map f l1) + cnt h (flat_map f l2))%nat.
Proof. rewrite flat_map_app. apply cnt_app. Qed.

Definition comps (o : list out) : list handle := flat_map (fun x => match x with OComplete h _ => [h] | _ => [] end) o.
Lemma comps_app o1 o2 : comps (o1 ++ o2) = comps o1 ++ comps o2.
Proof. apply flat_map_app. Qed.

Lemma comps_complete h s h' r : (cnt h (comps (complete s h' r)) <= cnt h [h'])%nat.
Proof. unfold complete. destruct (alive s h'); cbn; auto. destruct (N.eq_dec h' h); lia. Qed.

Definition tokens (s : st) : list handle :=
  flat_map waiters_of_kind (requests (m s)) ++ map snd (batches (m s)) ++ flat_map waiters_of_msg (queue s)
  ++ flat_map (fun x => waiters_of_msg (fst x)) (waiting s) ++ map (fun x => fst (fst x)) (unsubw s).
Definition pot (h : handle) (s : st) : nat := cnt h (tokens s).

(* (s, o, s') pays: completions of h are covered by the decrease of the potential, up to a budget *)
Definition Pay (h : handle) (n : nat) (s : st) (o : list out) (s' : st) : Prop := (cnt h (comps o) + pot h s' <= pot h s + n)%nat.

Lemma Pay_trans h n1 n2 s1 o1 s2 o2 s3 : Pay h n1 s1 o1 s2 -> Pay h n2 s2 o2 s3 -> Pay h (n1 + n2) s1 (o1 ++ o2) s3.
Proof. unfold Pay. rewrite comps_app, cnt_app. lia. Qed.

Lemma Pay_same h s s' : tokens s' = tokens s -> Pay h 0 s [] s'.
Proof. unfold Pay, pot. intros ->. cbn. lia. Qed.

Definition ptab (h : handle) (M : mgr) : nat :=
  (cnt h (flat_map waiters_of_kind (requests M)) + cnt h (map snd (batches M)))%nat.

Lemma pot_parts h s :
  pot h s = (ptab h (m s) + (cnt h (flat_map waiters_of_msg (queue s)) + (cnt h (flat_map (fun x => waiters_of_msg (fst x)) (waiting s)) +
                             cnt h (map (fun x => fst (fst x)) (unsubw s)))))%nat.
Proof. unfold pot, tokens, ptab. rewrite !cnt_app. lia. Qed.

Lemma Pay_tables h s o s1 : queue s1 = queue s -> waiting s1 = waiting s -> unsubw s1 = unsubw s ->
  (cnt h (comps o) + ptab h (m s1) <= ptab h (m s))%nat -> Pay h 0 s o s1.
Proof. intros E1 E2 E3 L. unfold Pay. rewrite !pot_parts, E1, E2, E3. lia. Qed.

Lemma Pay_idle h n s o s' : pot h s' = pot h s -> (cnt h (comps o) <= n)%nat -> Pay h n s o s'.
Proof. unfold Pay. lia. Qed.

Lemma Pay_none h n s s' : pot h s' = pot h s -> Pay h n s [] s'.
Proof. intros E. apply Pay_idle; [exact E | apply Nat.le_0_l]. Qed.

Lemma Pay_own h h0 c s s' : pot h s' = pot h s -> Pay h (cnt h [h0]) s [OComplete h0 c] s'.
Proof. intros E. apply Pay_idle; [exact E | apply Nat.le_refl]. Qed.

Lemma cnt_filter_le {A} h (f : A -> list handle) (p : A -> bool) l : (cnt h (flat_map f (filter p l)) <= cnt h (flat_map f l))%nat.
Proof. induction l as [|x l IH]; cbn [filter flat_map]; auto. destruct (p x); cbn [flat_map]; rewrite ?cnt_app; lia. Qed.

Lemma cnt_map {A} h (g : A -> handle) l : cnt h (map g l) = cnt h (flat_map (fun x => [g x]) l).
Proof.
  induction l as [|x l IH]; cbn [map flat_map]; [reflexivity|].
  change (g x :: map g l) with ([g x] ++ map g l). rewrite !cnt_app, IH. reflexivity.
Qed.

Section Remove.
  Context {K V : Type} (eqb : K -> K -> bool) (eqb_ok : forall a b, eqb a b = true <-> a = b).
  Variables (h : handle) (f : K * V -> list handle).

  Lemma cnt_aremove_le k l : (cnt h (flat_map f (aremove eqb k l)) <= cnt h (flat_map f l))%nat.
  Proof. rewrite aremove_filter. apply cnt_filter_le. Qed.

  Lemma cnt_aremove k v l : alookup eqb k l = Some v ->
    (cnt h (flat_map f (aremove eqb k l)) + cnt h (f (k, v)) <= cnt h (flat_map f l))%nat.
  Proof.
    induction l as [|[k' v'] l IH]; cbn [alookup aremove flat_map]; [discriminate|].
    destruct (eqb k k') eqn:E.
    - intros [= ->]. apply eqb_ok in E. subst k'. rewrite cnt_app. pose proof (cnt_aremove_le k l). lia.
    - intros H. cbn [flat_map]. rewrite !cnt_app. apply IH in H. lia.
  Qed.
End Remove.

Lemma tokens_same s s' : SameC s s' -> unsubw s' = unsubw s -> tokens s' = tokens s.
Proof. intros C U. unfold tokens. rewrite (sc_m _ _ C), (sc_queue _ _ C), (sc_waiting _ _ C), U. reflexivity. Qed.

Lemma wire_unsubw s raw : unsubw (fst (wire s raw)) = unsubw s.
Proof. unfold wire. destruct (sendfail s); [|destruct (gated s)]; reflexivity. Qed.

Lemma wire_comps s raw : comps (snd (wire s raw)) = [].
Proof. unfold wire. destruct (sendfail s); reflexivity. Qed.

Lemma Pay_wire h n s o s1 raw : Pay h n s o s1 -> Pay h n s (o ++ snd (wire s1 raw)) (fst (wire s1 raw)).
Proof.
  unfold Pay, pot. rewrite comps_app, wire_comps, app_nil_r.
  rewrite (tokens_same s1 (fst (wire s1 raw)) (wire_same s1 raw) (wire_unsubw s1 raw)). auto.
Qed.

Lemma release_wok_le h u M : (cnt h (flat_map waiters_of_kind (requests (release_reserved u M))) <= cnt h (flat_map waiters_of_kind (requests M)))%nat.
Proof.
  unfold release_reserved. destruct (req_lookup u M) as [[[w|]| | |]|]; auto. cbn. apply cnt_aremove_le.
Qed.

Lemma Pay_front h s0 msg q : queue s0 = msg :: q ->
  Pay h 0 s0 (snd (handle_front (upd_queue s0 q (waiting s0)) msg)) (fst (handle_front (upd_queue s0 q (waiting s0)) msg)).
Proof.
  intros Q. set (s := upd_queue s0 q (waiting s0)).
  (* msg leaves the queue, waiting and unsubw stay: what is completed and what the tables hold afterwards is covered by
     the tables before and the waiter of msg *)
  assert (TAB : forall o s1, queue s1 = q -> waiting s1 = waiting s0 -> unsubw s1 = unsubw s0 ->
            (cnt h (comps o) + ptab h (m s1) <= ptab h (m s0) + cnt h (waiters_of_msg msg))%nat -> Pay h 0 s0 o s1).
  { intros o s1 E1 E2 E3 L. unfold Pay. rewrite !pot_parts, Q, E1, E2, E3. cbn [flat_map]. rewrite cnt_app. lia. }
  assert (P0 : forall o, (cnt h (comps o) <= cnt h (waiters_of_msg msg))%nat -> Pay h 0 s0 o s).
  { intros o Ho. apply TAB; try reflexivity. change (m s) with (m s0). lia. }
  assert (WIRE : forall M raw, (ptab h M <= ptab h (m s0) + cnt h (waiters_of_msg msg))%nat ->
            Pay h 0 s0 (snd (wire (upd_m s M) raw)) (fst (wire (upd_m s M) raw))).
  { intros M raw L. apply (Pay_wire h 0 s0 [] _ raw). apply TAB; try reflexivity. exact L. }
  destruct msg as [lo hi w raw | raw | i w raw | si ui um w raw | me w | me | sid]; cbn [handle_front];
    change (m s) with (m s0).
  - destruct (ahas _ _ _); cbn [fst snd]; [apply P0; apply comps_complete|].
    apply WIRE. unfold ptab. cbn [requests batches set_batches map snd waiters_of_msg].
    change (cnt h (w :: map snd (batches (m s0)))) with (cnt h ([w] ++ map snd (batches (m s0)))). rewrite cnt_app. lia.
  - apply (Pay_wire h 0 s0 [] _ raw). apply P0. cbn. lia.
  - destruct (ahas _ _ _); cbn [fst snd].
    + apply P0. destruct w; [apply comps_complete | cbn; lia].
    + apply WIRE. unfold ptab. cbn [requests batches set_requests flat_map]. rewrite cnt_app.
      unfold waiters_of_kind at 1. cbn [snd waiters_of_msg]. change (m s) with (m s0). destruct w; lia.
  - destruct (_ && _); cbn [fst snd]; [|apply P0; apply comps_complete].
    apply WIRE. unfold ptab. cbn [requests batches set_requests flat_map]. rewrite !cnt_app.
    unfold waiters_of_kind at 1 2. cbn [snd waiters_of_msg]. rewrite cnt_nil. lia.
  - destruct (ahas _ _ _); cbn [fst snd]; [apply P0; apply comps_complete|].
    (* the tables of waiters stay; the caller is answered if it is still there *)
    destruct (alive s w); cbn [fst snd]; apply TAB; try reflexivity;
      match goal with |- context [ptab h (m ?x)] => change (ptab h (m x)) with (ptab h (m s0)) end;
      cbn [comps flat_map waiters_of_msg app]; rewrite ?cnt_nil; lia.
  - destruct (alookup _ _ _); cbn [fst snd]; [|apply P0; cbn; lia].
    match goal with |- context [drop_sink ?a ?b] => destruct (drop_sink_chans a b) as (cs & ->) end.
    apply TAB; try reflexivity. apply Nat.le_add_r.
  - unfold do_unsubscribe. destruct (alookup _ _ _) as [rid|]; cbn [fst snd]; [|apply P0; cbn; lia].
    destruct (req_lookup rid (m s)) as [[w|u w um|u ch um|j]|] eqn:L; cbn [fst snd]; try (apply P0; cbn; lia).
    set (m1 := set_subs _ _). destruct (drop_sink_chans (upd_m s m1) ch) as (cs & ->).
    apply (Pay_wire h 0 s0 [] _). apply TAB; try reflexivity.
    (* both new entries are waiter-less; what was removed to make room for them only lowers the count *)
    unfold m1, ptab. cbn [m upd_m upd_chans upd_unacked requests batches set_requests set_subs comps flat_map waiters_of_msg]. unfold aset. cbn [flat_map]. rewrite !cnt_app.
    change (m s) with (m s0).
    pose proof (cnt_aremove_le id_eqb h waiters_of_kind u ((rid, KCall None) :: aremove id_eqb rid (requests (m s0)))) as L1.
    cbn [flat_map] in L1. rewrite cnt_app in L1.
    pose proof (cnt_aremove_le id_eqb h waiters_of_kind rid (requests (m s0))) as L2.
    change (cnt h (waiters_of_kind (u, KUnsubP rid))) with 0%nat. change (cnt h (waiters_of_kind (rid, KCall None))) with 0%nat in *. change (cnt h []) with 0%nat. lia.
Qed.

Lemma pot_admit h f : forall s, pot h (admit_waiting f s) = pot h s.
Proof.
  induction f as [|f IH]; intros s; cbn [admit_waiting]; auto.
  destruct (waiting s) as [|[msg tag] w] eqn:W; auto.
  destruct (Nat.ltb (length (queue s)) (qcap s)); auto.
  rewrite IH. unfold pot, tokens. rewrite W.
  destruct tag; st_simpl; rewrite ?mark_admitted_fst; cbn [flat_map fst]; rewrite ?cnt_app, ?cnt_flat_map_app; cbn [flat_map];
    rewrite ?cnt_app, ?app_nil_r, ?cnt_nil; lia.
Qed.

Lemma cnt_insert_sorted h x l : cnt h (insert_sorted x l) = cnt h (x :: l).
Proof.
  induction l as [|y l IH]; cbn [insert_sorted]; auto.
  destruct (x <=? y); auto. unfold cnt in *. cbn [count_occ] in *. rewrite IH.
  destruct (N.eq_dec y h), (N.eq_dec x h); lia.
Qed.

Lemma cnt_sort h l : cnt h (sort_handles l) = cnt h l.
Proof.
  induction l as [|x l IH]; cbn [sort_handles fold_right]; auto. fold (sort_handles l).
  rewrite cnt_insert_sorted. unfold cnt in *. cbn [count_occ]. rewrite IH. reflexivity.
Qed.

Lemma comps_flat_complete h s c l : (cnt h (comps (flat_map (fun h' => complete s h' c) l)) <= cnt h l)%nat.
Proof.
  induction l as [|x l IH]; cbn [flat_map]; auto. rewrite comps_app, cnt_app.
  pose proof (comps_complete h s x c). change (x :: l) with ([x] ++ l). rewrite cnt_app. lia.
Qed.

Lemma Pay_kill h s f : Pay h 0 s (snd (kill s f)) (fst (kill s f)).
Proof.
  unfold kill. cbn [fst snd]. unfold Pay, pot, tokens. st_simpl. cbn [requests batches empty_mgr flat_map map app comps].
  rewrite map_map. cbn [fst].
  set (ws := _ ++ _ ++ _ ++ _).
  pose proof (comps_flat_complete h s (CErr EDisconnected) (sort_handles ws)) as L. rewrite cnt_sort in L.
  assert (E : map (fun x : handle * handle * bool => fst (fst (let '(w, c, _) := x in (w, c, true)))) (unsubw s)
              = map (fun x => fst (fst x)) (unsubw s)).
  { apply map_ext. intros [[w c] a]. reflexivity. }
  rewrite E. unfold comps in L. unfold ws in *. rewrite !cnt_app in *. lia.
Qed.

Lemma cnt_filter_split {A} h (f : A -> handle) (p : A -> bool) l :
  (cnt h (map f (filter p l)) + cnt h (map f (filter (fun x => negb (p x)) l)) = cnt h (map f l))%nat.
Proof.
  induction l as [|x l IH]; cbn [filter map]; auto. unfold cnt in *.
  destruct (p x); cbn [negb map count_occ]; destruct (N.eq_dec (f x) h); lia.
Qed.

Lemma comps_done h s (l : list (handle * handle * bool)) :
  (cnt h (comps (flat_map (fun x : handle * handle * bool => let '(w, _, _) := x in complete s w CDone) l))
   <= cnt h (map (fun x => fst (fst x)) l))%nat.
Proof.
  induction l as [|[[w c] a] l IH]; cbn [flat_map map]; auto.
  rewrite comps_app, cnt_app. pose proof (comps_complete h s w CDone).
  change (fst (fst (w, c, a)) :: map (fun x => fst (fst x)) l) with ([w] ++ map (fun x : handle * handle * bool => fst (fst x)) l).
  rewrite cnt_app. lia.
Qed.

Lemma Pay_finish h s : Pay h 0 s (snd (finish_unsubs s)) (fst (finish_unsubs s)).
Proof.
  (* the futures that are done leave unsubw, and only they complete *)
  unfold Pay, pot. destruct (finish_unsubs_shape s) as (cs & -> & _). unfold finish_unsubs, tokens. cbn [snd]. st_simpl.
  rewrite !cnt_app.
  pose proof (cnt_filter_split h (fun x : handle * handle * bool => fst (fst x)) (unsub_done s) (unsubw s)) as E.
  pose proof (comps_done h s (filter (unsub_done s) (unsubw s))) as L.
  lia.
Qed.

Lemma Pay_settle h s : Pay h 0 s (snd (settle s)) (fst (settle s)).
Proof.
  apply (settle_rel (Pay h 0)).
  - intros s0. apply Pay_same. reflexivity.
  - intros s1 o1 s2 o2 s3. exact (Pay_trans h 0 0 s1 o1 s2 o2 s3).
  - intros f s0. apply Pay_none, pot_admit.
  - intros s0 msg q Q _ _ _. exact (Pay_front h s0 msg q Q).
  - intros s0 f _ _ _. apply Pay_kill.
  - intros s0. apply Pay_finish.
Qed.

Lemma pot_enqueue h s msg tag : pot h (enqueue_tagged s msg tag) = (pot h s + cnt h (waiters_of_msg msg))%nat.
Proof.
  unfold enqueue_tagged, pot, tokens.
  destruct (Nat.ltb (length (queue s)) (qcap s) && match waiting s with [] => true | _ => false end);
    [destruct tag|]; st_simpl; rewrite ?mark_admitted_fst, ?cnt_app, ?cnt_flat_map_app; cbn [flat_map fst];
    rewrite ?app_nil_r, ?cnt_app, ?cnt_nil; lia.
Qed.

Lemma pot_try_enqueue h s msg : waiters_of_msg msg = [] -> pot h (try_enqueue s msg) = pot h s.
Proof.
  intros E. unfold try_enqueue, pot, tokens. destruct (Nat.ltb (length (queue s)) (qcap s)); auto.
  st_simpl. rewrite ?cnt_app, ?cnt_flat_map_app. cbn [flat_map]. rewrite E. cbn. lia.
Qed.

Lemma pot_set_chan h s c ch : pot h (set_chan s c ch) = pot h s.
Proof. reflexivity. Qed.
Lemma pot_drop_sink h s c : pot h (drop_sink s c) = pot h s.
Proof. unfold drop_sink. destruct (chan_of s c); reflexivity. Qed.


Lemma ptab_release h u M : (ptab h (release_reserved u M) <= ptab h M)%nat.
Proof. unfold ptab. rewrite (proj1 (proj2 (release_frame u M))). pose proof (release_wok_le h u M). lia. Qed.

Lemma Pay_single h s r : Pay h 0 s (rres_out (single_response s r)) (rres_st (single_response s r)).
Proof.
  unfold single_response, req_lookup.
  destruct (alookup id_eqb (rs_id r) (requests (m s))) as [[w|u w um|u ch um|sub]|] eqn:A; cbn [rres_out rres_st];
    try (apply Pay_same; reflexivity).
  - (* the entry goes, its waiter is completed *)
    pose proof (cnt_aremove id_eqb id_eqb_ok h waiters_of_kind _ _ _ A) as L. unfold waiters_of_kind at 2 in L. cbn [snd] in L.
    apply Pay_tables; try reflexivity. unfold ptab. cbn [m upd_m upd_unacked requests batches set_requests].
    destruct w as [w|]; [pose proof (comps_complete h s w (CResp r))|]; cbn [comps flat_map] in *; rewrite ?cnt_nil in *; lia.
  - pose proof (cnt_aremove id_eqb id_eqb_ok h waiters_of_kind _ _ _ A) as L. unfold waiters_of_kind at 2 in L. cbn [snd] in L.
    set (m1 := set_requests (m s) (aremove id_eqb (rs_id r) (requests (m s)))).
    assert (L1 : (ptab h m1 + cnt h [w] <= ptab h (m s))%nat) by (unfold m1, ptab; cbn [requests batches set_requests]; lia).
    assert (ERR : forall c, Pay h 0 s (complete s w c) (upd_m s (release_reserved u m1))).
    { intros c. apply Pay_tables; try reflexivity. pose proof (comps_complete h s w c). pose proof (ptab_release h u m1). cbn [m upd_m]. lia. }
    destruct (rs_payload r) as [raw|e]; cbn [rres_out rres_st]; [|apply ERR].
    destruct (parse_subid raw) as [sid|]; cbn [rres_out rres_st]; [|apply ERR].
    destruct (ahas subid_eqb sid _); cbn [rres_out rres_st]; [apply ERR|].
    (* the entry becomes a subscription, which holds no waiter *)
    set (m2 := set_subs _ _).
    assert (L2 : ptab h m2 = ptab h m1) by reflexivity.
    destruct (alive s w) eqn:AL; cbn [rres_out rres_st].
    + apply Pay_tables; try reflexivity. cbn [m upd_m upd_subkind upd_chans set_chan comps flat_map app]. lia.
    + unfold forward, enqueue, Pay. rewrite pot_enqueue. cbn [waiters_of_msg comps flat_map]. rewrite cnt_nil, Nat.add_0_r.
      apply (Pay_tables h s []); try reflexivity. cbn [m upd_m upd_chans set_chan comps flat_map]. rewrite cnt_nil. lia.
  - (* the entry, and perhaps the tombstone it refers to, go *)
    apply Pay_tables; try reflexivity. unfold ptab. cbn [m upd_m upd_unacked requests batches set_requests comps flat_map]. rewrite cnt_nil.
    set (r1 := aremove id_eqb (rs_id r) (requests (m s))).
    pose proof (cnt_aremove_le id_eqb h waiters_of_kind (rs_id r) (requests (m s))) as L1. fold r1 in L1.
    pose proof (cnt_aremove_le id_eqb h waiters_of_kind sub r1) as L2.
    destruct (alookup id_eqb sub r1) as [[[w|]| | |]|]; lia.
Qed.

Lemma pot_sub_deliver h s sid p : pot h (sub_deliver s sid p) = pot h s.
Proof.
  unfold sub_deliver. destruct (alookup _ _ _); auto. destruct (req_lookup _ _) as [[w|u w um|u ch um|j]|]; auto.
  destruct (chan_of s ch); auto. destruct (chan_send c p) as [c' res].
  destruct res; auto; unfold forward, enqueue; rewrite pot_enqueue; cbn; rewrite pot_set_chan; lia.
Qed.

Lemma pot_sub_close h s sid : (pot h (sub_close s sid) <= pot h s)%nat.
Proof.
  unfold sub_close. destruct (alookup _ _ _) as [rid|]; auto. destruct (req_lookup _ _) as [[w|u w um|u ch um|j]|]; auto.
  rewrite pot_drop_sink. set (m1 := set_subs _ _).
  pose proof (release_wok_le h u m1) as L2. destruct (release_frame u m1) as (_ & E2 & _).
  unfold pot, tokens. st_simpl. rewrite E2. unfold m1 in *. cbn [requests batches set_requests set_subs] in *.
  pose proof (cnt_aremove_le id_eqb h waiters_of_kind rid (requests (m s))). rewrite !cnt_app. lia.
Qed.

Lemma pot_notif_deliver h s me p : pot h (notif_deliver s me p) = pot h s.
Proof.
  unfold notif_deliver. destruct (alookup _ _ _) as [ch|]; auto. destruct (chan_of s ch); auto.
  destruct (chan_send c _) as [c' res]. destruct res; auto; rewrite pot_drop_sink; reflexivity.
Qed.

Lemma Pay_batch h s rs lo hi : Pay h 0 s (rres_out (batch_response s rs lo hi)) (rres_st (batch_response s rs lo hi)).
Proof.
  unfold batch_response. destruct (alookup range_eqb (lo, hi) (batches (m s))) as [w|] eqn:A; cbn [rres_out rres_st];
    [|apply Pay_same; reflexivity].
  pose proof (cnt_aremove range_eqb range_eqb_ok h (fun x => [snd x]) _ _ _ A) as L. rewrite <- !cnt_map in L. cbn [snd] in L.
  apply Pay_tables; try reflexivity. unfold ptab. cbn [m upd_m requests batches set_batches].
  match goal with |- context [complete s w ?c] => pose proof (comps_complete h s w c) end. lia.
Qed.

Lemma Pay_back h s fr : Pay h 0 s (rres_out (handle_back s fr)) (rres_st (handle_back s fr)).
Proof.
  apply (handle_back_with_rel (Pay h 0)).
  - intros s0. apply Pay_same. reflexivity.
  - intros s1 o1 s2 o2 s3. exact (Pay_trans h 0 0 s1 o1 s2 o2 s3).
  - apply Pay_single.
  - intros s0 sid p. apply Pay_none, pot_sub_deliver.
  - intros s0 sid. pose proof (pot_sub_close h s0 sid). unfold Pay. cbn. lia.
  - intros s0 me p. apply Pay_none, pot_notif_deliver.
  - apply Pay_batch.
Qed.

Definition front_handle (e : ev) : option handle :=
  match e with
  | FCall h _ _ | FBatch h _ | FSubscribe h _ _ _ | FSubMethod h _ | FUnsub h _ => Some h
  | _ => None
  end.
Definition fh (e : ev) : list handle := match front_handle e with Some h => [h] | None => [] end.
Definition front_handles (es : list ev) : list handle := flat_map fh es.

Lemma pot_poll_next h s sh : pot h (fst (poll_next s sh)) = pot h s.
Proof.
  unfold poll_next. destruct (chan_of s sh) as [c|]; auto. destruct (negb (c_rx c)); auto.
  destruct (c_buf c); [destruct (c_tx c)|]; reflexivity.
Qed.

Lemma Pay_enqueue h s sA msg tag : pot h sA = pot h s -> Pay h (cnt h (waiters_of_msg msg)) s [] (enqueue_tagged sA msg tag).
Proof. unfold Pay. rewrite pot_enqueue. cbn [comps flat_map]. rewrite cnt_nil. lia. Qed.

Lemma Pay_apply h s e : Pay h (cnt h (fh e)) s (snd (fst (apply s e))) (fst (fst (apply s e))).
Proof.
  assert (PN : forall sh n, Pay h n s (snd (fst (let '(s', r) := poll_next s sh in (s', @nil out, Some r))))
                                     (fst (fst (let '(s', r) := poll_next s sh in (s', @nil out, Some r))))).
  { intros sh n. pose proof (pot_poll_next h s sh) as E. destruct (poll_next s sh). apply Pay_none. exact E. }
  (* `reflexivity` below: the event updates none of the five fields `tokens` reads *)
  unfold apply, enqueue. destruct (dead s).
  - destruct e; cbn [fst snd fh front_handle].
    + apply Pay_own; reflexivity.
    + apply Pay_none; reflexivity.
    + apply Pay_own; reflexivity.
    + apply Pay_own; reflexivity.
    + apply Pay_own; reflexivity.
    + apply PN.
    + destruct (close_msg_of s sh); [destruct (chan_of s sh)|]; [apply Pay_own | apply Pay_none..]; reflexivity.
    + destruct (close_msg_of s sh); [destruct (chan_of s sh)|]; apply Pay_none; reflexivity.
    + apply Pay_none; reflexivity.
    + apply Pay_none; reflexivity.
    + apply Pay_none; reflexivity.
    + apply Pay_none; reflexivity.
    + apply Pay_none; reflexivity.
  - destruct e; cbn [fst snd fh front_handle].
    + apply Pay_enqueue; reflexivity.
    + apply Pay_enqueue; reflexivity.
    + destruct entries; cbn [fst snd]; [apply Pay_own | apply Pay_enqueue]; reflexivity.
    + destruct (bytes_eqb sub unsub); cbn [fst snd]; [apply Pay_own | apply Pay_enqueue]; reflexivity.
    + apply Pay_enqueue; reflexivity.
    + apply PN.
    + destruct (close_msg_of s sh) as [msg|] eqn:CM; cbn [fst snd]; [|apply Pay_none; reflexivity].
      unfold Pay. rewrite pot_enqueue.
      assert (W : waiters_of_msg msg = []) by (destruct (close_msg_cases _ _ _ CM) as [(sid & ->) | (me & ->)]; reflexivity).
      rewrite W. unfold pot, tokens. st_simpl. rewrite map_app, !cnt_app. cbn [map fst comps flat_map]. rewrite ?cnt_nil. lia.
    + destruct (close_msg_of s sh) as [msg|] eqn:CM; cbn [fst snd]; [|apply Pay_none; reflexivity].
      destruct (chan_of s sh); cbn [fst snd]; apply Pay_none; [|reflexivity].
      rewrite pot_try_enqueue; [reflexivity|]. destruct (close_msg_cases _ _ _ CM) as [(sid & ->) | (me & ->)]; reflexivity.
    + unfold Pay, pot, tokens. st_simpl. rewrite !cnt_app. cbn [comps flat_map cnt count_occ].
      pose proof (cnt_filter_le h (fun x : f2b * option handle => waiters_of_msg (fst x))
                    (fun x => negb (existsb (N.eqb h0) (waiters_of_msg (fst x)))) (waiting s)). lia.
    + apply Pay_none; reflexivity.
    + destruct (dying s); cbn [fst snd]; [apply Pay_none; reflexivity|].
      pose proof (Pay_back h s (classify_frame raw)) as P. destruct (handle_back s (classify_frame raw)) as [s' o | s' o f];
        cbn [rres_out rres_st fst snd] in *; unfold Pay in *; [lia|]. change (pot h (upd_dying s' f)) with (pot h s'). lia.
    + apply Pay_none; reflexivity.
    + apply Pay_none; reflexivity.
Qed.

Lemma Pay_step h s e : Pay h (cnt h (fh e)) s (snd (fst (step s e))) (fst (fst (step s e))).
Proof.
  unfold step. pose proof (Pay_apply h s e) as P1. destruct (apply s e) as [[s1 o1] r].
  pose proof (Pay_settle h s1) as P2. destruct (settle s1) as [s2 o2]. cbn [fst snd] in *.
  pose proof (Pay_trans _ _ _ _ _ _ _ _ P1 P2) as X. rewrite Nat.add_0_r in X. exact X.
Qed.

Definition outs_of (tr : list (list out * option nextres)) : list out := flat_map fst tr.

Lemma Pay_run h es : forall s, Pay h (cnt h (front_handles es)) s (outs_of (snd (run s es))) (fst (run s es)).
Proof.
  induction es as [|e es IH]; intros s; [apply Pay_same; reflexivity|].
  rewrite run_cons. cbn [fst snd]. unfold outs_of, front_handles. cbn [flat_map fst]. rewrite cnt_app.
  exact (Pay_trans _ _ _ _ _ _ _ _ (Pay_step h s e) (IH _)).
Qed.

Definition ncompl (h : handle) (o : list out) : nat :=
  length (filter (fun x => match x with OComplete h' _ => N.eqb h' h | _ => false end) o).

Lemma ncompl_cnt h o : ncompl h o = cnt h (comps o).
Proof.
  unfold ncompl, cnt, comps. induction o as [|x o IH]; cbn [filter flat_map]; auto.
  destruct x as [raw|h' c|f]; cbn [app]; auto. cbn [count_occ].
  destruct (N.eqb_spec h' h), (N.eq_dec h' h); cbn [length]; try congruence; auto.
Qed.

(* completed at most once, and not at all while still registered *)
Theorem completions_bound idstr qc bc gate es h : NoDup (front_handles es) ->
  (ncompl h (outs_of (snd (run (init idstr qc bc gate) es))) + pot h (fst (run (init idstr qc bc gate) es)) <= 1)%nat.
Proof.
  intros N. rewrite ncompl_cnt. pose proof (Pay_run h es (init idstr qc bc gate)) as P.
  pose proof (proj1 (NoDup_count_occ N.eq_dec _) N h) as C. fold (cnt h (front_handles es)) in C.
  unfold Pay in P. change (pot h (init idstr qc bc gate)) with 0%nat in P. lia.
Qed.

Lemma pot_batch s lo hi h : In ((lo, hi), h) (batches (m s)) -> (0 < pot h s)%nat.
Proof.
  intros Hi. unfold pot, tokens. rewrite !cnt_app.
  assert (X : (0 < cnt h (map snd (batches (m s))))%nat) by (apply count_occ_In, in_map_iff; exists ((lo, hi), h); auto).
  lia.
Qed.


Definition tcall (s : st) (h : handle) (i : id) : Prop :=
  In (i, KCall (Some h)) (requests (m s)) \/ exists raw, In (MRequest i (Some h) raw) (qmsgs s).
Definition tbatch (s : st) (h : handle) (lo hi : N) : Prop :=
  In ((lo, hi), h) (batches (m s)) \/ exists raw, In (MBatch lo hi h raw) (qmsgs s).

Definition Sub (s s' : st) : Prop :=
  (forall h i, tcall s' h i -> tcall s h i) /\ (forall h lo hi, tbatch s' h lo hi -> tbatch s h lo hi).

Lemma Sub_refl s : Sub s s.
Proof. split; auto. Qed.
Lemma Sub_trans s1 s2 s3 : Sub s1 s2 -> Sub s2 s3 -> Sub s1 s3.
Proof. intros (a & b) (c & d). split; auto. Qed.

Lemma Sub_same s s' : SameC s s' -> Sub s s'.
Proof.
  intros C. unfold Sub, tcall, tbatch. rewrite (SameC_qmsgs _ _ C), (sc_m _ _ C). auto.
Qed.

Lemma Sub_build s s' :
  (forall h i, In (i, KCall (Some h)) (requests (m s')) -> tcall s h i) ->
  (forall h lo hi, In ((lo, hi), h) (batches (m s')) -> tbatch s h lo hi) ->
  (forall x, In x (qmsgs s') -> In x (qmsgs s)) -> Sub s s'.
Proof.
  intros A B C. split.
  - intros h i [H | (raw & H)]; auto. right. eauto.
  - intros h lo hi [H | (raw & H)]; auto. right. eauto.
Qed.

Lemma handle_front_m s msg :
  (forall h i, In (i, KCall (Some h)) (requests (m (fst (handle_front s msg)))) ->
     In (i, KCall (Some h)) (requests (m s)) \/ exists raw, msg = MRequest i (Some h) raw) /\
  (forall h lo hi, In ((lo, hi), h) (batches (m (fst (handle_front s msg)))) ->
     In ((lo, hi), h) (batches (m s)) \/ exists raw, msg = MBatch lo hi h raw).
Proof.
  destruct msg as [lo hi h raw | raw | i w raw | si ui um h raw | me h | me | sid]; cbn [handle_front].
  - destruct (ahas _ _ _); auto. rewrite wire_m. st_simpl. cbn [requests batches set_batches]. split; auto.
    intros h0 lo0 hi0 [E | H]; auto. inv E. eauto.
  - rewrite wire_m. auto.
  - destruct (ahas _ _ _); auto. rewrite wire_m. st_simpl. cbn [requests batches set_requests]. split; auto.
    intros h0 i0 [E | H]; auto. inv E. eauto.
  - destruct (_ && _); auto. rewrite wire_m. st_simpl. cbn [requests batches set_requests]. split; auto.
    intros h0 i0 [E | [E | H]]; auto; inv E.
  - destruct (ahas _ _ _); auto. destruct (alive s h); cbn [fst]; st_simpl; auto.
  - destruct (alookup _ _ _); auto. cbn [fst]. rewrite drop_sink_m. st_simpl. auto.
  - unfold do_unsubscribe. destruct (alookup _ _ _); auto. destruct (req_lookup _ _) as [[w|u w um|u ch um|j]|]; auto.
    rewrite wire_m. st_simpl. rewrite drop_sink_m. st_simpl. cbn [requests batches set_requests set_subs]. split; auto.
    intros h0 i0 H. left. apply (In_aset id_eqb id_eqb_ok) in H as [(_ & E) | (H & _)]; [discriminate|].
    apply (In_aset id_eqb id_eqb_ok) in H as [(_ & E) | (H & _)]; [discriminate | auto].
Qed.

Lemma front_sub s0 msg q : queue s0 = msg :: q -> Sub s0 (fst (handle_front (upd_queue s0 q (waiting s0)) msg)).
Proof.
  intros Q. set (s := upd_queue s0 q (waiting s0)).
  destruct (handle_front_q s msg) as (E1 & E2). destruct (handle_front_m s msg) as (A & B).
  assert (QM : qmsgs s0 = msg :: qmsgs s) by (unfold qmsgs, s; st_simpl; rewrite Q; reflexivity).
  apply Sub_build.
  - intros h i H. apply A in H as [H | (raw & ->)]; [left; exact H|]. right. exists raw. rewrite QM. left; auto.
  - intros h lo hi H. apply B in H as [H | (raw & ->)]; [left; exact H|]. right. exists raw. rewrite QM. left; auto.
  - intros x Hx. rewrite QM. right. unfold qmsgs in *. rewrite E1, E2 in Hx. exact Hx.
Qed.

Lemma settle_sub s : Sub s (fst (settle s)).
Proof.
  apply (settle_rel (fun s _ s' => Sub s s')).
  - apply Sub_refl.
  - intros s1 _ s2 _ s3. apply Sub_trans.
  - intros f s0. apply Sub_build; rewrite ?(sq_m _ _ (admit_waiting_sameq f s0)), ?admit_waiting_qmsgs; auto; left; auto.
  - intros s0 msg q Q _ _ _. apply front_sub, Q.
  - intros s0 f _ _ _. apply Sub_build; unfold kill; cbn [fst]; st_simpl; cbn; tauto.
  - intros s0. apply Sub_same, finish_unsubs_same.
Qed.

Lemma qmsgs_enqueue s msg tag x : In x (qmsgs (enqueue_tagged s msg tag)) -> x = msg \/ In x (qmsgs s).
Proof.
  intros H. eapply Permutation_in in H; [|symmetry; apply enqueue_tagged_perm]. destruct H; auto.
Qed.

Lemma Sub_add_plain s s' msg : m s' = m s -> (forall x, In x (qmsgs s') -> x = msg \/ In x (qmsgs s)) ->
  (forall i h raw, msg <> MRequest i (Some h) raw) -> (forall lo hi h raw, msg <> MBatch lo hi h raw) -> Sub s s'.
Proof.
  intros E I N1 N2. split.
  - intros h i [H | (raw & H)]; [left; congruence|]. apply I in H as [H | H]; [symmetry in H; apply N1 in H; contradiction|].
    right; eauto.
  - intros h lo hi [H | (raw & H)]; [left; congruence|]. apply I in H as [H | H]; [symmetry in H; apply N2 in H; contradiction|].
    right; eauto.
Qed.

Lemma Sub_enqueue_plain s msg tag : (forall i h raw, msg <> MRequest i (Some h) raw) -> (forall lo hi h raw, msg <> MBatch lo hi h raw) ->
  Sub s (enqueue_tagged s msg tag).
Proof.
  intros N1 N2. apply (Sub_add_plain s _ msg); auto.
  - destruct (enqueue_tagged_sameq s msg tag); auto.
  - apply qmsgs_enqueue.
Qed.

Lemma Sub_try_enqueue_plain s msg : (forall i h raw, msg <> MRequest i (Some h) raw) -> (forall lo hi h raw, msg <> MBatch lo hi h raw) ->
  Sub s (try_enqueue s msg).
Proof.
  intros N1 N2. apply (Sub_add_plain s _ msg); auto.
  - destruct (try_enqueue_sameq s msg); auto.
  - unfold try_enqueue. destruct (Nat.ltb (length (queue s)) (qcap s)); auto. unfold qmsgs. st_simpl.
    intros x. rewrite !in_app_iff. cbn [In]. intuition auto.
Qed.

Lemma Sub_forward s sid : Sub s (forward s (MSubClosed sid)).
Proof. apply Sub_enqueue_plain; discriminate. Qed.

Lemma Sub_shrink s s' : queue s' = queue s -> waiting s' = waiting s ->
  (forall x, In x (requests (m s')) -> In x (requests (m s)) \/ (forall h, snd x <> KCall (Some h))) ->
  (forall x, In x (batches (m s')) -> In x (batches (m s))) -> Sub s s'.
Proof.
  intros E1 E2 A B. apply Sub_build.
  - intros h i H. apply A in H as [H | H]; [left; auto | exfalso; apply (H h); reflexivity].
  - intros h lo hi H. left. auto.
  - unfold qmsgs. rewrite E1, E2. auto.
Qed.

Lemma single_response_sub s r : Sub s (rres_st (single_response s r)).
Proof.
  unfold single_response, req_lookup.
  destruct (alookup id_eqb (rs_id r) (requests (m s))) as [[w|u w um|u ch um|sub]|] eqn:A; cbn [rres_st]; try apply Sub_refl.
  - apply Sub_shrink; st_simpl; auto. cbn. intros [j k] H. apply (In_aremove id_eqb id_eqb_ok) in H. tauto.
  - set (m1 := set_requests (m s) (aremove id_eqb (rs_id r) (requests (m s)))).
    assert (ERR : Sub s (upd_m s (release_reserved u m1))).
    { apply Sub_shrink; st_simpl; auto.
      - intros [j k] H. apply release_sub in H. cbn in H. apply (In_aremove id_eqb id_eqb_ok) in H. tauto.
      - destruct (release_frame u m1) as (_ & -> & _). auto. }
    destruct (rs_payload r) as [raw|e]; cbn [rres_st]; [|exact ERR].
    destruct (parse_subid raw) as [sid|]; cbn [rres_st]; [|exact ERR].
    destruct (ahas subid_eqb sid _); cbn [rres_st]; [exact ERR|].
    set (m2 := set_subs _ _).
    assert (OK : Sub s (upd_m s m2)).
    { apply Sub_shrink; st_simpl; auto. unfold m2, m1. cbn [requests set_requests set_subs].
      intros [j k] [E | H]; [inv E; right; discriminate|]. apply (In_aremove id_eqb id_eqb_ok) in H. tauto. }
    destruct (alive s w); cbn [rres_st].
    + eapply Sub_trans; [exact OK|]. apply Sub_same. constructor; reflexivity.
    + eapply Sub_trans; [exact OK|]. eapply Sub_trans; [|apply Sub_forward]. apply Sub_same. constructor; reflexivity.
  - apply Sub_shrink; st_simpl; auto. cbn [requests set_requests]. intros [j k] H. left.
    destruct (alookup id_eqb sub (aremove id_eqb (rs_id r) (requests (m s)))) as [[[w|]| | |]|];
      repeat (apply (In_aremove id_eqb id_eqb_ok) in H as (H & _)); auto.
Qed.

Lemma sub_deliver_sub s sid p : Sub s (sub_deliver s sid p).
Proof.
  unfold sub_deliver. destruct (alookup _ _ _); [|apply Sub_refl]. destruct (req_lookup _ _) as [[w|u w um|u ch um|j]|]; try apply Sub_refl.
  destruct (chan_of s ch); [|apply Sub_refl]. destruct (chan_send c p) as [c' res].
  destruct res; try (apply Sub_same; apply set_chan_same);
    (eapply Sub_trans; [apply (Sub_same _ _ (set_chan_same s ch c')) | apply Sub_forward]).
Qed.

Lemma sub_close_sub s sid : Sub s (sub_close s sid).
Proof.
  unfold sub_close. destruct (alookup _ _ _) as [rid|]; [|apply Sub_refl].
  destruct (req_lookup _ _) as [[w|u w um|u ch um|j]|]; try apply Sub_refl.
  set (m1 := set_subs _ _). eapply Sub_trans; [|apply Sub_same; apply drop_sink_same].
  apply Sub_shrink; st_simpl; auto.
  - intros [j k] H. apply release_sub in H. cbn in H. apply (In_aremove id_eqb id_eqb_ok) in H. tauto.
  - destruct (release_frame u m1) as (_ & -> & _). auto.
Qed.

Lemma notif_deliver_sub s me p : Sub s (notif_deliver s me p).
Proof.
  unfold notif_deliver. destruct (alookup _ _ _) as [ch|]; [|apply Sub_refl]. destruct (chan_of s ch); [|apply Sub_refl].
  destruct (chan_send c _) as [c' res].
  destruct res; try (apply Sub_same; apply set_chan_same);
    (eapply Sub_trans; [apply (Sub_same _ _ (set_chan_same s ch c'))|]; eapply Sub_trans; [|apply Sub_same; apply drop_sink_same];
     apply Sub_shrink; st_simpl; auto).
Qed.

Lemma batch_response_sub s rs lo hi : Sub s (rres_st (batch_response s rs lo hi)).
Proof.
  unfold batch_response. destruct (alookup range_eqb _ _); cbn [rres_st]; [|apply Sub_refl].
  apply Sub_shrink; st_simpl; auto. cbn. intros [j k] H. apply (In_aremove range_eqb range_eqb_ok) in H. tauto.
Qed.

Lemma handle_back_sub s fr : Sub s (rres_st (handle_back s fr)).
Proof.
  apply (handle_back_with_rel (fun s _ s' => Sub s s')).
  - apply Sub_refl.
  - intros s1 _ s2 _ s3. apply Sub_trans.
  - apply single_response_sub.
  - apply sub_deliver_sub.
  - apply sub_close_sub.
  - apply notif_deliver_sub.
  - apply batch_response_sub.
Qed.

Definition new_call (s : st) (e : ev) (h : handle) (i : id) : Prop :=
  dead s = false /\ exists me p, e = FCall h me p /\ i = mk_id s (next_id s).
Definition new_batch (s : st) (e : ev) (h : handle) (lo hi : N) : Prop :=
  dead s = false /\ exists entries, e = FBatch h entries /\ entries <> [] /\ lo = next_id s /\ hi = lo + N.of_nat (length entries).

Lemma apply_sub s e : let s1 := fst (fst (apply s e)) in
  (forall h i, tcall s1 h i -> tcall s h i \/ new_call s e h i) /\
  (forall h lo hi, tbatch s1 h lo hi -> tbatch s h lo hi \/ new_batch s e h lo hi).
Proof.
  cbv zeta.
  assert (FROM : forall s1, Sub s s1 ->
            (forall h i, tcall s1 h i -> tcall s h i \/ new_call s e h i) /\
            (forall h lo hi, tbatch s1 h lo hi -> tbatch s h lo hi \/ new_batch s e h lo hi)).
  { intros s1 (A & B). split; auto. }
  assert (ENQ : forall s0 msg, m s0 = m s -> qmsgs s0 = qmsgs s ->
            (forall h i raw, msg = MRequest i (Some h) raw -> new_call s e h i) ->
            (forall h lo hi raw, msg = MBatch lo hi h raw -> new_batch s e h lo hi) ->
            (forall h i, tcall (enqueue s0 msg) h i -> tcall s h i \/ new_call s e h i) /\
            (forall h lo hi, tbatch (enqueue s0 msg) h lo hi -> tbatch s h lo hi \/ new_batch s e h lo hi)).
  { intros s0 msg E1 E2 N1 N2. unfold enqueue. destruct (enqueue_tagged_sameq s0 msg None). split.
    - intros h i [H | (raw & H)]; [left; left; congruence|]. apply qmsgs_enqueue in H as [H | H]; [right; eauto|].
      left; right. exists raw. congruence.
    - intros h lo hi [H | (raw & H)]; [left; left; congruence|]. apply qmsgs_enqueue in H as [H | H]; [right; eauto|].
      left; right. exists raw. congruence. }
  unfold apply. destruct (dead s) eqn:D.
  - destruct e; cbn [fst]; try (apply FROM; apply Sub_refl).
    + pose proof (poll_next_same s sh). destruct (poll_next s sh). apply FROM. apply Sub_same; auto.
    + destruct (close_msg_of s sh); [|apply FROM; apply Sub_refl]. destruct (chan_of s sh); apply FROM; [|apply Sub_refl].
      apply Sub_same. constructor; reflexivity.
    + destruct (close_msg_of s sh); [|apply FROM; apply Sub_refl]. destruct (chan_of s sh); apply FROM; [|apply Sub_refl].
      apply Sub_same. constructor; reflexivity.
  - destruct e; cbn [fst].
    + apply ENQ; auto; [|discriminate]. intros h0 i raw E. inv E. split; auto. eauto.
    + apply ENQ; auto; discriminate.
    + destruct entries as [|e0 es]; [apply FROM; apply Sub_refl|]. cbn [fst]. apply ENQ; auto; [discriminate|].
      intros h0 lo hi raw E. inv E. split; auto. exists (e0 :: es). repeat split; auto. discriminate.
    + destruct (bytes_eqb sub unsub); [apply FROM; apply Sub_refl|]. cbn [fst]. apply ENQ; auto; discriminate.
    + apply ENQ; auto; discriminate.
    + pose proof (poll_next_same s sh). destruct (poll_next s sh). apply FROM. apply Sub_same; auto.
    + destruct (close_msg_of s sh) as [msg|] eqn:CM; [|apply FROM; apply Sub_refl]. cbn [fst].
      match goal with |- context [enqueue_tagged ?a msg _] => set (s1 := a) end. apply FROM.
      apply (Sub_trans s s1); [apply Sub_same; constructor; reflexivity|].
      destruct (close_msg_cases _ _ _ CM) as [(sid & ->) | (me & ->)]; apply Sub_enqueue_plain; discriminate.
    + destruct (close_msg_of s sh) as [msg|] eqn:CM; [|apply FROM; apply Sub_refl].
      destruct (chan_of s sh); [|apply FROM; apply Sub_refl]. cbn [fst].
      match goal with |- context [try_enqueue ?a msg] => set (s1 := a) end. apply FROM.
      apply (Sub_trans s s1); [apply Sub_same; constructor; reflexivity|].
      destruct (close_msg_cases _ _ _ CM) as [(sid & ->) | (me & ->)]; apply Sub_try_enqueue_plain; discriminate.
    + apply FROM. apply Sub_build; st_simpl; try (left; auto; fail).
      intros x. unfold qmsgs. st_simpl. rewrite !in_app_iff. intros [H | H]; auto. right. eapply in_map_filter; eauto.
    + apply FROM. apply Sub_same. constructor; reflexivity.
    + destruct (dying s); [apply FROM; apply Sub_refl|].
      pose proof (handle_back_sub s (classify_frame raw)) as B.
      destruct (handle_back s (classify_frame raw)) as [s' o | s' o f]; cbn [rres_st fst] in *; apply FROM; [exact B|].
      apply (Sub_trans s s'); [exact B|]. apply Sub_same. constructor; reflexivity.
    + apply FROM. apply Sub_same. constructor; reflexivity.
    + apply FROM. apply Sub_same. constructor; reflexivity.
Qed.

Lemma step_sub s e : let s2 := fst (fst (step s e)) in
  (forall h i, tcall s2 h i -> tcall s h i \/ new_call s e h i) /\
  (forall h lo hi, tbatch s2 h lo hi -> tbatch s h lo hi \/ new_batch s e h lo hi).
Proof.
  cbv zeta. unfold step. pose proof (apply_sub s e) as (A & B). destruct (apply s e) as [[s1 o1] r].
  pose proof (settle_sub s1) as (C & D). destruct (settle s1) as [s2 o2]. cbn [fst] in *. split; auto.
Qed.

Definition s_at (idstr : bool) (qc bc : nat) (gate : bool) (es : list ev) : st := fst (run (init idstr qc bc gate) es).

Section Hist.
  Variables (idstr : bool) (qc bc : nat) (gate : bool).
  Notation at_ := (s_at idstr qc bc gate).

  Definition issued_call (hist : list ev) (h : handle) (i : id) : Prop :=
    exists es1 me p es2, hist = es1 ++ FCall h me p :: es2 /\ dead (at_ es1) = false /\ i = mk_id (at_ es1) (next_id (at_ es1)).
  Definition issued_batch (hist : list ev) (h : handle) (lo hi : N) : Prop :=
    exists es1 entries es2, hist = es1 ++ FBatch h entries :: es2 /\ dead (at_ es1) = false /\ entries <> [] /\ lo = next_id (at_ es1) /\ hi = lo + N.of_nat (length entries).

  Lemma at_snoc es e : at_ (es ++ [e]) = fst (fst (step (at_ es) e)).
  Proof. unfold s_at. rewrite run_app. cbn [run]. destruct (step _ e) as [[s1 o] r]. reflexivity. Qed.

  Lemma origin hist : (forall h i, tcall (at_ hist) h i -> issued_call hist h i) /\
                      (forall h lo hi, tbatch (at_ hist) h lo hi -> issued_batch hist h lo hi).
  Proof.
    induction hist as [|e hist IH] using rev_ind.
    - split.
      + intros h i [H | (raw & H)]; cbn in H; contradiction.
      + intros h lo hi [H | (raw & H)]; cbn in H; contradiction.
    - destruct IH as (IH1 & IH2). rewrite at_snoc. destruct (step_sub (at_ hist) e) as (A & B). split.
      + intros h i H. apply A in H as [H | (D & me & p & -> & ->)].
        * apply IH1 in H as (es1 & me & p & es2 & -> & X). exists es1, me, p, (es2 ++ [e]). rewrite <- app_assoc. auto.
        * exists hist, me, p, []. auto.
      + intros h lo hi H. apply B in H as [H | (D & entries & -> & NE & -> & ->)].
        * apply IH2 in H as (es1 & en & es2 & -> & X). exists es1, en, (es2 ++ [e]). rewrite <- app_assoc. auto.
        * exists hist, entries, []. auto.
  Qed.
End Hist.

Lemma nodup_flat_map_split {A B} (f : A -> list B) (y : B) : forall a x b a' x' b',
  NoDup (flat_map f (a ++ x :: b)) -> a ++ x :: b = a' ++ x' :: b' -> In y (f x) -> In y (f x') ->
  a = a' /\ x = x' /\ b = b'.
Proof.
  assert (OFF : forall x l x' b', NoDup (flat_map f (x :: l ++ x' :: b')) -> In y (f x) -> In y (f x') -> False).
  { intros x l x' b' N Hx Hx'. cbn [flat_map] in N. apply nodup_app in N as (_ & _ & N). apply (N y Hx).
    rewrite flat_map_app. apply in_app_iff. right. apply in_app_iff. left. exact Hx'. }
  induction a as [|z a IH]; intros x b [|z' a'] x' b' N E Hx Hx'; cbn [app] in *; injection E as -> E.
  - auto.
  - subst b. exfalso. eapply OFF; eauto.
  - subst b'. exfalso. eapply OFF; eauto.
  - cbn [flat_map] in N. apply nodup_app in N as (_ & N & _). destruct (IH x b a' x' b' N E Hx Hx') as (-> & X). auto.
Qed.
