(* The HTTP client (Model/HttpBatch.v).  C12: the fill loop either fails the whole call or returns exactly n entries,
   entry j being the last reply that carries id lo+j (else the placeholder error); shares `fill`, `entry_of`,
   `filled_of`, `ids_of_range` with the WebSocket side (Proofs/ClientMgrC12.v).  C03, at the end: a single call yields
   Ok only from a reply bearing its own id. *)
From Coq Require Import List NArith ZArith Bool Lia Permutation.
From JV Require Import Base.Bytes Base.Dec Model.Wire Model.ClientMgr Model.HttpBatch Proofs.ClientDispatchFacts Proofs.ClientMgrC12.
Import ListNotations.
Local Open Scope N_scope.
Local Arguments N.add : simpl never.
Local Arguments N.sub : simpl never.
Local Arguments N.ltb : simpl never.
Local Arguments N.leb : simpl never.

Definition id_in_range (lo n : N) (r : response) : Prop :=
  exists k, id_as_number (rs_id r) = Some k /\ lo <= k < lo + n.

Lemma range_test lo n k : ((lo <=? k) && (k - lo <? n))%bool = true <-> lo <= k < lo + n.
Proof. rewrite andb_true_iff, N.leb_le, N.ltb_lt. lia. Qed.

Lemma http_fill_ok lo n : forall rs acc out,
  http_fill lo n rs acc = HOk out -> out = fill lo rs acc /\ Forall (id_in_range lo n) rs.
Proof.
  induction rs as [|r rs IH]; intros acc out H; simpl in H.
  - injection H as <-. split; [reflexivity|constructor].
  - destruct (id_as_number (rs_id r)) as [k|] eqn:Ek; [|discriminate].
    destruct ((lo <=? k) && (k - lo <? n))%bool eqn:Et; [|discriminate].
    apply IH in H as [-> HF]. split.
    + unfold fill. simpl. rewrite Ek. reflexivity.
    + constructor; [|exact HF]. exists k. split; [exact Ek|]. now apply range_test.
Qed.

Lemma http_fill_all_in_range lo n : forall rs acc,
  Forall (id_in_range lo n) rs -> http_fill lo n rs acc = HOk (fill lo rs acc).
Proof.
  induction rs as [|r rs IH]; intros acc HF; [reflexivity|].
  apply Forall_cons_iff in HF as [[k [Ek Hk]] HF']. cbn [http_fill]. rewrite Ek.
  apply range_test in Hk. rewrite Hk, IH by exact HF'.
  unfold fill. cbn [fold_left]. rewrite Ek. reflexivity.
Qed.

Lemma http_fill_err lo n : forall rs acc e,
  http_fill lo n rs acc = HErr e ->
  exists pre r post, rs = pre ++ r :: post /\ Forall (id_in_range lo n) pre /\
    ((e = HBadId /\ id_as_number (rs_id r) = None) \/
     (e = HNotPending /\ exists k, id_as_number (rs_id r) = Some k /\ ~ (lo <= k < lo + n))).
Proof.
  induction rs as [|r rs IH]; intros acc e H; simpl in H; [discriminate|].
  destruct (id_as_number (rs_id r)) as [k|] eqn:Ek.
  - destruct ((lo <=? k) && (k - lo <? n))%bool eqn:Et.
    + apply IH in H as [pre [r' [post [-> [HF Hc]]]]]. exists (r :: pre), r', post.
      split; [reflexivity|]. split; [|exact Hc]. constructor; [|exact HF].
      exists k. split; [exact Ek|]. now apply range_test.
    + injection H as <-. exists [], r, rs. split; [reflexivity|]. split; [constructor|].
      right. split; [reflexivity|]. exists k. split; [exact Ek|]. intro Hk. apply range_test in Hk. congruence.
  - injection H as <-. exists [], r, rs. split; [reflexivity|]. split; [constructor|]. left. auto.
Qed.

Lemma http_batch_some lo n rs filled :
  http_batch lo n rs = Some filled <->
  (forall r, In r rs -> id_in_range lo n r) /\ filled = filled_of lo (N.to_nat n) rs.
Proof.
  unfold http_batch, http_batch_r. split.
  - destruct (http_fill lo n rs (repeat placeholder (N.to_nat n))) as [out|e] eqn:E; [|discriminate].
    intro H. injection H as <-. apply http_fill_ok in E as [-> HF]. split; [|reflexivity].
    now apply Forall_forall.
  - intros [HF ->]. apply Forall_forall in HF. rewrite (http_fill_all_in_range lo n rs _ HF). reflexivity.
Qed.

Lemma parse_all_spec : forall ts rs, parse_all ts = Some rs -> map parse_response ts = map Some rs.
Proof.
  induction ts as [|t ts IH]; intros rs H; simpl in H.
  - injection H as <-. reflexivity.
  - destruct (parse_response t) as [r|] eqn:E; [|discriminate].
    destruct (parse_all ts) as [rs'|]; [|discriminate]. injection H as <-. simpl. rewrite E, (IH rs' eq_refl). reflexivity.
Qed.

Definition outcome_of (r : response) : sres :=
  match rs_payload r with PResult raw => SOk raw | PError e => SCall e end.

Theorem http_single_own_id : forall (i : id) (r : response),
  rs_id r = i -> http_single_resp i r = outcome_of r.
Proof.
  intros i r H. unfold http_single_resp, outcome_of. destruct (rs_payload r); [|reflexivity].
  apply id_eqb_ok in H. now rewrite H.
Qed.

(* an error object under a foreign id is still reported as the call's error: the code turns the reply into
   ResponseSuccess before it looks at the id *)
Theorem http_single_foreign_id : forall (i : id) (r : response),
  rs_id r <> i ->
  http_single_resp i r = match rs_payload r with PResult _ => SErr HNotPending | PError e => SCall e end /\
  forall raw, http_single_resp i r <> SOk raw.
Proof.
  intros i r H. unfold http_single_resp. destruct (rs_payload r) as [raw0|e].
  - destruct (id_eqb (rs_id r) i) eqn:E; [apply id_eqb_ok in E; contradiction|]. split; [reflexivity|discriminate].
  - split; [reflexivity|discriminate].
Qed.

Theorem http_single_ok : forall (i : id) (body raw : bytes),
  http_single i body = SOk raw <->
  exists text single r,
    HttpGate.read_body [] [HttpGate.FData body] http_max_response = HttpGate.RbOk text single /\
    parse_response text = Some r /\ rs_id r = i /\ rs_payload r = PResult raw.
Proof.
  intros i body raw. unfold http_single. split.
  - destruct (HttpGate.read_body [] [HttpGate.FData body] http_max_response) as [text single| | |] eqn:Eb; try discriminate.
    destruct (parse_response text) as [r|] eqn:Ep; [|discriminate].
    unfold http_single_resp. destruct (rs_payload r) as [raw0|e] eqn:Epl; [|discriminate].
    destruct (id_eqb (rs_id r) i) eqn:E; [|discriminate]. intro H. injection H as ->.
    apply id_eqb_ok in E. exists text, single, r. auto.
  - intros [text [single [r [Eb [Ep [Ei Epl]]]]]]. rewrite Eb, Ep. unfold http_single_resp. rewrite Epl.
    apply id_eqb_ok in Ei. now rewrite Ei.
Qed.
