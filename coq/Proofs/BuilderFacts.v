(* Proofs for Model/Builder.v (C20).  A builder is followed at two levels.  Buffer level, for any pair of brackets:
   what a sequence of inserts leaves in the buffer and what `build` returns (`inserts_empty`, `build_state`,
   `total_of_raw`); the object builder is the array builder over key:value pieces (`insert_named_entry`).  Text level:
   the built text is read back by the lenient scanner (`raw_text_array`, `raw_text_object`) and by the strict parser
   (`parse_array`, `parse_object`); `skip_elems`/`skip_members` and `parse_elems`/`parse_members` are four different
   fixpoints of the JSON model, so these stand twice, and what they share is one item step each (`lenient_item`,
   `strict_item`). *)
From JV Require Import Base.Bytes Base.Dec Base.Utf8 Json.Json Json.JsonSer Json.JsonParse Json.JsonWf.
From JV Require Import Proofs.JsonFacts Model.Builder.
Local Arguments ser_str : simpl never.

Definition buf_body (ps : list bytes) : bytes := concat (map (fun p => p ++ [x2c]) ps).
(* the buffer after the pieces ps went in *)
Definition buf_state (s : byte) (ps : list bytes) : bytes :=
  match ps with [] => [] | _ :: _ => s :: buf_body ps end.
Definition kv_piece (k t : bytes) : bytes := ser_str k ++ x3a :: t.

Lemma body_snoc ps p : buf_body (ps ++ [p]) = buf_body ps ++ p ++ [x2c].
Proof. unfold buf_body. rewrite map_app, concat_app. cbn. rewrite app_nil_r. reflexivity. Qed.

Lemma state_snoc s ps p : buf_state s (ps ++ [p]) = s :: buf_body ps ++ p ++ [x2c].
Proof.
  unfold buf_state. destruct (ps ++ [p]) eqn:E.
  - apply app_eq_nil in E as [_ E]. discriminate E.
  - rewrite <- E, body_snoc. reflexivity.
Qed.

Lemma firstn_length_app {A} (l p : list A) : firstn (length l) (l ++ p) = l.
Proof. induction l as [|x l IH]; cbn; [reflexivity | rewrite IH; reflexivity]. Qed.

Lemma body_join qs p : buf_body qs ++ p = join [x2c] (qs ++ [p]).
Proof.
  induction qs as [|q qs IH]; [reflexivity|].
  cbn [app]. destruct (qs ++ [p]) as [|y l] eqn:E.
  - apply app_eq_nil in E as [_ E]. discriminate E.
  - rewrite join_cons2, <- IH. unfold buf_body. cbn [map concat]. rewrite <- !app_assoc. reflexivity.
Qed.

Lemma join_concat p ps : join [x2c] (p :: ps) = p ++ concat (map (cons x2c) ps).
Proof.
  revert p. induction ps as [|q ps IH]; intro p.
  - cbn. rewrite app_nil_r. reflexivity.
  - rewrite join_cons2, IH. reflexivity.
Qed.

Lemma snoc_cases {A} (l : list A) : l = [] \/ exists qs p, l = qs ++ [p].
Proof.
  destruct l as [|x l]; [left; reflexivity|]. right.
  destruct (@exists_last A (x :: l)) as (qs & p & E); [discriminate|]. exists qs, p. exact E.
Qed.

(* a failed insert: the bytes written after entry are cut off again *)
Lemma insert_fail b p : insert b (SFail p) = (b, false).
Proof.
  destruct b as [[|c l] s e]; unfold insert, insert_old, maybe_initialize, to_writer, truncate, set_buf;
    cbn [buf b_start b_end length firstn app]; [reflexivity|].
  rewrite firstn_length_app. reflexivity.
Qed.

Lemma insert_named_fail b k p : insert_named b k (SFail p) = (b, false).
Proof.
  destruct b as [[|c l] s e]; unfold insert_named, insert_named_old, maybe_initialize, to_writer, truncate, push, set_buf;
    cbn [buf b_start b_end length firstn app]; [reflexivity|].
  rewrite <- !app_assoc, firstn_length_app. reflexivity.
Qed.

Lemma insert_named_ok_snd b k t : snd (insert_named b k (SOk t)) = true.
Proof. reflexivity. Qed.

Lemma insert_ok_state s e ps t :
  insert {| buf := buf_state s ps; b_start := s; b_end := e |} (SOk t) =
  ({| buf := buf_state s (ps ++ [t]); b_start := s; b_end := e |}, true).
Proof.
  rewrite state_snoc.
  unfold insert, insert_old, maybe_initialize, to_writer, push, set_buf.
  destruct ps as [|p ps]; cbn [buf_state buf b_start b_end app]; rewrite <- ?app_assoc; reflexivity.
Qed.

(* An object builder is an array builder whose items are the pieces "key":value. *)
Definition kv_entry (kv : bytes * sres) : sres :=
  match snd kv with SOk t => SOk (kv_piece (fst kv) t) | SFail p => SFail p end.

Lemma insert_named_entry b k v : insert_named b k v = insert b (kv_entry (k, v)).
Proof.
  destruct v as [t|p]; [|unfold kv_entry; cbn [snd]; rewrite insert_fail; apply insert_named_fail].
  cbv [insert_named insert insert_named_old insert_old to_writer push set_buf kv_entry kv_piece fst snd buf b_start b_end].
  rewrite <- !app_assoc. reflexivity.
Qed.

Fixpoint ok_texts (ops : list sres) : list bytes :=
  match ops with
  | [] => []
  | SOk t :: r => t :: ok_texts r
  | SFail _ :: r => ok_texts r
  end.
Fixpoint ok_pieces (ops : list (bytes * sres)) : list (bytes * bytes) :=
  match ops with
  | [] => []
  | (k, SOk t) :: r => (k, t) :: ok_pieces r
  | (_, SFail _) :: r => ok_pieces r
  end.
Definition piece_of (kt : bytes * bytes) : bytes := kv_piece (fst kt) (snd kt).

Lemma inserts_state s e ops : forall ps,
  inserts {| buf := buf_state s ps; b_start := s; b_end := e |} ops =
  ({| buf := buf_state s (ps ++ ok_texts ops); b_start := s; b_end := e |}, map sres_is_ok ops).
Proof.
  unfold inserts. induction ops as [|[t|p] ops IH]; intro ps; cbn [inserts_with ok_texts map sres_is_ok].
  - rewrite app_nil_r. reflexivity.
  - rewrite insert_ok_state, IH, <- app_assoc. reflexivity.
  - rewrite insert_fail, IH. reflexivity.
Qed.

Lemma inserts_empty s e ops :
  inserts {| buf := []; b_start := s; b_end := e |} ops =
  ({| buf := buf_state s (ok_texts ops); b_start := s; b_end := e |}, map sres_is_ok ops).
Proof. exact (inserts_state s e ops []). Qed.

Lemma inserts_named_entries ops : forall b, inserts_named b ops = inserts b (map kv_entry ops).
Proof.
  unfold inserts_named, inserts. induction ops as [|[k v] ops IH]; intro b; [reflexivity|].
  cbn [inserts_named_with inserts_with map]. rewrite insert_named_entry.
  destruct (insert b (kv_entry (k, v))) as [b1 ok]. rewrite IH. reflexivity.
Qed.

Lemma entries_texts ops : ok_texts (map kv_entry ops) = map piece_of (ok_pieces ops).
Proof. induction ops as [|[k [t|p]] ops IH]; [reflexivity | cbn; f_equal; exact IH | exact IH]. Qed.

Lemma entries_ok ops : map sres_is_ok (map kv_entry ops) = map (fun kv => sres_is_ok (snd kv)) ops.
Proof. rewrite map_map. apply map_ext. intros [k [t|p]]; reflexivity. Qed.

Lemma build_state s e ts : ts <> [] ->
  build {| buf := buf_state s ts; b_start := s; b_end := e |} =
  match raw_text (s :: join [x2c] ts ++ [e]) with Some t' => BSome t' | None => BPanic end.
Proof.
  intro N. destruct (snoc_cases ts) as [-> | (qs & p & ->)]; [congruence|].
  rewrite state_snoc, <- body_join. unfold build. cbn [buf b_end].
  replace (s :: buf_body qs ++ p ++ [x2c]) with ((s :: buf_body qs ++ p) ++ [x2c])
    by (cbn [app]; rewrite <- app_assoc; reflexivity).
  rewrite rev_unit. rewrite (beqb_refl x2c), rev_involutive. reflexivity.
Qed.

(* The built texts '[' t1 ',' .. ',' tn ']' and '{' k1 ':' t1 ',' .. '}' are read back by two readers of Json/JsonParse.v:
   the lenient scanner (skip_value / skip_elems / skip_members: what a RawValue accepts; enough for "no panic") and the
   strict parser (parse_value / parse_elems / parse_members: the value that comes back).  The element and member loops are
   four separate fixpoints of the model, so the facts below come once per loop; what the loops share, one item in front of
   a ',' or a closing bracket, is lenient_item / strict_item. *)

Definition lenient_piece (p : bytes) : Prop :=
  exists f c r, skip_value f p = Some (c, r) /\ skip_ws r = [].
Definition strict_piece (d : nat) (p : bytes) (v : json) : Prop :=
  exists f r, parse_value f d p = Some (v, r) /\ skip_ws r = [].

Lemma strict_piece_lenient d p v : strict_piece d p v -> lenient_piece p.
Proof.
  intros (f & r & H & Hr). destruct (strict_is_lenient _ _ _ _ _ H) as [c Hc]. exists f, c, r. split; assumption.
Qed.

Lemma skip_ws_tail r X : skip_ws r = [] -> hd_not is_json_ws X = true -> skip_ws (r ++ X) = X.
Proof. intros H1 H2. unfold skip_ws in *. rewrite drop_while_app_hd by exact H2. rewrite H1. reflexivity. Qed.

Lemma lenient_item p F X : lenient_piece p -> (length p <= F)%nat ->
  hd_not is_json_ws X = true -> ok_follow X = true ->
  exists c r, skip_value F (p ++ X) = Some (c, r ++ X) /\ skip_ws (r ++ X) = X.
Proof.
  intros (f & c & r & Hs & Hr) HF HW HO. exists c, r. split; [|apply skip_ws_tail; assumption].
  apply skip_value_extend; [|right; exact HO]. apply (skip_value_fuel_len _ _ _ _ Hs).
  apply skip_value_split in Hs. apply (f_equal (@length byte)) in Hs. rewrite app_length in Hs. lia.
Qed.

Lemma strict_item d p v F X : strict_piece d p v -> (length p <= F)%nat ->
  hd_not is_json_ws X = true -> ok_follow X = true ->
  exists r, parse_value F d (p ++ X) = Some (v, r ++ X) /\ skip_ws (r ++ X) = X.
Proof.
  intros (f & r & Hs & Hr) HF HW HO. exists r. split; [|apply skip_ws_tail; assumption].
  apply parse_value_extend; [|right; exact HO]. apply (parse_value_fuel_len _ _ _ _ _ Hs). lia.
Qed.

Lemma lenient_piece_head p Y : lenient_piece p ->
  exists c s1, skip_ws (p ++ Y) = c :: s1 /\ beqb c x5d = false /\ beqb c x7d = false.
Proof.
  intros (f & t & r & H & _). destruct (sval_head _ _ _ _ (proj1 (sgraph_sound f) _ _ _ H)) as (c & s1 & E & H1 & H2).
  exists c, (s1 ++ Y). split; [apply skip_ws_app_cons, E | split; assumption].
Qed.

Lemma skip_elems_join_pieces ps : Forall lenient_piece ps -> ps <> [] ->
  forall F rest, (length (join [x2c] ps) < F)%nat ->
  exists c, skip_elems F (join [x2c] ps ++ x5d :: rest) = Some (c, rest).
Proof.
  induction 1 as [|p ps Hp Hps IH]; [congruence|]. intros _ F rest HF.
  destruct F as [|F]; [lia|]. rewrite skip_elems_S.
  destruct ps as [|p' ps'].
  - cbn [join] in *.
    destruct (lenient_item p F (x5d :: rest) Hp ltac:(lia) eq_refl eq_refl) as (c & r & -> & ->).
    eexists. reflexivity.
  - rewrite join_cons2 in *. rewrite !app_length in HF. rewrite <- !app_assoc. cbn [app].
    destruct (lenient_item p F (x2c :: join [x2c] (p' :: ps') ++ x5d :: rest) Hp ltac:(lia) eq_refl eq_refl)
      as (c & r & -> & ->).
    destruct (IH ltac:(discriminate) F rest ltac:(cbn [length] in HF; lia)) as [c2 Hc2].
    rewrite (beqb_refl x2c), Hc2. eexists. reflexivity.
Qed.

Lemma utf8_join ps : Forall (fun p => utf8_valid p = true) ps -> utf8_valid (join [x2c] ps) = true.
Proof.
  induction 1 as [|p ps Hp Hps IH]; [reflexivity|].
  destruct ps as [|q ps]; [exact Hp|].
  rewrite join_cons2. apply utf8_valid_app; [exact Hp|].
  cbn [app]. rewrite utf8_valid_ascii_cons by reflexivity. exact IH.
Qed.

Lemma utf8_wrap s e J : ascii s = true -> ascii e = true -> utf8_valid J = true -> utf8_valid (s :: J ++ [e]) = true.
Proof.
  intros Hs He HJ. rewrite utf8_valid_ascii_cons by exact Hs. apply utf8_valid_app; [exact HJ|].
  rewrite utf8_valid_ascii_cons by exact He. reflexivity.
Qed.

Lemma raw_text_of_skip W : utf8_valid W = true -> skip_ws W = W ->
  (exists c, skip_value (S (length W)) W = Some (c, [])) -> raw_text W = Some W.
Proof.
  intros U E [c H]. pose proof (skip_value_split _ _ _ _ H) as HS. rewrite app_nil_r in HS. subst c.
  unfold raw_text, raw_value. rewrite E, H, U. reflexivity.
Qed.

Lemma wrapped_length (s e : byte) J : (length J < length (s :: J ++ [e]))%nat.
Proof. cbn [length]. rewrite app_length. cbn [length]. lia. Qed.

Lemma raw_text_array ps : Forall (fun p => utf8_valid p = true /\ lenient_piece p) ps -> ps <> [] ->
  raw_text (x5b :: join [x2c] ps ++ [x5d]) = Some (x5b :: join [x2c] ps ++ [x5d]).
Proof.
  intros HF Hne. apply Forall_and_inv in HF as [HU HL].
  apply raw_text_of_skip.
  - apply utf8_wrap; [reflexivity | reflexivity | apply utf8_join, HU].
  - apply skip_ws_cons_nws. reflexivity.
  - destruct (skip_elems_join_pieces ps HL Hne _ [] (wrapped_length x5b x5d _)) as [c Hc].
    destruct ps as [|p ps']; [congruence|].
    destruct (join_cons_app [x2c] p ps') as (Y & EY & _).
    destruct (lenient_piece_head p (Y ++ [x5d]) (Forall_inv HL)) as (c2 & s1 & E & H1 & _).
    exists (x5b :: c). eapply skip_value_arr; [|exact H1|exact Hc].
    rewrite EY, <- app_assoc. exact E.
Qed.

Lemma piece_app k t X : kv_piece k t ++ X = x22 :: escape_body k ++ x22 :: x3a :: t ++ X.
Proof. unfold kv_piece, ser_str. cbn [app]. rewrite <- !app_assoc. reflexivity. Qed.

Lemma piece_len k t : (length t < length (kv_piece k t))%nat.
Proof. unfold kv_piece. rewrite app_length. cbn [length]. lia. Qed.

Lemma skip_members_piece F k t X : skip_members (S F) (kv_piece k t ++ X) =
  match skip_value F (t ++ X) with
  | Some (tv, r) =>
    match skip_ws r with
    | c :: r2 =>
      let pre := x22 :: (escape_body k ++ [x22]) ++ x3a :: tv ++ ws_prefix r in
      if beqb c x2c then
        match skip_members F r2 with Some (t3, r3) => Some (pre ++ c :: t3, r3) | None => None end
      else if beqb c x7d then Some (pre ++ [c], r2)
      else None
    | [] => None
    end
  | None => None
  end.
Proof.
  rewrite skip_members_S, piece_app, (skip_ws_cons_nws x22) by reflexivity. cbv beta iota. rewrite (beqb_refl x22).
  rewrite skip_str_escape, (skip_ws_cons_nws x3a) by reflexivity. cbv beta iota. rewrite (beqb_refl x3a). reflexivity.
Qed.

Lemma skip_members_join kts : Forall (fun kt => lenient_piece (snd kt)) kts -> kts <> [] ->
  forall F rest, (length (join [x2c] (map piece_of kts)) < F)%nat ->
  exists c, skip_members F (join [x2c] (map piece_of kts) ++ x7d :: rest) = Some (c, rest).
Proof.
  induction 1 as [|[k t] kts Hp Hps IH]; [congruence|]. intros _ F rest HF. cbn [snd] in Hp.
  pose proof (piece_len k t) as Hpl.
  destruct F as [|F]; [lia|]. cbn [map] in *. change (piece_of (k, t)) with (kv_piece k t) in *.
  destruct kts as [|kt' kts'].
  - cbn [map join] in *. rewrite skip_members_piece.
    destruct (lenient_item t F (x7d :: rest) Hp ltac:(lia) eq_refl eq_refl) as (c & r & -> & ->).
    eexists. reflexivity.
  - cbn [map] in *. rewrite join_cons2 in *. rewrite !app_length in HF. rewrite <- !app_assoc. cbn [app].
    set (J := join [x2c] (piece_of kt' :: map piece_of kts')) in *. rewrite skip_members_piece.
    destruct (lenient_item t F (x2c :: J ++ x7d :: rest) Hp ltac:(lia) eq_refl eq_refl) as (c & r & -> & ->).
    destruct (IH ltac:(discriminate) F rest ltac:(cbn [length] in HF; lia)) as [c2 Hc2].
    cbv zeta. rewrite (beqb_refl x2c), Hc2. eexists. reflexivity.
Qed.

Lemma utf8_piece k t : utf8_valid k = true -> utf8_valid t = true -> utf8_valid (kv_piece k t) = true.
Proof.
  intros Hk Ht. unfold kv_piece. apply utf8_valid_app; [apply ser_str_utf8, Hk|].
  rewrite utf8_valid_ascii_cons by reflexivity. exact Ht.
Qed.

Lemma raw_text_object kts :
  Forall (fun kt => utf8_valid (fst kt) = true /\ utf8_valid (snd kt) = true /\ lenient_piece (snd kt)) kts -> kts <> [] ->
  raw_text (x7b :: join [x2c] (map piece_of kts) ++ [x7d]) = Some (x7b :: join [x2c] (map piece_of kts) ++ [x7d]).
Proof.
  intros HF Hne.
  assert (HU : Forall (fun p => utf8_valid p = true) (map piece_of kts)).
  { apply Forall_map. eapply Forall_impl; [|exact HF]. intros [k t] (H1 & H2 & _). apply utf8_piece; assumption. }
  assert (HL : Forall (fun kt => lenient_piece (snd kt)) kts) by (eapply Forall_impl; [|exact HF]; intros a (_ & _ & H); exact H).
  apply raw_text_of_skip.
  - apply utf8_wrap; [reflexivity | reflexivity | apply utf8_join, HU].
  - apply skip_ws_cons_nws. reflexivity.
  - destruct (skip_members_join kts HL Hne _ [] (wrapped_length x7b x7d _)) as [c Hc].
    destruct kts as [|[k t] kts']; [congruence|]. cbn [map] in *.
    destruct (join_cons_app [x2c] (piece_of (k, t)) (map piece_of kts')) as (Y & EY & _).
    exists (x7b :: c). eapply skip_value_obj; [| |exact Hc].
    + rewrite EY. unfold piece_of. cbn [fst snd]. rewrite <- app_assoc, piece_app.
      apply skip_ws_cons_nws. reflexivity.
    + reflexivity.
Qed.

Lemma parse_elems_join d ps vs : Forall2 (strict_piece d) ps vs -> ps <> [] ->
  forall F rest, (length (join [x2c] ps) < F)%nat ->
  parse_elems F d (join [x2c] ps ++ x5d :: rest) = Some (vs, rest).
Proof.
  induction 1 as [|p v ps vs Hp Hps IH]; [congruence|]. intros _ F rest HF.
  destruct F as [|F]; [lia|]. rewrite parse_elems_S.
  destruct ps as [|p' ps'].
  - inversion Hps; subst. cbn [join] in *.
    destruct (strict_item d p v F (x5d :: rest) Hp ltac:(lia) eq_refl eq_refl) as (r & -> & ->). reflexivity.
  - rewrite join_cons2 in *. rewrite !app_length in HF. rewrite <- !app_assoc. cbn [app].
    destruct (strict_item d p v F (x2c :: join [x2c] (p' :: ps') ++ x5d :: rest) Hp ltac:(lia) eq_refl eq_refl)
      as (r & -> & ->).
    rewrite (beqb_refl x2c), (IH ltac:(discriminate) F rest ltac:(cbn [length] in HF; lia)). reflexivity.
Qed.

Lemma parse_array d ps vs : Forall2 (strict_piece (S d)) ps vs -> ps <> [] ->
  parse_depth (S (S d)) (x5b :: join [x2c] ps ++ [x5d]) = Some (JArr vs).
Proof.
  intros HF Hne. unfold parse_depth.
  pose proof (parse_elems_join (S d) ps vs HF Hne _ [] (wrapped_length x5b x5d _)) as Hc.
  destruct ps as [|p ps']; [congruence|]. inversion HF as [|? v ? vs' Hp Hps']; subst.
  destruct (join_cons_app [x2c] p ps') as (Y & EY & _).
  destruct (lenient_piece_head p (Y ++ [x5d]) (strict_piece_lenient _ _ _ Hp)) as (c2 & s1 & E & H1 & _).
  rewrite (parse_value_arr _ d _ c2 s1 (v :: vs') []); [reflexivity | | exact H1 | exact Hc].
  rewrite EY, <- app_assoc. exact E.
Qed.

Definition strict_member (d : nat) (kt : bytes * bytes) (kv : bytes * json) : Prop :=
  fst kv = fst kt /\ utf8_valid (fst kt) = true /\ strict_piece d (snd kt) (snd kv).

Lemma parse_members_piece F d k t X : utf8_valid k = true -> parse_members (S F) d (kv_piece k t ++ X) =
  match parse_value F d (t ++ X) with
  | Some (v, r) =>
    match skip_ws r with
    | c :: r2 =>
      if beqb c x2c then
        match parse_members F d r2 with Some (ms, r3) => Some ((k, v) :: ms, r3) | None => None end
      else if beqb c x7d then Some ([(k, v)], r2)
      else None
    | [] => None
    end
  | None => None
  end.
Proof.
  intro U. rewrite parse_members_S, piece_app, (skip_ws_cons_nws x22) by reflexivity. cbv beta iota. rewrite (beqb_refl x22).
  unfold scan_str_valid. rewrite scan_str_escape, U, (skip_ws_cons_nws x3a) by reflexivity.
  cbv beta iota. rewrite (beqb_refl x3a). reflexivity.
Qed.

Lemma parse_members_join d kts kvs : Forall2 (strict_member d) kts kvs -> kts <> [] ->
  forall F rest, (length (join [x2c] (map piece_of kts)) < F)%nat ->
  parse_members F d (join [x2c] (map piece_of kts) ++ x7d :: rest) = Some (kvs, rest).
Proof.
  induction 1 as [|[k t] [k' v] kts kvs Hp Hps IH]; [congruence|]. intros _ F rest HF.
  destruct Hp as (Ek & Uk & Hp). cbn [fst snd] in *. subst k'.
  pose proof (piece_len k t) as Hpl.
  destruct F as [|F]; [lia|]. cbn [map] in *. change (piece_of (k, t)) with (kv_piece k t) in *.
  destruct kts as [|kt' kts'].
  - inversion Hps; subst. cbn [map join] in *. rewrite (parse_members_piece _ _ _ _ _ Uk).
    destruct (strict_item d t v F (x7d :: rest) Hp ltac:(lia) eq_refl eq_refl) as (r & -> & ->). reflexivity.
  - cbn [map] in *. rewrite join_cons2 in *. rewrite !app_length in HF. rewrite <- !app_assoc. cbn [app].
    set (J := join [x2c] (piece_of kt' :: map piece_of kts')) in *. rewrite (parse_members_piece _ _ _ _ _ Uk).
    destruct (strict_item d t v F (x2c :: J ++ x7d :: rest) Hp ltac:(lia) eq_refl eq_refl) as (r & -> & ->).
    rewrite (beqb_refl x2c), (IH ltac:(discriminate) F rest ltac:(cbn [length] in HF; lia)). reflexivity.
Qed.

Lemma parse_object d kts kvs : Forall2 (strict_member (S d)) kts kvs -> kts <> [] ->
  parse_depth (S (S d)) (x7b :: join [x2c] (map piece_of kts) ++ [x7d]) = Some (JObj kvs).
Proof.
  intros HF Hne. unfold parse_depth.
  pose proof (parse_members_join (S d) kts kvs HF Hne _ [] (wrapped_length x7b x7d _)) as Hc.
  destruct kts as [|[k t] kts']; [congruence|]. cbn [map] in *.
  destruct (join_cons_app [x2c] (piece_of (k, t)) (map piece_of kts')) as (Y & EY & _).
  rewrite (parse_value_obj _ d _ x22 (escape_body k ++ x22 :: x3a :: t ++ Y ++ [x7d]) kvs []); [reflexivity | | reflexivity | exact Hc].
  rewrite EY. unfold piece_of. cbn [fst snd]. rewrite <- app_assoc, piece_app.
  apply skip_ws_cons_nws. reflexivity.
Qed.

Lemma value_of_piece t v : value_of t = Some v -> utf8_valid t = true /\ strict_piece item_depth t v.
Proof.
  unfold value_of, parse_depth. destruct (utf8_valid t); [|discriminate]. intro H. split; [reflexivity|].
  destruct (parse_value (S (length t)) item_depth t) as [[v' r]|] eqn:E; [|discriminate].
  destruct (skip_ws r) eqn:Er; [|discriminate]. inversion H; subst. exists (S (length t)), r. split; assumption.
Qed.

Lemma raw_valid_piece t : raw_valid t -> utf8_valid t = true /\ lenient_piece t.
Proof.
  unfold raw_valid, raw_text, raw_value. intro H.
  destruct (skip_value (S (length (skip_ws t))) (skip_ws t)) as [[c r]|] eqn:E; [|discriminate].
  destruct (utf8_valid c) eqn:U; [|discriminate]. destruct (skip_ws r) eqn:Er; [|discriminate].
  inversion H; subst c. split; [exact U|].
  pose proof (skip_value_split _ _ _ _ E) as HS. pose proof (skip_ws_length t) as L.
  assert (r = []) by (apply (f_equal (@length byte)) in HS; rewrite app_length in HS; destruct r; [reflexivity | cbn [length] in HS; lia]).
  subst r. rewrite app_nil_r in HS. rewrite HS in E. exists (S (length t)), t, []. split; [exact E | reflexivity].
Qed.

Lemma values_texts ops : Forall sres_valid ops -> Forall2 (fun t v => value_of t = Some v) (ok_texts ops) (values ops).
Proof.
  induction 1 as [|[t|p] ops Hv _ IH]; cbn [ok_texts values]; [constructor| |exact IH].
  cbn in Hv. destruct (value_of t) as [v|] eqn:E; [|congruence]. constructor; assumption.
Qed.

Lemma members_pieces ops : Forall (fun kv => utf8_valid (fst kv) = true /\ sres_valid (snd kv)) ops ->
  Forall2 (fun kt kv => fst kv = fst kt /\ utf8_valid (fst kt) = true /\ value_of (snd kt) = Some (snd kv))
          (ok_pieces ops) (members ops).
Proof.
  induction 1 as [|[k [t|p]] ops [Hk Hv] _ IH]; cbn [ok_pieces members]; [constructor| |exact IH].
  cbn in Hv, Hk. destruct (value_of t) as [v|] eqn:E; [|congruence]. constructor; [|exact IH]. cbn. auto.
Qed.

Lemma raw_valid_texts ops : Forall sres_raw_valid ops ->
  Forall (fun t => utf8_valid t = true /\ lenient_piece t) (ok_texts ops).
Proof.
  induction 1 as [|[t|p] ops Hx _ IH]; cbn [ok_texts]; [constructor| |exact IH].
  constructor; [apply raw_valid_piece, Hx | exact IH].
Qed.

Lemma raw_valid_pieces ops : Forall (fun kv => utf8_valid (fst kv) = true /\ sres_raw_valid (snd kv)) ops ->
  Forall (fun kt => utf8_valid (fst kt) = true /\ utf8_valid (snd kt) = true /\ lenient_piece (snd kt)) (ok_pieces ops).
Proof.
  induction 1 as [|[k [t|p]] ops [Hk Hx] _ IH]; cbn [ok_pieces]; [constructor| |exact IH].
  constructor; [|exact IH]. cbn [fst snd] in *. split; [exact Hk | apply raw_valid_piece, Hx].
Qed.

Lemma Forall2_left {A B} (P : A -> B -> Prop) (Q : A -> Prop) l l' :
  (forall a b, P a b -> Q a) -> Forall2 P l l' -> Forall Q l.
Proof. intros H F. induction F; constructor; eauto. Qed.

Lemma Forall2_impl' {A B} (P Q : A -> B -> Prop) l l' :
  (forall a b, P a b -> Q a b) -> Forall2 P l l' -> Forall2 Q l l'.
Proof. intros H F. induction F; constructor; eauto. Qed.

Lemma array_text_good ts vs : Forall2 (fun t v => value_of t = Some v) ts vs -> ts <> [] ->
  let W := x5b :: join [x2c] ts ++ [x5d] in
  raw_text W = Some W /\ parse_text W = Some (JArr vs).
Proof.
  intros H Hne W. split.
  - apply raw_text_array; [|exact Hne].
    eapply Forall2_left; [|exact H]. intros t v E. destruct (value_of_piece t v E) as [U HS].
    split; [exact U | eapply strict_piece_lenient, HS].
  - (* depth_limit = 128 = item_depth + 1: the items are read one level down, at item_depth *)
    change (parse_text W) with (parse_depth (S (S 126)) W). apply parse_array; [|exact Hne].
    eapply Forall2_impl'; [|exact H]. intros t v E. apply (value_of_piece t v E).
Qed.

Lemma object_text_good kts kvs :
  Forall2 (fun kt kv => fst kv = fst kt /\ utf8_valid (fst kt) = true /\ value_of (snd kt) = Some (snd kv)) kts kvs ->
  kts <> [] ->
  let W := x7b :: join [x2c] (map piece_of kts) ++ [x7d] in
  raw_text W = Some W /\ parse_text W = Some (JObj kvs).
Proof.
  intros H Hne W. split.
  - apply raw_text_object; [|exact Hne].
    eapply Forall2_left; [|exact H]. intros kt kv (_ & Uk & E). destruct (value_of_piece _ _ E) as [U HS].
    split; [exact Uk | split; [exact U | eapply strict_piece_lenient, HS]].
  - change (parse_text W) with (parse_depth (S (S 126)) W). apply parse_object; [|exact Hne].
    eapply Forall2_impl'; [|exact H]. intros kt kv (Ek & Uk & E). split; [exact Ek | split; [exact Uk|]].
    apply (value_of_piece _ _ E).
Qed.

Lemma ok_texts_nil ops : ok_texts ops = [] <-> forallb (fun v => negb (sres_is_ok v)) ops = true.
Proof. induction ops as [|[t|p] ops IH]; cbn; [tauto | split; discriminate | exact IH]. Qed.

Lemma entries_failed ops :
  forallb (fun v => negb (sres_is_ok v)) (map kv_entry ops) = forallb (fun kv => negb (sres_is_ok (snd kv))) ops.
Proof. induction ops as [|[k [t|p]] ops IH]; [reflexivity | reflexivity | exact IH]. Qed.

Lemma total_of_raw s e ops :
  (ok_texts ops <> [] -> raw_valid (s :: join [x2c] (ok_texts ops) ++ [e])) ->
  let r := build (fst (inserts {| buf := []; b_start := s; b_end := e |} ops)) in
  r <> BPanic /\ (forall t, r = BSome t -> raw_valid t) /\
  (r = BNone <-> forallb (fun v => negb (sres_is_ok v)) ops = true).
Proof.
  intro HR. rewrite inserts_empty. cbn [fst]. rewrite <- ok_texts_nil.
  destruct (ok_texts ops) as [|t ts].
  - cbn. split; [discriminate|]. split; [discriminate | tauto].
  - specialize (HR ltac:(discriminate)). rewrite build_state by discriminate.
    split; [rewrite HR; discriminate|]. split; [intros t' H; rewrite HR in H; injection H as <-; exact HR|].
    rewrite HR. split; discriminate.
Qed.

(* ToRpcParams for tuples / slices / Vec / arrays (ser_seq) and for maps (ser_map) *)

Lemma all_ok_map es : all_ok es = true -> es = map SOk (ok_texts es).
Proof.
  unfold all_ok. induction es as [|[t|p] es IH]; cbn; intro H; [reflexivity | f_equal; apply IH, H | discriminate].
Qed.

Lemma seq_body_false_ok ts : seq_body false (map SOk ts) = SOk (concat (map (cons x2c) ts) ++ [x5d]).
Proof. induction ts as [|t ts IH]; [reflexivity|]. cbn [map seq_body concat]. rewrite IH. cbn [app]. rewrite <- app_assoc. reflexivity. Qed.

Lemma ser_seq_ok es : all_ok es = true ->
  ser_seq es = SOk (match ok_texts es with [] => [x5b; x5d] | ts => x5b :: join [x2c] ts ++ [x5d] end).
Proof.
  intro H. pose proof (all_ok_map es H) as E. set (ts := ok_texts es) in *. clearbody ts. subst es.
  unfold ser_seq. destruct ts as [|t ts]; [reflexivity|].
  cbn [map seq_body]. rewrite seq_body_false_ok, join_concat. cbn [app]. rewrite <- app_assoc. reflexivity.
Qed.

Lemma seq_body_fail es : forall first, forallb sres_is_ok es = false -> exists p, seq_body first es = SFail p.
Proof.
  induction es as [|[t|p] es IH]; intros first H; [discriminate| |].
  - cbn in H. destruct (IH false H) as [q Hq]. cbn [seq_body]. rewrite Hq. eexists. reflexivity.
  - eexists. reflexivity.
Qed.

Lemma all_ok_map_named (es : list (bytes * sres)) : forallb (fun kv => sres_is_ok (snd kv)) es = true ->
  es = map (fun kt => (fst kt, SOk (snd kt))) (ok_pieces es).
Proof.
  induction es as [|[k [t|p]] es IH]; cbn; intro H; [reflexivity | f_equal; apply IH, H | discriminate].
Qed.

Lemma map_body_false_ok kts :
  map_body false (map (fun kt => (fst kt, SOk (snd kt))) kts) = SOk (concat (map (fun kt => x2c :: piece_of kt) kts) ++ [x7d]).
Proof.
  induction kts as [|[k t] kts IH]; [reflexivity|]. cbn [map map_body concat fst snd]. rewrite IH.
  unfold piece_of, kv_piece. cbn [fst snd app]. repeat rewrite <- app_assoc. reflexivity.
Qed.

Lemma ser_map_ok es : forallb (fun kv => sres_is_ok (snd kv)) es = true ->
  ser_map es = SOk (match ok_pieces es with [] => [x7b; x7d] | kts => x7b :: join [x2c] (map piece_of kts) ++ [x7d] end).
Proof.
  intro H. pose proof (all_ok_map_named es H) as E. set (kts := ok_pieces es) in *. clearbody kts. subst es.
  unfold ser_map. destruct kts as [|[k t] kts]; [reflexivity|].
  cbn [map]. rewrite join_concat, map_map. cbn [map_body fst snd]. rewrite map_body_false_ok.
  unfold piece_of at 2, kv_piece. cbn [fst snd app]. repeat rewrite <- app_assoc. reflexivity.
Qed.

Lemma map_body_fail es : forall first, forallb (fun kv => sres_is_ok (snd kv)) es = false -> exists p, map_body first es = SFail p.
Proof.
  induction es as [|[k [t|p]] es IH]; intros first H; [discriminate| |].
  - cbn in H. destruct (IH false H) as [q Hq]. cbn [map_body]. rewrite Hq. eexists. reflexivity.
  - eexists. reflexivity.
Qed.

Definition batch_entries (es : list (bytes * tres)) : batch :=
  flat_map (fun e => match snd e with TOk p => [(fst e, p)] | _ => [] end) es.
Definition outcome_of (r : tres) : outcome := match r with TOk _ => OOk | TErr => OErr | TPanic => OPanic end.
