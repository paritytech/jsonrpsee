(* C19: facts about the HTTP gate and read_body (Model/HttpGate.v over Gen/HttpGateGen.v, Gen/SniffGen.v).
   Nothing here depends on the concrete window size or on which spellings the generated list contains, except
   the lemmas marked "table": those are re-checked by computation against the regenerated tables. *)
From JV Require Import Base.Bytes Base.Dec Proofs.BytesFacts Proofs.DecFacts Gen.HttpGateGen Gen.SniffGen Model.HttpGate.
#[local] Arguments N.add : simpl never.
#[local] Arguments N.sub : simpl never.
#[local] Arguments N.mul : simpl never.
#[local] Arguments N.ltb : simpl never.
#[local] Arguments N.leb : simpl never.
#[local] Arguments N.eqb : simpl never.

Definition ct_accepted (cts : list bytes) : Prop :=
  exists v s, hd_error cts = Some v /\ In s accepted_content_types /\ map ascii_lower v = map ascii_lower s.

Lemma bN_Nb n : (n <= 255)%N -> bN (Nb n) = n.
Proof.
  intro H. unfold bN, Nb. destruct (Byte.of_N n) eqn:E; [apply Byte.to_of_N, E | apply Byte.of_N_None_iff in E; lia].
Qed.

Lemma lower_visible b : is_visible_ascii (ascii_lower b) = is_visible_ascii b.
Proof.
  unfold ascii_lower. destruct (in_range 65 90 b) eqn:E; [|reflexivity].
  unfold is_visible_ascii, in_range in *. apply andb_true_iff in E as [E1 E2]. apply N.leb_le in E1, E2.
  rewrite bN_Nb by lia. rewrite !(proj2 (N.leb_le _ _)) by lia. reflexivity.
Qed.

Lemma to_str_ok_lower v : to_str_ok (map ascii_lower v) = to_str_ok v.
Proof.
  unfold to_str_ok. induction v as [|b v IH]; cbn [map forallb]; [reflexivity|].
  rewrite lower_visible, IH. reflexivity.
Qed.

Lemma eq_ignore_ascii_case_spec a b : eq_ignore_ascii_case a b = true <-> map ascii_lower a = map ascii_lower b.
Proof. unfold eq_ignore_ascii_case. apply bytes_eqb_eq. Qed.

(* table: every generated spelling is a str (visible ASCII) *)
Lemma accepted_visible : forallb to_str_ok accepted_content_types = true.
Proof. vm_compute. reflexivity. Qed.

(* table *)
Lemma gate_method_is_POST : gate_method = b#"POST".
Proof. vm_compute. reflexivity. Qed.

Lemma is_json_spec ct :
  is_json ct = true <->
  exists v s, ct = Some v /\ In s accepted_content_types /\ map ascii_lower v = map ascii_lower s.
Proof.
  unfold is_json. split.
  - destruct ct as [v|]; [|discriminate]. intro H. apply andb_true_iff in H as [_ H].
    apply existsb_exists in H as (s & Hin & He). apply eq_ignore_ascii_case_spec in He.
    exists v, s. auto.
  - intros (v & s & -> & Hin & He). apply andb_true_iff. split.
    + rewrite <- to_str_ok_lower, He, to_str_ok_lower.
      pose proof accepted_visible as Hv. rewrite forallb_forall in Hv. apply Hv. exact Hin.
    + apply existsb_exists. exists s. split; [exact Hin|]. apply eq_ignore_ascii_case_spec. exact He.
Qed.

Lemma content_type_is_json_spec cts : content_type_is_json cts = true <-> ct_accepted cts.
Proof. unfold content_type_is_json, ct_accepted. apply is_json_spec. Qed.

(* table *)
Lemma after_read_body_status A (rpc : bytes -> bool -> A) r :
  after_read_body A rpc r =
  match r with
  | RbOk body single => Answered 200 (rpc body single)
  | RbTooLarge => Refused 413
  | RbMalformed => Refused 400
  | RbStream => Refused 500
  end.
Proof. destruct r; reflexivity. Qed.

Fixpoint sniff (w : nat) (body : bytes) : option (byte * bytes) :=
  match w, body with
  | S w', c :: r => if http_sniff_ws c then sniff w' r else Some (c, body)
  | _, _ => None
  end.

Lemma find_nonws_sniff w : forall d i,
  match find_nonws w d i with
  | Some (idx, c) => exists k, idx = (i + k)%nat /\ sniff w d = Some (c, skipn k d)
  | None => sniff w d = None
  end.
Proof.
  induction w as [|w IH]; intros [|c d] i; cbn [find_nonws sniff]; auto.
  destruct (http_sniff_ws c).
  - specialize (IH d (S i)). destruct (find_nonws w d (S i)) as [[idx c']|]; auto.
    destruct IH as (k & -> & H). exists (S k). split; [lia | exact H].
  - exists 0%nat. split; [lia | reflexivity].
Qed.

Lemma sniff_app_some w : forall d c suf r, sniff w d = Some (c, suf) -> sniff w (d ++ r) = Some (c, suf ++ r).
Proof.
  induction w as [|w IH]; intros [|x d] c suf r H; cbn [sniff app] in *; try discriminate.
  destruct (http_sniff_ws x).
  - apply IH. exact H.
  - inversion H; subst. reflexivity.
Qed.

Lemma sniff_app_none w : forall d r, sniff w d = None -> sniff w (d ++ r) = sniff (w - length d) r.
Proof.
  induction w as [|w IH]; intros [|x d] r H; try reflexivity.
  cbn [sniff app length Nat.sub] in *. destruct (http_sniff_ws x); [apply IH, H | discriminate].
Qed.

Lemma sniff_suffix_nonempty w : forall d c suf, sniff w d = Some (c, suf) -> exists t, suf = c :: t.
Proof.
  induction w as [|w IH]; intros [|x d] c suf H; cbn [sniff] in H; try discriminate.
  destruct (http_sniff_ws x); [eapply IH; exact H|]. inversion H; subst. eauto.
Qed.

Definition ok_or_malformed (body : bytes) (single : bool) : rb_result :=
  match body with [] => RbMalformed | _ :: _ => RbOk body single end.

Definition classify (c : byte) (suffix : bytes) : rb_result :=
  if Byte.eqb c http_single_byte then ok_or_malformed suffix true
  else if Byte.eqb c http_batch_byte then ok_or_malformed suffix false
  else RbMalformed.

Definition whole (w : nat) (body : bytes) : rb_result :=
  match sniff w body with
  | Some (c, suffix) => classify c suffix
  | None => RbMalformed
  end.

Lemma read_frames_sniffed : forall fs s rem b,
  is_single s = Some b -> (blen (payload fs) <= rem)%N ->
  read_frames on_data s rem fs = ok_or_malformed (received s ++ payload fs) b.
Proof.
  induction fs as [|[d|] fs IH]; intros s rem b Hs Hl; cbn [read_frames payload] in *.
  - unfold rb_finish. rewrite Hs, app_nil_r. reflexivity.
  - rewrite blen_app in Hl.
    destruct (N.ltb_spec rem (blen d)); [lia|].
    unfold on_data. rewrite Hs.
    rewrite (IH _ _ b); cbn [is_single received]; [rewrite app_assoc; reflexivity | first [exact Hs | reflexivity] | lia].
  - apply IH; assumption.
Qed.

Lemma read_frames_sniffing : forall fs s rem,
  is_single s = None -> received s = [] -> (blen (payload fs) <= rem)%N ->
  read_frames on_data s rem fs = whole (http_sniff_window - sniffed s) (payload fs).
Proof.
  induction fs as [|[d|] fs IH]; intros s rem Hs Hr Hl; cbn [read_frames payload] in *.
  - unfold rb_finish, whole. rewrite Hs. destruct (http_sniff_window - sniffed s)%nat; reflexivity.
  - rewrite blen_app in Hl.
    destruct (N.ltb_spec rem (blen d)); [lia|].
    unfold on_data. rewrite Hs, Hr.
    pose proof (find_nonws_sniff (http_sniff_window - sniffed s) d 0) as Hf.
    destruct (find_nonws (http_sniff_window - sniffed s) d 0) as [[idx c]|].
    + destruct Hf as (k & -> & Hk). cbn [Nat.add app].
      unfold whole. rewrite (sniff_app_some _ _ _ _ (payload fs) Hk). unfold classify.
      destruct (Byte.eqb c http_single_byte).
      * rewrite (read_frames_sniffed fs _ _ true); [reflexivity | reflexivity | lia].
      * destruct (Byte.eqb c http_batch_byte); [|reflexivity].
        rewrite (read_frames_sniffed fs _ _ false); [reflexivity | reflexivity | lia].
    + destruct (Nat.ltb_spec (sniffed s + length d) http_sniff_window) as [Hlt|Hge].
      * rewrite IH; cbn [is_single received sniffed]; [| reflexivity | first [exact Hr | reflexivity] | lia].
        unfold whole. rewrite (sniff_app_none _ d (payload fs) Hf), Nat.sub_add_distr. reflexivity.
      * unfold whole. rewrite (sniff_app_none _ d (payload fs) Hf).
        replace (http_sniff_window - sniffed s - length d)%nat with 0%nat by lia. reflexivity.
  - apply IH; assumption.
Qed.

Definition content_length_or_zero (cls : list bytes) : N :=
  match read_header_content_length cls with Some n => n | None => 0%N end.

Lemma read_body_whole cls fs max :
  (blen (payload fs) <= max)%N ->
  read_body cls fs max =
  if (max <? content_length_or_zero cls)%N then RbTooLarge else whole http_sniff_window (payload fs).
Proof.
  intro Hl. unfold read_body, read_body_with, content_length_or_zero.
  destruct (max <? _)%N; [reflexivity|].
  rewrite read_frames_sniffing; [| reflexivity | reflexivity | exact Hl].
  cbn [sniffed rb_init]. rewrite Nat.sub_0_r. reflexivity.
Qed.

Lemma same_payload_same_result cls fs1 fs2 max :
  payload fs1 = payload fs2 -> (blen (payload fs1) <= max)%N ->
  read_body cls fs1 max = read_body cls fs2 max.
Proof.
  intros He Hl. rewrite (read_body_whole cls fs1 max Hl), (read_body_whole cls fs2 max) by (rewrite <- He; exact Hl).
  rewrite He. reflexivity.
Qed.

Lemma digit_visible b : is_digit b = true -> is_visible_ascii b = true.
Proof.
  unfold is_digit, is_visible_ascii, in_range. intro H. apply andb_true_iff in H as [H1 H2].
  apply N.leb_le in H1, H2. apply orb_true_iff. left. apply andb_true_iff. split; apply N.leb_le; lia.
Qed.

Lemma digit_not_plus b : is_digit b = true -> Byte.eqb b x2b = false.
Proof. intro H. destruct (Byte.eqb b x2b) eqn:E; [|reflexivity]. apply Byte.byte_dec_bl in E. subst b. discriminate H. Qed.

Lemma digits_visible s : forallb is_digit s = true -> to_str_ok s = true.
Proof.
  unfold to_str_ok. induction s as [|b s IH]; cbn [forallb]; [reflexivity|].
  intro H. apply andb_true_iff in H as [Hb Hs]. rewrite (digit_visible _ Hb), (IH Hs). reflexivity.
Qed.

Lemma content_length_of_print n :
  read_header_content_length [print_N n] = if (n <=? u32_max)%N then Some n else None.
Proof.
  unfold read_header_content_length, read_header_value.
  pose proof (print_N_digits n) as Hd. rewrite (digits_visible _ Hd).
  unfold parse_u32. destruct (print_N n) as [|c r] eqn:Ep; [exfalso; exact (print_N_nonempty n Ep)|].
  assert (Hc : is_digit c = true) by (cbn [forallb] in Hd; apply andb_true_iff in Hd; tauto).
  rewrite (digit_not_plus _ Hc), Hd, <- Ep, digits_val_print_N. reflexivity.
Qed.

Lemma content_length_within_limit_irrelevant cls fs max :
  (content_length_or_zero cls <= max)%N ->
  read_body cls fs max = read_body [] fs max.
Proof.
  intro Hc. unfold read_body, read_body_with. fold (content_length_or_zero cls). fold (content_length_or_zero []).
  destruct (N.ltb_spec max (content_length_or_zero cls)); [lia|].
  destruct (N.ltb_spec max (content_length_or_zero [])) as [H0|H0]; [cbn in H0; lia | reflexivity].
Qed.

Lemma read_frames_old_new_after_sniff : forall fs s rem b,
  is_single s = Some b -> received s <> [] ->
  read_frames on_data_old s rem fs = read_frames on_data s rem fs.
Proof.
  induction fs as [|[d|] fs IH]; intros s rem b Hs Hr; cbn [read_frames]; [reflexivity | | eapply IH; eassumption].
  destruct (rem <? blen d)%N; [reflexivity|].
  unfold on_data, on_data_old. rewrite Hs. destruct (received s) as [|x r] eqn:Er; [congruence|].
  eapply IH; cbn [is_single received]; [reflexivity | discriminate].
Qed.

Definition refuted_body : bytes := b#"{""jsonrpc"":""2.0"",""method"":""say_hello"",""id"":1}".
