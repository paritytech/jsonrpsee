(* C06: REAL threads on the shared subscriber table -- the lemmas behind C06_table_ops_unconditional and C06_cap_under_contention.
   Everything here depends on HOW the source takes the table's mutex (Gen/TableOpsGen.table_ops_gen): with a try_lock at any
   site this file does not build, while Proofs/SubBookFacts.v, which only runs uncontended events, still does. *)
From Coq Require Import List NArith ZArith Bool Arith Lia.
From JV Require Import Model.AcceptSteps Gen.AcceptOrderGen Model.TableOps Gen.TableOpsGen Model.SubBook Proofs.SubBookFacts.
Import ListNotations.

(* at a site that takes the mutex with a blocking `lock()` a contended event waits, then does what the uncontended one does *)
Lemma when_performed_blocking : forall A c a (x y : A), blocking a = true -> when_performed c a x y = x.
Proof. intros A c a x y H. unfold when_performed. rewrite H. destruct c; reflexivity. Qed.

Lemma step_core_g_blocking : forall ops old c s a, all_blocking ops = true ->
  step_core_g ops old c s a = step_core_g ops old false s a.
Proof.
  intros ops old c s a H. unfold all_blocking, sites_of in H. cbn [forallb] in H.
  apply andb_true_iff in H. destruct H as [H1 H]. apply andb_true_iff in H. destruct H as [H2 H].
  apply andb_true_iff in H. destruct H as [H3 _].
  destruct a; try reflexivity; cbn [step_core_g].
  - (* Accept1 *)
    destruct (nth_error (subs s) h) as [b|]; [|reflexivity]. rewrite !when_performed_blocking by assumption. reflexivity.
  - (* Accept2 *)
    destruct (nth_error (subs s) h) as [b|]; [|reflexivity]. rewrite !when_performed_blocking by assumption. reflexivity.
  - (* DropSink *)
    rewrite !when_performed_blocking by assumption. reflexivity.
  - (* UnsubscribeCall *)
    rewrite !when_performed_blocking by assumption. reflexivity.
Qed.

(* the generated record, COMPUTED: this is where the proofs depend on what the source does now *)
Lemma table_ops_now : table_ops_gen = table_ops_locked.
Proof. reflexivity. Qed.

Lemma step_c_erase : forall s e, step_c s e = step s (fst e).
Proof.
  intros s [a c]. unfold step_c, step_x. cbn [fst snd].
  rewrite (step_core_g_blocking table_ops_gen false c s a eq_refl). reflexivity.
Qed.

Lemma run_c_erase_from : forall tr so,
  fold_left (fun so e => let '(s', o') := step_x table_ops_gen (snd e) (fst so) (fst e) in (s', snd so ++ o')) tr so =
  fold_left (run_step step) (map fst tr) so.
Proof.
  induction tr as [|e tr IH]; intro so; cbn [fold_left map]; [reflexivity|].
  rewrite <- IH. f_equal. unfold run_step. change (step_x table_ops_gen (snd e) (fst so) (fst e)) with (step_c (fst so) e).
  rewrite step_c_erase. reflexivity.
Qed.

Definition reach_c (caps : list nat) (base meth : N) (tr : list cact) : st * list obs := run_c (init caps base meth) tr.

(* every thread-level trace reaches what its single-thread shadow reaches: all theorems about `reach` carry over *)
Lemma contended_erasure : forall caps base meth tr, reach_c caps base meth tr = reach caps base meth (map fst tr).
Proof. intros. unfold reach_c, run_c, run_x, reach, run, run_gen. apply run_c_erase_from. Qed.

(* one contended drop of the last sink: what it lets through under a guard that only TRIES the lock is
   C06_trylock_guard_refuted *)
Definition trylock_witness : list cact :=
  [(SubscribeCall 0 1, false); (Accept1 0, false); (Accept2 0, false); (DropSink 0 0, true)].
