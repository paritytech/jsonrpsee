(* C18: the client's bookkeeping returns to empty.
   The invariant spelled out in the model's own terms; identifiers of finished work are never inserted again; closed
   cycles return the tables; a batches entry leaves only through an array reply or at shutdown. *)
From JV Require Import Base.Bytes Base.Dec Base.Utf8 Json.Json Model.Wire Model.ClientMgr Proofs.DecFacts Proofs.ClientMgrInv.
From JV Require Import Proofs.ClientDispatchFacts.
Local Open Scope N_scope.


Definition queued_ids (s : st) : list id := qids (qmsgs s).
Definition queued_ranges (s : st) : list (N * N) := qrngs (qmsgs s).
Definition in_range (r : N * N) (n : N) : Prop := fst r <= n /\ n < snd r.

(* the invariant in the vocabulary of the model.  I1: the keys of each table are distinct.  I2: the ids in use (keys of
   `requests`, ids of queued messages) are distinct, were allocated (below next_id) and lie in no pending or queued
   batch range; those ranges are well formed, distinct and pairwise disjoint.  I3: the rows of `subs` and the KSub
   entries of `requests` correspond one to one.  I4: the id an entry refers to (`refs`) is held by a waiter-less call
   entry or by none, every waiter-less call entry is referred to, and `unacked` lists the KUnsubP entries.  I5: a dead
   client has empty tables and queues. *)
Record Spelled (s : st) : Prop := {
  (* I1 *)
  sp_keys_requests : NoDup (map fst (requests (m s)));
  sp_keys_subs : NoDup (map fst (subs (m s)));
  sp_keys_batches : NoDup (map fst (batches (m s)));
  sp_keys_nhandlers : NoDup (map fst (nhandlers (m s)));
  sp_keys_chans : NoDup (map fst (chans s));
  (* I2 *)
  sp_ids_allocated : forall i, In i (map fst (requests (m s)) ++ queued_ids s) -> exists n, n < next_id s /\ i = mk_id s n;
  sp_ids_distinct : NoDup (map fst (requests (m s)) ++ queued_ids s);
  sp_ranges_ok : forall r, In r (map fst (batches (m s)) ++ queued_ranges s) -> fst r < snd r /\ snd r <= next_id s;
  sp_ranges_distinct : NoDup (map fst (batches (m s)) ++ queued_ranges s);
  sp_ranges_disjoint : forall r1 r2, In r1 (map fst (batches (m s)) ++ queued_ranges s) ->
      In r2 (map fst (batches (m s)) ++ queued_ranges s) -> r1 <> r2 -> forall n, ~ (in_range r1 n /\ in_range r2 n);
  sp_ids_off_ranges : forall n r, In (mk_id s n) (map fst (requests (m s)) ++ queued_ids s) ->
      In r (map fst (batches (m s)) ++ queued_ranges s) -> ~ in_range r n;
  (* I3 *)
  sp_subs_iff : forall sid i, In (sid, i) (subs (m s)) <-> (exists u ch um, req_lookup i (m s) = Some (KSub u ch um)) /\ alookup subid_eqb sid (subs (m s)) = Some i;
  sp_sub_named : forall i u ch um, req_lookup i (m s) = Some (KSub u ch um) -> exists sid, In (sid, i) (subs (m s));
  sp_subs_one : NoDup (map snd (subs (m s)));
  (* I4 *)
  sp_reserved : forall i k u, req_lookup i (m s) = Some k -> refs k = Some u ->
      req_lookup u (m s) = Some (KCall None) \/ req_lookup u (m s) = None;
  sp_call_none : forall j, req_lookup j (m s) = Some (KCall None) ->
      exists i k, req_lookup i (m s) = Some k /\ refs k = Some j;
  sp_unacked : forall u, In u (unacked s) <-> exists j, req_lookup u (m s) = Some (KUnsubP j);
  (* I5 *)
  sp_dead : dead s = true -> m s = empty_mgr /\ queue s = [] /\ waiting s = []
}.

Lemma Inv_spelled s : Inv s -> Spelled s.
Proof.
  intros [(H1 & H2 & H3) I_chans I_dead I_busy]. pose proof (IdsC_nd_keys _ _ _ _ _ H1) as ND.
  pose proof H1 as [A_nd_ids A_lt_ids A_nd_rng A_rng_ok A_rng_disj A_id_rng A_qok].
  pose proof H2 as [B_nd_subs B_nd_subv B_subs_a B_subs_b B_res B_uniq B_none B_unsubp B_unacked].
  assert (LK : forall i k, req_lookup i (m s) = Some k <-> In (i, k) (requests (m s))).
  { intros i k. split; [apply (alookup_In id_eqb id_eqb_ok) | apply (In_alookup id_eqb id_eqb_ok); auto]. }
  constructor; auto.
  - eapply IdsC_nd_bkeys; eauto.
  - intros r1 r2 I1 I2 D n (X & Y). destruct (A_rng_disj r1 r2 I1 I2) as [E | [E | E]]; [contradiction | |]; unfold in_range in *; lia.
  - intros n r Hi Hr X. pose proof (A_id_rng _ Hi r Hr) as Y. rewrite mk_id_mkid, id_n_mkid in Y. unfold in_range in X. lia.
  - intros sid i. split.
    + intros Hs. split.
      * destruct (B_subs_a _ _ Hs) as (u & ch & um & Hu). exists u, ch, um. apply LK; auto.
      * apply (In_alookup subid_eqb subid_eqb_ok); auto.
    + intros (_ & Hs). apply (alookup_In subid_eqb subid_eqb_ok); auto.
  - intros i u ch um Hi. apply LK in Hi. eauto.
  - intros i k u Hi Hu. apply LK in Hi. destruct (B_res _ _ _ Hi Hu) as (_ & _ & _ & UK).
    destruct (req_lookup u (m s)) as [k'|] eqn:E; auto. left. apply LK in E. apply UK in E. subst. reflexivity.
  - intros j Hj. apply LK in Hj. destruct (B_none _ Hj) as (i & k & Hi & Hr). exists i, k. split; auto. apply LK; auto.
  - intros u. split.
    + intros Hu. destruct (B_unacked _ Hu) as (j & Hj). exists j. apply LK; auto.
    + intros (j & Hj). apply LK in Hj. eauto.
Qed.


Definition retired (s : st) (i : id) : Prop := (exists n, n < next_id s /\ i = mk_id s n) /\ ~ used s i.

Lemma retired_ext s s' i : Ext s s' -> retired s i -> retired s' i.
Proof.
  intros [E_str E_next E_used E_q] ((n & Hn & ->) & U). split.
  - exists n. split; [lia|]. rewrite !mk_id_mkid. congruence.
  - intros H. apply E_used in H as [H | H]; auto.
    eapply idlt_ge_False; [|exact H]. exists n. split; auto.
Qed.

Lemma retired_step s e i : Inv s -> retired s i -> retired (fst (fst (step s e))) i.
Proof. intros I. apply retired_ext. apply (step_good s e I). Qed.

Lemma retired_not_pending s i r : retired s i -> rs_id r = i -> single_response s r = RFatal s [] FNotPending.
Proof.
  intros (_ & U) E. unfold single_response, req_lookup. rewrite E.
  assert (L : alookup id_eqb i (requests (m s)) = None).
  { apply (alookup_None id_eqb id_eqb_ok). intros H. apply U. left. exact H. }
  rewrite L. reflexivity.
Qed.

Lemma removed_retired s s' i : Inv s -> Ext s s' ->
  In i (map fst (requests (m s))) -> ~ In i (map fst (requests (m s'))) ->
  (forall j k, In (j, k) (requests (m s')) -> refs k <> Some i) -> retired s' i.
Proof.
  intros I [E_str E_next E_used E_q] K NK NR. destruct (inv_core _ I) as (C & _ & _).
  assert (LT : idlt (id_str s) (next_id s) i) by (apply (ic_lt_ids _ _ _ _ _ C); apply in_app_iff; auto).
  split.
  - destruct LT as (n & Hn & ->). exists n. split; [lia|]. rewrite mk_id_mkid. congruence.
  - intros [H | [H | (j & k & H & R)]]; auto.
    + apply E_q in H as [H | H].
      * eapply IdsC_key_notq; eauto.
      * eapply idlt_ge_False; eauto.
    + eapply NR; eauto.
Qed.


Definition quiet (s : st) : Prop :=
  dead s = false /\ dying s = None /\ gated s = false /\ busy s = false /\ sendfail s = false /\
  queue s = [] /\ waiting s = [] /\ (1 <= qcap s)%nat.

(* the fields the cycles read, apart from the four tables *)
Definition same_env (s s' : st) : Prop :=
  id_str s' = id_str s /\ gone s' = gone s /\ bufcap s' = bufcap s /\ qcap s' = qcap s.

Lemma same_env_refl s : same_env s s.
Proof. repeat split. Qed.
Lemma same_env_trans s1 s2 s3 : same_env s1 s2 -> same_env s2 s3 -> same_env s1 s3.
Proof. unfold same_env. intuition congruence. Qed.

Lemma drain_stop f s : waiting s = [] -> queue s = [] -> drain (S f) s = (s, []).
Proof.
  intros W Q. cbn [drain]. rewrite W. cbn [length admit_waiting].
  destruct (busy s || dead s || match dying s with Some _ => true | None => false end); auto. rewrite Q. auto.
Qed.

Lemma drain_step f s msg q : waiting s = [] -> busy s = false -> dead s = false -> dying s = None -> queue s = msg :: q ->
  drain (S f) s = let '(s1, o1) := handle_front (upd_queue s q []) msg in let '(s2, o2) := drain f s1 in (s2, o1 ++ o2).
Proof.
  intros W B D DY Q. cbn [drain]. rewrite W. cbn [length admit_waiting]. rewrite B, D, DY, Q, W. reflexivity.
Qed.

(* all fields but the tables, the channels, the unsubscribe futures and the history variable agree *)
Record Proj (s2 s' : st) : Prop := {
  pj_next : next_id s' = next_id s2; pj_str : id_str s' = id_str s2; pj_gone : gone s' = gone s2;
  pj_subkind : subkind s' = subkind s2; pj_bufcap : bufcap s' = bufcap s2; pj_qcap : qcap s' = qcap s2;
  pj_gated : gated s' = gated s2; pj_busy : busy s' = busy s2; pj_sendfail : sendfail s' = sendfail s2;
  pj_dead : dead s' = dead s2; pj_dying : dying s' = dying s2; pj_queue : queue s' = queue s2; pj_waiting : waiting s' = waiting s2
}.

Lemma Proj_refl s : Proj s s.
Proof. constructor; reflexivity. Qed.
Lemma Proj_trans s1 s2 s3 : Proj s1 s2 -> Proj s2 s3 -> Proj s1 s3.
Proof. intros [] []. constructor; congruence. Qed.

Lemma Proj_drop_sink s c : Proj s (drop_sink s c).
Proof. destruct (drop_sink_chans s c) as (cs & ->). constructor; reflexivity. Qed.

Lemma Proj_finish s : Proj s (fst (finish_unsubs s)) /\ m (fst (finish_unsubs s)) = m s.
Proof. destruct (finish_unsubs_shape s) as (cs & -> & _). split; [constructor|]; reflexivity. Qed.

Lemma settle_zero s : dying s = None -> queue s = [] -> waiting s = [] ->
  Proj s (fst (settle s)) /\ m (fst (settle s)) = m s.
Proof.
  intros DY Q W. unfold settle, try_kill. rewrite DY, Q, W. cbn [length Nat.add]. rewrite drain_stop; auto.
  rewrite DY. pose proof (Proj_finish s). destruct (finish_unsubs s). auto.
Qed.

Lemma settle_one s1 msg s2 o :
  dead s1 = false -> dying s1 = None -> busy s1 = false -> queue s1 = [msg] -> waiting s1 = [] ->
  handle_front (upd_queue s1 [] []) msg = (s2, o) -> dying s2 = None ->
  Proj s2 (fst (settle s1)) /\ m (fst (settle s1)) = m s2.
Proof.
  intros D DY B Q W HF DY2. unfold settle, try_kill. rewrite DY, Q, W. cbn [length Nat.add].
  rewrite (drain_step 1 s1 msg []); auto. rewrite HF.
  destruct (handle_front_q (upd_queue s1 [] []) msg) as (Q2 & W2). rewrite HF in Q2, W2. cbn [fst] in Q2, W2. st_simpl.
  rewrite drain_stop; auto. rewrite DY2.
  pose proof (Proj_finish s2). destruct (finish_unsubs s2). auto.
Qed.

Lemma fresh_key s n : Inv s -> next_id s <= n -> ~ In (mk_id s n) (map fst (requests (m s))).
Proof.
  intros I L H. destruct (inv_core _ I) as (C & _ & _).
  assert (X : idlt (id_str s) (next_id s) (mk_id s n)) by (apply (ic_lt_ids _ _ _ _ _ C); apply in_app_iff; auto).
  eapply idlt_ge_False; [exact X|]. exists n. split; auto.
Qed.

Lemma fresh_range s lo hi : Inv s -> next_id s <= lo -> ~ In (lo, hi) (map fst (batches (m s))).
Proof.
  intros I L H. destruct (inv_core _ I) as (C & _ & _).
  assert (X : In (lo, hi) (rngs_of (batches (m s)) (qmsgs s))) by (apply in_app_iff; auto).
  apply (ic_rng_ok _ _ _ _ _ C) in X. cbn in X. lia.
Qed.

Lemma mk_id_neq s n n' : n <> n' -> mk_id s n <> mk_id s n'.
Proof. intros H E. rewrite !mk_id_mkid in E. apply mkid_inj in E. contradiction. Qed.

(* the range the array loop computes from the ids of a reply *)
Definition span_step (rng : option (N * N)) (n : N) : option (N * N) :=
  Some match rng with
       | None => (n, n)
       | Some (lo, hi) => (if n <? lo then n else lo, if hi <? n then n else hi)
       end.
Definition span (rng : option (N * N)) (ns : list N) : option (N * N) := fold_left span_step ns rng.

Lemma array_loop_resps s rs : forall ns acc rng got, map (fun r => id_as_number (rs_id r)) rs = map Some ns ->
  array_loop s (map IResp rs) acc rng got = inl (s, acc ++ rs, span rng ns, got).
Proof.
  induction rs as [|r rs IH]; intros ns acc rng got E.
  - destruct ns; [|discriminate]. cbn. rewrite app_nil_r. reflexivity.
  - destruct ns as [|n ns]; [discriminate|]. cbn [map] in E. inversion E as [[E1 E2]].
    cbn [map array_loop]. rewrite E1. rewrite (IH ns); auto. rewrite <- app_assoc. reflexivity.
Qed.

Lemma span_some ns : forall a0 b0, a0 <= b0 -> exists a b, span (Some (a0, b0)) ns = Some (a, b) /\
  a <= a0 /\ b0 <= b /\ (a = a0 \/ In a ns) /\ (b = b0 \/ In b ns) /\ forall n, In n ns -> a <= n <= b.
Proof.
  induction ns as [|n ns IH]; intros a0 b0 L.
  - exists a0, b0. cbn. repeat split; auto; try lia; try contradiction.
  - cbn [span fold_left span_step].
    set (a1 := if n <? a0 then n else a0). set (b1 := if b0 <? n then n else b0).
    assert (X : a1 <= a0 /\ a1 <= n /\ b0 <= b1 /\ n <= b1 /\ (a1 = a0 \/ a1 = n) /\ (b1 = b0 \/ b1 = n)).
    { unfold a1, b1. destruct (N.ltb_spec n a0), (N.ltb_spec b0 n); repeat split; auto; lia. }
    destruct X as (x1 & x2 & x3 & x4 & x5 & x6).
    destruct (IH a1 b1) as (a & b & E & y1 & y2 & y3 & y4 & y5); [lia|].
    exists a, b. split; [exact E|]. repeat split; try lia.
    + destruct y3 as [-> | y3]; [destruct x5 as [-> | ->]; auto; right; left; auto | right; right; auto].
    + destruct y4 as [-> | y4]; [destruct x6 as [-> | ->]; auto; right; left; auto | right; right; auto].
    + destruct H as [<- | H]; [lia | apply y5; auto].
    + destruct H as [<- | H]; [lia | apply y5; auto].
Qed.

Lemma span_cover ns lo hi : (forall n, In n ns -> lo <= n < hi) -> In lo ns -> In (hi - 1) ns -> span None ns = Some (lo, hi - 1).
Proof.
  intros A L H. destruct ns as [|n ns]; [contradiction|].
  destruct (span_some ns n n) as (a & b & E & y1 & y2 & y3 & y4 & y5); [lia|].
  unfold span in *. cbn [fold_left]. change (span_step None n) with (Some (n, n)). rewrite E.
  assert (Ha : In a (n :: ns)) by (destruct y3 as [-> | y3]; [left | right]; auto).
  assert (Hb : In b (n :: ns)) by (destruct y4 as [-> | y4]; [left | right]; auto).
  assert (Ra : forall k, In k (n :: ns) -> a <= k <= b).
  { intros k [<- | Hk]; [lia | apply y5; auto]. }
  apply A in Ha. apply A in Hb. apply Ra in L. apply Ra in H. f_equal. f_equal; lia.
Qed.

Lemma mk_id_env s s' n : same_env s s' -> mk_id s' n = mk_id s n.
Proof. intros (E & _). rewrite !mk_id_mkid. congruence. Qed.

Lemma alive_env s s' h : same_env s s' -> alive s' h = alive s h.
Proof. intros (_ & E & _). unfold alive. congruence. Qed.

Lemma release_mid u M Q1 Q2 : NoDup (map fst (Q1 ++ (u, KCall None) :: Q2)) -> requests M = Q1 ++ (u, KCall None) :: Q2 ->
  release_reserved u M = set_requests M (Q1 ++ Q2).
Proof.
  intros ND E. destruct (alist_mid id_eqb id_eqb_ok _ _ _ _ ND) as (L & RM & _).
  unfold release_reserved, req_lookup. rewrite E, L, RM. reflexivity.
Qed.

Lemma req_mid s i k R1 R2 : Inv s -> requests (m s) = R1 ++ (i, k) :: R2 ->
  alookup id_eqb i (requests (m s)) = Some k /\ aremove id_eqb i (requests (m s)) = R1 ++ R2 /\
  NoDup (map fst (R1 ++ R2)) /\ ~ In i (map fst (R1 ++ R2)).
Proof. intros I E. rewrite E. apply (alist_mid id_eqb id_eqb_ok). rewrite <- E. apply (Inv_spelled s I). Qed.

(* The cycles are run symbolically.  `At s0 s R S B NH nx sk`: s is a quiet state satisfying the invariant, in the
   environment of s0, whose tables, id counter and subscription handles are the given ones.  Each rule below takes one
   event from such a state to the next; an entry an event consumes is shown by its position in the table
   (R = R1 ++ entry :: R2), so that composing rules needs no reasoning about keys: distinctness comes from the
   invariant inside each rule. *)
Definition At (s0 s : st) (R : list (id * kind)) (S : list (subid * id)) (B : list ((N * N) * handle))
              (NH : list (bytes * handle)) (nx : N) (sk : list (handle * (subid + bytes))) : Prop :=
  Inv s /\ quiet s /\ same_env s0 s /\ requests (m s) = R /\ subs (m s) = S /\ batches (m s) = B /\ nhandlers (m s) = NH /\
  next_id s = nx /\ subkind s = sk.

Lemma At_start s : Inv s -> quiet s ->
  At s s (requests (m s)) (subs (m s)) (batches (m s)) (nhandlers (m s)) (next_id s) (subkind s).
Proof. intros I Q. split; auto. split; auto. split; [apply same_env_refl|]. repeat split. Qed.

(* s2: the state after the read task / the send task has handled the event; the step ends with settle *)
Lemma At_next s0 s e s2 M' nx sk : Inv s -> quiet s -> same_env s0 s ->
  Proj s2 (fst (fst (step s e))) /\ m (fst (fst (step s e))) = m s2 -> m s2 = M' -> Proj (upd_subkind (upd_next s nx) sk) s2 ->
  At s0 (fst (fst (step s e))) (requests M') (subs M') (batches M') (nhandlers M') nx sk.
Proof.
  intros I (q1 & q2 & q3 & q4 & q5 & q6 & q7 & q8) (e1 & e2 & e3 & e4) ([] & M1) M2 []. st_simpl.
  split; [apply step_inv; exact I|]. unfold quiet, same_env. rewrite M1, M2. repeat split; congruence.
Qed.

(* `Proj a b` where b is a written-out tower of field updates over a: each of the thirteen fields is equal by
   conversion, or by an equation in the context *)
Ltac proj_tac := constructor; st_simpl; try reflexivity; try congruence.

(* a front-end event that puts one message into the empty queue: the send task handles it at once *)
Lemma At_front s0 s e sA msg tag s2 o M' nx sk : Inv s -> quiet s -> same_env s0 s ->
  apply s e = (enqueue_tagged sA msg tag, [], None) -> quiet sA ->
  handle_front (upd_queue (enqueue_tagged sA msg tag) [] []) msg = (s2, o) ->
  m s2 = M' -> Proj (upd_subkind (upd_next s nx) sk) s2 ->
  At s0 (fst (fst (step s e))) (requests M') (subs M') (batches M') (nhandlers M') nx sk.
Proof.
  intros I QT EV A (D & DY & G & B & F & Q & W & C) HF M2 P2. apply (At_next s0 s e s2 M' nx sk I QT EV); auto.
  assert (DY2 : dying s2 = None) by (destruct QT as (_ & DYs & _), P2; st_simpl; congruence).
  unfold step. rewrite A. revert HF. rewrite enqueue_quiet by assumption. intros HF.
  match type of HF with handle_front (upd_queue ?x _ _) _ = _ => set (s1 := x) in * end.
  assert (X : dead s1 = false /\ dying s1 = None /\ busy s1 = false /\ queue s1 = [msg] /\ waiting s1 = []) by (unfold s1; destruct tag; auto).
  destruct X as (D1 & DY1 & B1 & Q1 & W1).
  pose proof (settle_one s1 msg s2 o D1 DY1 B1 Q1 W1 HF DY2) as ST. destruct (settle s1). exact ST.
Qed.

Lemma At_back s0 s raw s1 o M' sk : Inv s -> quiet s -> same_env s0 s ->
  handle_back s (classify_frame raw) = ROk s1 o -> m s1 = M' -> Proj (upd_subkind (upd_next s (next_id s)) sk) s1 ->
  At s0 (fst (fst (step s (Back raw)))) (requests M') (subs M') (batches M') (nhandlers M') (next_id s) sk.
Proof.
  intros I QT EV H M1 P1. apply (At_next s0 s _ s1 M' _ sk I QT EV); auto.
  destruct QT as (D & DY & G & B & F & Q & W & C).
  assert (X : queue s1 = [] /\ waiting s1 = [] /\ dying s1 = None) by (destruct P1; st_simpl; repeat split; congruence).
  destruct X as (Q1 & W1 & DY1). unfold step, apply. rewrite D, DY, H.
  pose proof (settle_zero s1 DY1 Q1 W1) as ST. destruct (settle s1). exact ST.
Qed.

Lemma at_call s0 s R S B NH nx sk h me p : At s0 s R S B NH nx sk ->
  At s0 (fst (fst (step s (FCall h me p)))) ((mk_id s0 nx, KCall (Some h)) :: R) S B NH (nx + 1) sk.
Proof.
  intros (I & QT & EV & <- & <- & <- & <- & <- & <-). pose proof QT as (D & DY & G & BU & F & Q & W & C).
  rewrite <- (mk_id_env s0 s (next_id s) EV). set (i := mk_id s (next_id s)).
  set (raw := ser_request {| rq_id := i; rq_method := me; rq_params := p |}).
  eapply (At_front s0 s _ (upd_next s (next_id s + 1)) (MRequest i (Some h) raw) None _ _
            (set_requests (m s) ((i, KCall (Some h)) :: requests (m s))) _ _ I QT EV).
  - unfold apply. rewrite D. reflexivity.
  - exact QT.
  - rewrite enqueue_quiet by assumption. cbn [handle_front]. st_simpl.
    rewrite (proj2 (ahas_false id_eqb id_eqb_ok i _)) by (apply fresh_key; auto; lia). apply wire_quiet; auto.
  - reflexivity.
  - proj_tac.
Qed.

Lemma at_subscribe s0 s R S B NH nx sk h sm um p : At s0 s R S B NH nx sk -> bytes_eqb sm um = false ->
  At s0 (fst (fst (step s (FSubscribe h sm um p))))
     ((mk_id s0 (nx + 1), KCall None) :: (mk_id s0 nx, KPendSub (mk_id s0 (nx + 1)) h um) :: R) S B NH (nx + 2) sk.
Proof.
  intros (I & QT & EV & <- & <- & <- & <- & <- & <-) NE. pose proof QT as (D & DY & G & BU & F & Q & W & C).
  rewrite <- (mk_id_env s0 s (next_id s) EV), <- (mk_id_env s0 s (next_id s + 1) EV).
  set (si := mk_id s (next_id s)). set (ui := mk_id s (next_id s + 1)).
  set (raw := ser_request {| rq_id := si; rq_method := sm; rq_params := p |}).
  eapply (At_front s0 s _ (upd_next s (next_id s + 2)) (MSubscribe si ui um h raw) None _ _
            (set_requests (m s) ((ui, KCall None) :: (si, KPendSub ui h um) :: requests (m s))) _ _ I QT EV).
  - unfold apply. rewrite D, NE. reflexivity.
  - exact QT.
  - rewrite enqueue_quiet by assumption. cbn [handle_front]. st_simpl.
    rewrite (proj2 (ahas_false id_eqb id_eqb_ok si _)) by (apply fresh_key; auto; lia).
    rewrite (proj2 (ahas_false id_eqb id_eqb_ok ui _)) by (apply fresh_key; auto; lia).
    rewrite (eqb_neq id_eqb id_eqb_ok si ui) by (apply mk_id_neq; lia). cbn [negb andb]. apply wire_quiet; auto.
  - reflexivity.
  - proj_tac.
Qed.

Lemma at_batch s0 s R S B NH nx sk h es : At s0 s R S B NH nx sk -> es <> [] ->
  At s0 (fst (fst (step s (FBatch h es)))) R S (((nx, nx + N.of_nat (length es)), h) :: B) NH (nx + N.of_nat (length es)) sk.
Proof.
  intros (I & QT & EV & <- & <- & <- & <- & <- & <-) NE. pose proof QT as (D & DY & G & BU & F & Q & W & C).
  destruct es as [|e0 es]; [congruence|]. set (es' := e0 :: es) in *.
  set (lo := next_id s). set (hi := lo + N.of_nat (length es')).
  eapply (At_front s0 s _ (upd_next s hi) (MBatch lo hi h (batch_raw s lo es')) None _ _
            (set_batches (m s) (((lo, hi), h) :: batches (m s))) _ _ I QT EV).
  - unfold apply. rewrite D. reflexivity.
  - exact QT.
  - rewrite enqueue_quiet by assumption. cbn [handle_front]. st_simpl.
    rewrite (proj2 (ahas_false range_eqb range_eqb_ok (lo, hi) _)); [apply wire_quiet; auto|].
    apply fresh_range; auto; unfold lo; lia.
  - reflexivity.
  - proj_tac.
Qed.

Lemma at_submethod s0 s R S B NH nx sk h me : At s0 s R S B NH nx sk -> ~ In me (map fst NH) -> alive s0 h = true ->
  At s0 (fst (fst (step s (FSubMethod h me)))) R S B ((me, h) :: NH) nx ((h, inr me) :: sk).
Proof.
  intros (I & QT & EV & <- & <- & <- & <- & <- & <-) NI AL. pose proof QT as (D & DY & G & BU & F & Q & W & C).
  rewrite <- (alive_env s0 s h EV) in AL. apply (ahas_false bytes_eqb bytes_eqb_eq) in NI.
  eapply (At_front s0 s _ s (MRegister me h) None _ _ (set_nhandlers (m s) ((me, h) :: nhandlers (m s))) _ _ I QT EV).
  - unfold apply. rewrite D. reflexivity.
  - exact QT.
  - rewrite enqueue_quiet by assumption. cbn [handle_front]. st_simpl. rewrite NI. unfold alive in *. st_simpl. rewrite AL. reflexivity.
  - reflexivity.
  - proj_tac.
Qed.

(* The state the send task leaves is given by its tables and `Proj`, not written out: in the callers sx is a tower of
   field updates, and a written-out result makes Qed expand it *)
Lemma do_unsub_result sx sid rid u ch um :
  alookup subid_eqb sid (subs (m sx)) = Some rid -> req_lookup rid (m sx) = Some (KSub u ch um) ->
  sendfail sx = false -> gated sx = false ->
  exists s2 o, do_unsubscribe sx sid = (s2, o) /\
    m s2 = set_subs (set_requests (m sx) (aset id_eqb u (KUnsubP rid) (aset id_eqb rid (KCall None) (requests (m sx)))))
                    (aremove subid_eqb sid (subs (m sx))) /\
    Proj sx s2.
Proof.
  intros L1 L2 F G. unfold do_unsubscribe. rewrite L1, L2.
  set (m1 := set_subs _ _). set (s1 := drop_sink (upd_m sx m1) ch).
  pose proof (Proj_drop_sink (upd_m sx m1) ch) as PD. pose proof (drop_sink_m (upd_m sx m1) ch) as SD. fold s1 in PD, SD.
  assert (F1 : sendfail (upd_unacked s1 (u :: unacked s1)) = false) by (destruct PD; st_simpl; congruence).
  assert (G1 : gated (upd_unacked s1 (u :: unacked s1)) = false) by (destruct PD; st_simpl; congruence).
  rewrite (wire_quiet _ _ F1 G1). eexists _, _. split; [reflexivity|]. split; [exact SD|]. destruct PD. proj_tac.
Qed.

Lemma at_unsub s0 s R S B NH nx sk h2 sh sid rid u ch um S1 S2 R1 R2 Q1 Q2 : At s0 s R S B NH nx sk ->
  alookup N.eqb sh sk = Some (inl sid) -> S = S1 ++ (sid, rid) :: S2 -> R = R1 ++ (rid, KSub u ch um) :: R2 ->
  R1 ++ R2 = Q1 ++ (u, KCall None) :: Q2 ->
  At s0 (fst (fst (step s (FUnsub h2 sh)))) ((u, KUnsubP rid) :: (rid, KCall None) :: Q1 ++ Q2) (S1 ++ S2) B NH nx
     (aremove N.eqb sh sk).
Proof.
  intros (I & QT & EV & <- & <- & <- & <- & <- & <-) K ES ER EQ. pose proof QT as (D & DY & G & BU & F & Q & W & C).
  destruct (alist_mid subid_eqb subid_eqb_ok sid rid S1 S2) as (LS & RMS & _); [rewrite <- ES; apply (Inv_spelled s I)|].
  destruct (req_mid s rid (KSub u ch um) R1 R2 I ER) as (L & RM & ND & NK).
  rewrite EQ in ND, NK. destruct (alist_mid id_eqb id_eqb_ok u (KCall None) Q1 Q2 ND) as (_ & RM2 & _).
  rewrite <- ES in LS, RMS. rewrite <- RMS.
  assert (T : aset id_eqb u (KUnsubP rid) (aset id_eqb rid (KCall None) (requests (m s))) = (u, KUnsubP rid) :: (rid, KCall None) :: Q1 ++ Q2).
  { unfold aset. rewrite RM, EQ. cbn [aremove]. rewrite (eqb_neq id_eqb id_eqb_ok u rid), RM2; [reflexivity|].
    intros ->. apply NK. rewrite map_app. apply in_app_iff. right. left. reflexivity. }
  set (sA := upd_unsubw (upd_subkind s (aremove N.eqb sh (subkind s))) (unsubw s ++ [(h2, sh, false)])).
  set (s1 := upd_unsubw (upd_queue sA [MSubClosed sid] []) (mark_admitted h2 (unsubw sA))).
  destruct (do_unsub_result (upd_queue s1 [] []) sid rid u ch um LS L F G) as (s2 & o & HF & M2 & P2).
  eapply (At_front s0 s _ sA (MSubClosed sid) (Some h2) s2 o
            (set_subs (set_requests (m s) ((u, KUnsubP rid) :: (rid, KCall None) :: Q1 ++ Q2)) (aremove subid_eqb sid (subs (m s)))) _ _ I QT EV).
  - unfold apply. rewrite D. unfold close_msg_of. rewrite K. reflexivity.
  - exact QT.
  - rewrite enqueue_quiet by assumption. exact HF.
  - rewrite M2. change (m (upd_queue s1 [] [])) with (m s). rewrite T. reflexivity.
  - eapply Proj_trans; [|exact P2]. unfold s1, sA. proj_tac.
Qed.

Lemma at_unsub_method s0 s R S B NH nx sk h2 sh me ch N1 N2 : At s0 s R S B NH nx sk ->
  alookup N.eqb sh sk = Some (inr me) -> NH = N1 ++ (me, ch) :: N2 ->
  At s0 (fst (fst (step s (FUnsub h2 sh)))) R S B (N1 ++ N2) nx (aremove N.eqb sh sk).
Proof.
  intros (I & QT & EV & <- & <- & <- & <- & <- & <-) K EN. pose proof QT as (D & DY & G & BU & F & Q & W & C).
  destruct (alist_mid bytes_eqb bytes_eqb_eq me ch N1 N2) as (L & RM & _); [rewrite <- EN; apply (Inv_spelled s I)|].
  rewrite <- EN in L, RM. rewrite <- RM.
  eapply (At_front s0 s _ (upd_unsubw (upd_subkind s (aremove N.eqb sh (subkind s))) (unsubw s ++ [(h2, sh, false)])) (MUnregister me) (Some h2) _ _
            (set_nhandlers (m s) (aremove bytes_eqb me (nhandlers (m s)))) _ _ I QT EV).
  - unfold apply. rewrite D. unfold close_msg_of. rewrite K. reflexivity.
  - exact QT.
  - rewrite enqueue_quiet by assumption. cbn [handle_front]. st_simpl. rewrite L. reflexivity.
  - cbn [fst]. rewrite drop_sink_m. reflexivity.
  - eapply Proj_trans; [|apply Proj_drop_sink]. proj_tac.
Qed.

Lemma at_resp_call s0 s R S B NH nx sk raw r w R1 R2 : At s0 s R S B NH nx sk ->
  classify_frame raw = FSingle (IResp r) -> R = R1 ++ (rs_id r, KCall w) :: R2 ->
  At s0 (fst (fst (step s (Back raw)))) (R1 ++ R2) S B NH nx sk.
Proof.
  intros (I & QT & EV & <- & <- & <- & <- & <- & <-) CF ER.
  destruct (req_mid s (rs_id r) (KCall w) R1 R2 I ER) as (L & RM & _).
  rewrite <- RM.
  eapply (At_back s0 s raw _ _ (set_requests (m s) (aremove id_eqb (rs_id r) (requests (m s)))) (subkind s) I QT EV).
  - rewrite CF, handle_back_now. cbn [handle_back_ref handle_elem_single_ref]. unfold single_response, req_lookup. rewrite L. reflexivity.
  - reflexivity.
  - proj_tac.
Qed.

Lemma at_resp_sub_ok s0 s R S B NH nx sk raw r u w um pl sid R1 R2 : At s0 s R S B NH nx sk ->
  classify_frame raw = FSingle (IResp r) -> R = R1 ++ (rs_id r, KPendSub u w um) :: R2 ->
  rs_payload r = PResult pl -> parse_subid pl = Some sid -> ~ In sid (map fst S) -> alive s0 w = true ->
  At s0 (fst (fst (step s (Back raw)))) ((rs_id r, KSub u w um) :: R1 ++ R2) ((sid, rs_id r) :: S) B NH nx ((w, inl sid) :: sk).
Proof.
  intros (I & QT & EV & <- & <- & <- & <- & <- & <-) CF ER PL PS NI AL.
  rewrite <- (alive_env s0 s w EV) in AL. apply (ahas_false subid_eqb subid_eqb_ok) in NI.
  destruct (req_mid s (rs_id r) (KPendSub u w um) R1 R2 I ER) as (L & RM & _).
  rewrite <- RM.
  eapply (At_back s0 s raw _ _
            (set_subs (set_requests (set_requests (m s) (aremove id_eqb (rs_id r) (requests (m s))))
                                    ((rs_id r, KSub u w um) :: aremove id_eqb (rs_id r) (requests (m s))))
                      ((sid, rs_id r) :: subs (m s))) ((w, inl sid) :: subkind s) I QT EV).
  - rewrite CF, handle_back_now. cbn [handle_back_ref handle_elem_single_ref]. unfold single_response, req_lookup. rewrite L, PL, PS.
    cbn [subs set_requests requests]. rewrite NI, AL. reflexivity.
  - reflexivity.
  - proj_tac.
Qed.

(* a refused subscribe answer: the reserved unsubscribe id goes with the request *)
Lemma at_resp_sub_err s0 s R S B NH nx sk raw r u w um e R1 R2 Q1 Q2 : At s0 s R S B NH nx sk ->
  classify_frame raw = FSingle (IResp r) -> R = R1 ++ (rs_id r, KPendSub u w um) :: R2 -> rs_payload r = PError e ->
  R1 ++ R2 = Q1 ++ (u, KCall None) :: Q2 ->
  At s0 (fst (fst (step s (Back raw)))) (Q1 ++ Q2) S B NH nx sk.
Proof.
  intros (I & QT & EV & <- & <- & <- & <- & <- & <-) CF ER PL EQ.
  destruct (req_mid s (rs_id r) (KPendSub u w um) R1 R2 I ER) as (L & RM & ND & _).
  rewrite EQ in ND, RM.
  set (M1 := set_requests (m s) (aremove id_eqb (rs_id r) (requests (m s)))).
  eapply (At_back s0 s raw _ _ (set_requests M1 (Q1 ++ Q2)) (subkind s) I QT EV).
  - rewrite CF, handle_back_now. cbn [handle_back_ref handle_elem_single_ref]. unfold single_response, req_lookup. rewrite L, PL. reflexivity.
  - exact (release_mid u M1 Q1 Q2 ND RM).
  - proj_tac.
Qed.

(* the acknowledgement of an unsubscribe call: the kept subscribe id goes with it *)
Lemma at_resp_unsubp s0 s R S B NH nx sk raw r sub R1 R2 Q1 Q2 : At s0 s R S B NH nx sk ->
  classify_frame raw = FSingle (IResp r) -> R = R1 ++ (rs_id r, KUnsubP sub) :: R2 ->
  R1 ++ R2 = Q1 ++ (sub, KCall None) :: Q2 ->
  At s0 (fst (fst (step s (Back raw)))) (Q1 ++ Q2) S B NH nx sk.
Proof.
  intros (I & QT & EV & <- & <- & <- & <- & <- & <-) CF ER EQ.
  destruct (req_mid s (rs_id r) (KUnsubP sub) R1 R2 I ER) as (L & RM & ND & _).
  rewrite EQ in ND. destruct (alist_mid id_eqb id_eqb_ok sub (KCall None) Q1 Q2 ND) as (L2 & RM2 & _).
  eapply (At_back s0 s raw _ _ (set_requests (m s) (Q1 ++ Q2)) (subkind s) I QT EV).
  - rewrite CF, handle_back_now. cbn [handle_back_ref handle_elem_single_ref]. unfold single_response, req_lookup. rewrite L.
    cbv beta iota zeta. rewrite RM, EQ, L2, RM2. reflexivity.
  - reflexivity.
  - proj_tac.
Qed.

Lemma at_sub_close s0 s R S B NH nx sk raw me sid pl rid u ch um S1 S2 R1 R2 Q1 Q2 : At s0 s R S B NH nx sk ->
  classify_frame raw = FSingle (ISubErr me sid pl) -> S = S1 ++ (sid, rid) :: S2 -> R = R1 ++ (rid, KSub u ch um) :: R2 ->
  R1 ++ R2 = Q1 ++ (u, KCall None) :: Q2 ->
  At s0 (fst (fst (step s (Back raw)))) (Q1 ++ Q2) (S1 ++ S2) B NH nx sk.
Proof.
  intros (I & QT & EV & <- & <- & <- & <- & <- & <-) CF ES ER EQ.
  destruct (alist_mid subid_eqb subid_eqb_ok sid rid S1 S2) as (LS & RMS & _); [rewrite <- ES; apply (Inv_spelled s I)|].
  destruct (req_mid s rid (KSub u ch um) R1 R2 I ER) as (L & RM & ND & _).
  rewrite <- ES in LS, RMS. rewrite EQ in ND, RM. rewrite <- RMS.
  set (M1 := set_subs (set_requests (m s) (aremove id_eqb rid (requests (m s)))) (aremove subid_eqb sid (subs (m s)))).
  eapply (At_back s0 s raw _ _ (set_requests M1 (Q1 ++ Q2)) (subkind s) I QT EV).
  - rewrite CF, handle_back_now. cbn [handle_back_ref handle_elem_single_ref]. unfold sub_close, req_lookup. rewrite LS, L. reflexivity.
  - rewrite drop_sink_m. exact (release_mid u M1 Q1 Q2 ND RM).
  - eapply Proj_trans; [|apply Proj_drop_sink]. proj_tac.
Qed.

Lemma at_batch_reply s0 s R S B NH nx sk raw rs ns lo hi h B1 B2 : At s0 s R S B NH nx sk ->
  classify_frame raw = FArray (map IResp rs) -> map (fun r => id_as_number (rs_id r)) rs = map Some ns ->
  (forall n, In n ns -> lo <= n < hi) -> In lo ns -> In (hi - 1) ns -> hi - 1 <> u64_max ->
  B = B1 ++ ((lo, hi), h) :: B2 ->
  At s0 (fst (fst (step s (Back raw)))) R S (B1 ++ B2) NH nx sk.
Proof.
  intros (I & QT & EV & <- & <- & <- & <- & <- & <-) CF E A L H U EB.
  assert (LH : lo < hi) by (apply A in L; lia).
  destruct (alist_mid range_eqb range_eqb_ok (lo, hi) h B1 B2) as (LK & RM & _); [rewrite <- EB; apply (Inv_spelled s I)|].
  rewrite <- EB in LK, RM. rewrite <- RM.
  eapply (At_back s0 s raw _ _ (set_batches (m s) (aremove range_eqb (lo, hi) (batches (m s)))) (subkind s) I QT EV).
  - rewrite CF, handle_back_now. cbn [handle_back_ref]. rewrite (array_loop_resps s rs ns [] None false E).
    rewrite (span_cover ns lo hi A L H). apply N.eqb_neq in U. rewrite U.
    replace (hi - 1 + 1) with hi by lia. unfold batch_response. rewrite LK. reflexivity.
  - reflexivity.
  - proj_tac.
Qed.

Definition Closed (s s' : st) : Prop :=
  Inv s' /\ quiet s' /\ same_env s s' /\
  requests (m s') = requests (m s) /\ subs (m s') = subs (m s) /\ batches (m s') = batches (m s) /\ nhandlers (m s') = nhandlers (m s).

Lemma Closed_refl s : Inv s -> quiet s -> Closed s s.
Proof. intros I Q. split; auto. split; auto. split; [apply same_env_refl|]. repeat split. Qed.

Lemma Closed_trans s1 s2 s3 : Closed s1 s2 -> Closed s2 s3 -> Closed s1 s3.
Proof.
  intros (a1 & a2 & a3 & a4 & a5 & a6 & a7) (b1 & b2 & b3 & b4 & b5 & b6 & b7).
  split; auto. split; auto. split; [eapply same_env_trans; eauto|]. repeat split; congruence.
Qed.

Lemma Closed_sizes s s' : Closed s s' -> table_sizes s' = table_sizes s.
Proof. intros (_ & _ & _ & a & b & c & d). unfold table_sizes. rewrite a, b, c, d. reflexivity. Qed.

Lemma run_fst_cons s e es : fst (run s (e :: es)) = fst (run (fst (fst (step s e))) es).
Proof. rewrite run_cons. reflexivity. Qed.

(* (a) a call and its answer; (b) subscribe, accepted, unsubscribe, acknowledged; (c) subscribe, refused; (d) subscribe,
   accepted, closed by the server; (e) a batch and its complete array reply (`hi - 1 <> u64_max`: the read task computes
   the range end as `range.end.checked_add(1)`); (f) a notification method registered and unregistered *)
Inductive cycle (s : st) : list ev -> Prop :=
| cy_call h me p raw r :
    classify_frame raw = FSingle (IResp r) -> rs_id r = mk_id s (next_id s) ->
    cycle s [FCall h me p; Back raw]
| cy_sub_unsub h sm um p raw1 r1 pl sid h2 raw2 r2 :
    bytes_eqb sm um = false -> alive s h = true ->
    classify_frame raw1 = FSingle (IResp r1) -> rs_id r1 = mk_id s (next_id s) ->
    rs_payload r1 = PResult pl -> parse_subid pl = Some sid -> ~ In sid (map fst (subs (m s))) ->
    classify_frame raw2 = FSingle (IResp r2) -> rs_id r2 = mk_id s (next_id s + 1) ->
    cycle s [FSubscribe h sm um p; Back raw1; FUnsub h2 h; Back raw2]
| cy_sub_refused h sm um p raw r e :
    bytes_eqb sm um = false ->
    classify_frame raw = FSingle (IResp r) -> rs_id r = mk_id s (next_id s) -> rs_payload r = PError e ->
    cycle s [FSubscribe h sm um p; Back raw]
| cy_sub_closed h sm um p raw1 r1 pl sid raw2 me pl2 :
    bytes_eqb sm um = false -> alive s h = true ->
    classify_frame raw1 = FSingle (IResp r1) -> rs_id r1 = mk_id s (next_id s) ->
    rs_payload r1 = PResult pl -> parse_subid pl = Some sid -> ~ In sid (map fst (subs (m s))) ->
    classify_frame raw2 = FSingle (ISubErr me sid pl2) ->
    cycle s [FSubscribe h sm um p; Back raw1; Back raw2]
| cy_batch h es raw rs ns :
    es <> [] -> classify_frame raw = FArray (map IResp rs) ->
    map (fun r => id_as_number (rs_id r)) rs = map Some ns ->
    (forall n, In n ns -> next_id s <= n < next_id s + N.of_nat (length es)) ->
    In (next_id s) ns -> In (next_id s + N.of_nat (length es) - 1) ns ->
    next_id s + N.of_nat (length es) - 1 <> u64_max ->
    cycle s [FBatch h es; Back raw]
| cy_method h me h2 :
    ~ In me (map fst (nhandlers (m s))) -> alive s h = true ->
    cycle s [FSubMethod h me; FUnsub h2 h].

Lemma At_closed s s' nx sk : At s s' (requests (m s)) (subs (m s)) (batches (m s)) (nhandlers (m s)) nx sk -> Closed s s'.
Proof. unfold At, Closed. tauto. Qed.

Theorem cycle_returns s es : Inv s -> quiet s -> cycle s es -> Closed s (fst (run s es)).
Proof.
  intros I QT CY. pose proof (At_start s I QT) as A.
  destruct CY as [h me p raw r CF E
                 |h sm um p raw1 r1 pl sid h2 raw2 r2 NE AL CF1 E1 PL PS NS CF2 E2
                 |h sm um p raw r e NE CF E PL
                 |h sm um p raw1 r1 pl sid raw2 me pl2 NE AL CF1 E1 PL PS NS CF2
                 |h es raw rs ns NE CF EN RG LO HI U
                 |h me h2 NI AL]; rewrite !run_fst_cons; cbn [run fst].
  - (* call, answer *)
    eapply at_call with (h := h) (me := me) (p := p) in A.
    eapply at_resp_call with (raw := raw) (R1 := []) in A; [|exact CF|rewrite E; reflexivity].
    exact (At_closed _ _ _ _ A).
  - (* subscribe, accept, unsubscribe, acknowledge *)
    eapply at_subscribe with (h := h) (p := p) in A; [|exact NE].
    eapply at_resp_sub_ok with (raw := raw1) (R1 := [_]) in A; [|exact CF1|rewrite E1; reflexivity|exact PL|exact PS|exact NS|exact AL].
    eapply at_unsub with (h2 := h2) (S1 := []) (R1 := []) (Q1 := []) in A;
      [|cbn [alookup]; rewrite N.eqb_refl; reflexivity|reflexivity|reflexivity|reflexivity].
    eapply at_resp_unsubp with (raw := raw2) (R1 := []) (Q1 := []) in A; [|exact CF2|rewrite E2; reflexivity|reflexivity].
    exact (At_closed _ _ _ _ A).
  - (* subscribe, refused *)
    eapply at_subscribe with (h := h) (p := p) in A; [|exact NE].
    eapply at_resp_sub_err with (raw := raw) (R1 := [_]) (Q1 := []) in A; [|exact CF|rewrite E; reflexivity|exact PL|reflexivity].
    exact (At_closed _ _ _ _ A).
  - (* subscribe, accept, closed by the server *)
    eapply at_subscribe with (h := h) (p := p) in A; [|exact NE].
    eapply at_resp_sub_ok with (raw := raw1) (R1 := [_]) in A; [|exact CF1|rewrite E1; reflexivity|exact PL|exact PS|exact NS|exact AL].
    eapply at_sub_close with (raw := raw2) (S1 := []) (R1 := []) (Q1 := []) in A; [|exact CF2|reflexivity|reflexivity|reflexivity].
    exact (At_closed _ _ _ _ A).
  - (* batch, complete array reply *)
    eapply at_batch with (h := h) in A; [|exact NE].
    eapply at_batch_reply with (raw := raw) (B1 := []) in A; [|exact CF|exact EN|exact RG|exact LO|exact HI|exact U|reflexivity].
    exact (At_closed _ _ _ _ A).
  - (* notification method: subscribe, unsubscribe *)
    eapply at_submethod with (h := h) (me := me) in A; [|exact NI|exact AL].
    eapply at_unsub_method with (h2 := h2) (N1 := []) in A; [|cbn [alookup]; rewrite N.eqb_refl; reflexivity|reflexivity].
    exact (At_closed _ _ _ _ A).
Qed.

Inductive cycles (s : st) : list ev -> Prop :=
| cs_nil : cycles s []
| cs_cons es es' : cycle s es -> cycles (fst (run s es)) es' -> cycles s (es ++ es').

Theorem cycles_return s es : Inv s -> quiet s -> cycles s es -> Closed s (fst (run s es)).
Proof.
  intros I QT CS. induction CS as [s | s es es' CY CS IH].
  - apply Closed_refl; auto.
  - rewrite run_app. pose proof (cycle_returns s es I QT CY) as C1.
    eapply Closed_trans; [exact C1|]. apply IH; apply C1.
Qed.

Theorem cycle_sizes s es : Inv s -> quiet s -> cycle s es -> table_sizes (fst (run s es)) = table_sizes s.
Proof. intros I QT CY. apply Closed_sizes. apply cycle_returns; auto. Qed.


Definition Keep (s s' : st) : Prop := (forall x, In x (batches (m s)) -> In x (batches (m s'))) \/ dead s' = true.

Lemma Keep_refl s : Keep s s.
Proof. left; auto. Qed.

Lemma Keep_m s s' : batches (m s') = batches (m s) -> Keep s s'.
Proof. intros E. left. rewrite E. auto. Qed.

Lemma Keep_trans s1 s2 s3 : Keep s1 s2 -> (dead s2 = true -> dead s3 = true) -> Keep s2 s3 -> Keep s1 s3.
Proof.
  intros [A | A] D [B | B]; try (right; auto; fail). left; auto.
Qed.

Lemma handle_front_keep s msg x : In x (batches (m s)) -> In x (batches (m (fst (handle_front s msg)))).
Proof.
  intros Hx. destruct msg as [lo hi h raw | raw | i w raw | si ui um h raw | me h | me | sid]; cbn [handle_front].
  - destruct (ahas _ _ _); auto. rewrite wire_m. st_simpl. cbn [batches set_batches]. right. exact Hx.
  - rewrite wire_m. exact Hx.
  - destruct (ahas _ _ _); auto. rewrite wire_m. exact Hx.
  - destruct (_ && _); auto. rewrite wire_m. exact Hx.
  - destruct (ahas _ _ _); auto. destruct (alive s h); exact Hx.
  - destruct (alookup _ _ _); auto. cbn [fst]. rewrite drop_sink_m. exact Hx.
  - unfold do_unsubscribe. destruct (alookup _ _ _); auto. destruct (req_lookup _ _) as [[w|u w um|u ch um|j]|]; auto.
    rewrite wire_m. st_simpl. rewrite drop_sink_m. exact Hx.
Qed.

Lemma settle_keep s : Keep s (fst (settle s)).
Proof.
  apply (settle_lift (fun s' => Keep s s') (fun _ => True)).
  - intros f s0 J. pose proof (admit_waiting_sameq f s0) as Q.
    destruct J as [J | J]; [left; rewrite (sq_m _ _ Q); exact J | right; rewrite (sq_dead _ _ Q); exact J].
  - intros s0 msg q J Q D _ _. split; [|apply Forall_forall; auto]. destruct J as [J | J]; [|congruence].
    left. intros x Hx. apply handle_front_keep; auto.
  - intros s0 f _ _ _ _. split; [right; reflexivity | apply Forall_forall; auto].
  - intros s0 J. split; [|apply Forall_forall; auto]. destruct (finish_unsubs_shape s0) as (cs & -> & _). exact J.
  - apply Keep_refl.
Qed.

Lemma single_response_batches s r : batches (m (rres_st (single_response s r))) = batches (m s).
Proof.
  unfold single_response. destruct (req_lookup _ _) as [[w|u w um|u ch um|sub]|]; cbn [rres_st]; auto.
  set (m1 := set_requests _ _).
  assert (E : batches (m (upd_m s (release_reserved u m1))) = batches (m s)) by exact (proj1 (proj2 (release_frame u m1))).
  destruct (rs_payload r); cbn [rres_st]; auto. destruct (parse_subid raw); cbn [rres_st]; auto.
  destruct (ahas _ _ _); cbn [rres_st]; auto. destruct (alive s w); cbn [rres_st]; auto.
  rewrite forward_m. reflexivity.
Qed.

Lemma elem_single_batches s x : batches (m (rres_st (handle_elem_single_ref s x))) = batches (m s).
Proof.
  destruct x as [r|me sid p|me sid p|me p|]; cbn [handle_elem_single_ref rres_st]; auto.
  - apply single_response_batches.
  - unfold sub_deliver. destruct (alookup _ _ _); auto. destruct (req_lookup _ _) as [[w|u w um|u ch um|j]|]; auto.
    destruct (chan_of s ch); auto. destruct (chan_send c p) as [c' []]; auto; rewrite forward_m; reflexivity.
  - unfold sub_close. destruct (alookup _ _ _); auto. destruct (req_lookup _ _) as [[w|u w um|u ch um|j]|]; auto.
    rewrite drop_sink_m. st_simpl. exact (proj1 (proj2 (release_frame u _))).
  - unfold notif_deliver. destruct (alookup _ _ _) as [ch|]; auto. destruct (chan_of s ch); auto.
    destruct (chan_send c _) as [c' []]; auto; rewrite drop_sink_m; reflexivity.
Qed.

Lemma apply_batches s e :
  (exists raw ms, e = Back raw /\ classify_frame raw = FArray ms) \/ batches (m (fst (fst (apply s e)))) = batches (m s).
Proof.
  assert (PN : forall sh, batches (m (fst (fst (let '(s', r) := poll_next s sh in (s', @nil out, Some r))))) = batches (m s)).
  { intros sh. pose proof (poll_next_m s sh) as E. destruct (poll_next s sh). cbn [fst] in *. rewrite E. reflexivity. }
  unfold apply. destruct (dead s).
  - right. destruct e; cbn [fst]; auto.
    + destruct (close_msg_of s sh); auto. destruct (chan_of s sh); auto.
    + destruct (close_msg_of s sh); auto. destruct (chan_of s sh); auto.
  - destruct e; cbn [fst]; try (right; rewrite ?enqueue_m; reflexivity).
    + right. destruct entries; cbn [fst]; rewrite ?enqueue_m; reflexivity.
    + right. destruct (bytes_eqb sub unsub); cbn [fst]; rewrite ?enqueue_m; reflexivity.
    + right. apply PN.
    + right. destruct (close_msg_of s sh); cbn [fst]; rewrite ?enqueue_tagged_m; reflexivity.
    + right. destruct (close_msg_of s sh); auto. destruct (chan_of s sh); cbn [fst]; rewrite ?try_enqueue_m; reflexivity.
    + destruct (dying s); [right; reflexivity|].
      destruct (classify_frame raw) as [x0|ms|] eqn:CF; [right | left; eauto | right]; rewrite handle_back_now; cbn [handle_back_ref].
      * pose proof (elem_single_batches s x0) as E. destruct (handle_elem_single_ref s x0); exact E.
      * reflexivity.
Qed.

Lemma step_keep s e : (exists raw ms, e = Back raw /\ classify_frame raw = FArray ms) \/ Keep s (fst (fst (step s e))).
Proof.
  destruct (apply_batches s e) as [A | K1]; [left; exact A | right].
  unfold step. destruct (apply s e) as [[s1 o1] r]. cbn [fst] in *.
  pose proof (settle_keep s1) as K2. destruct (settle s1) as [s2 o2]. cbn [fst] in *.
  destruct K2 as [K2 | K2]; [left | right; exact K2]. rewrite <- K1. exact K2.
Qed.
