(* C16: facts about Model/Params.v.  The statement everything else is read off: for a stored text without leading
   whitespace that a plain parse accepts as `j`, a sequence of typed reads yields `spec ops vs` if `j = JArr vs`
   (`read_seq_array`) and -32602 throughout otherwise (`read_seq_non_array`).  On the way: trimming only ever stops at
   ASCII bytes, the sequence reader steps through the array exactly as `parse_elems` does, and a reader that has failed
   stays failed (`dead_state`). *)
From JV Require Import Base.Bytes Base.Dec Base.Utf8 Json.Json Json.JsonSer Json.JsonParse Json.JsonWf
  Gen.ErrorCodesGen Model.Params.
From JV Require Import Proofs.JsonFacts.
Local Open Scope N_scope.
#[local] Arguments N.ltb : simpl never.
#[local] Arguments N.leb : simpl never.
#[local] Arguments N.eqb : simpl never.

Lemma bytes_eqb_false a b : a <> b -> bytes_eqb a b = false.
Proof. intro N. destruct (bytes_eqb a b) eqn:E; [|reflexivity]. apply bytes_eqb_eq in E. contradiction. Qed.

Lemma skipn_nth_error {A} (x : A) i : forall l, nth_error l i = Some x -> skipn i l = x :: skipn (S i) l.
Proof.
  induction i as [|i IH]; intros [|y l] H; try discriminate.
  - injection H as ->. reflexivity.
  - apply (IH l H).
Qed.

Lemma skipn_middle {A} (l : list A) a l' : skipn (S (length l)) (l ++ a :: l') = l'.
Proof. induction l as [|x l IH]; [reflexivity | exact IH]. Qed.

(* a property of all 256 bytes, decided by running through their eight bits *)
Definition allb (f : bool -> bool) : bool := f true && f false.

Lemma allb_spec f b : allb f = true -> f b = true.
Proof. unfold allb. intro H. apply andb_true_iff in H. destruct b; apply H. Qed.

Lemma byte_forall (P : byte -> bool) :
  allb (fun b0 => allb (fun b1 => allb (fun b2 => allb (fun b3 => allb (fun b4 => allb (fun b5 => allb (fun b6 => allb (fun b7 =>
    P (Byte.of_bits (b0, (b1, (b2, (b3, (b4, (b5, (b6, b7)))))))))))))))) = true ->
  forall c, P c = true.
Proof.
  intros H c. rewrite <- (Byte.of_bits_to_bits c). destruct (Byte.to_bits c) as [b0 [b1 [b2 [b3 [b4 [b5 [b6 b7]]]]]]].
  apply allb_spec with (b := b0) in H. apply allb_spec with (b := b1) in H. apply allb_spec with (b := b2) in H.
  apply allb_spec with (b := b3) in H. apply allb_spec with (b := b4) in H. apply allb_spec with (b := b5) in H.
  apply allb_spec with (b := b6) in H. apply allb_spec with (b := b7) in H. exact H.
Qed.

Lemma json_ws_uws1 c : is_json_ws c = true -> is_uws1 c = true.
Proof.
  intro H. pose proof (byte_forall (fun c => implb (is_json_ws c) (is_uws1 c)) ltac:(vm_compute; reflexivity) c) as A.
  cbv beta in A. rewrite H in A. exact A.
Qed.

(* Every byte of a multi-byte White_Space char is >= 0x80, so trimming from either side stops at an ASCII byte that is
   not itself White_Space, whatever is next to it. *)
Lemma uws2_first c d : ascii c = true -> is_uws2 c d = false.
Proof. intro A. unfold is_uws2. rewrite (beqb_false_of ascii c xc2 A eq_refl). reflexivity. Qed.

Lemma uws3_first c d e : ascii c = true -> is_uws3 c d e = false.
Proof.
  intro A. unfold is_uws3.
  rewrite (beqb_false_of ascii c xe1 A eq_refl), (beqb_false_of ascii c xe2 A eq_refl), (beqb_false_of ascii c xe3 A eq_refl). reflexivity.
Qed.

Lemma uws2_last c d : ascii d = true -> is_uws2 c d = false.
Proof.
  intro A. unfold is_uws2. rewrite (beqb_false_of ascii d x85 A eq_refl), (beqb_false_of ascii d xa0 A eq_refl). apply andb_false_r.
Qed.

Lemma uws3_last c d e : ascii e = true -> is_uws3 c d e = false.
Proof.
  intro A. unfold is_uws3.
  assert (R : in_range 128 138 e = false).
  { unfold in_range. unfold ascii in A. apply N.ltb_lt in A.
    replace (128 <=? bN e) with false by (symmetry; apply N.leb_gt; exact A). reflexivity. }
  rewrite R, (beqb_false_of ascii e x80 A eq_refl), (beqb_false_of ascii e xa8 A eq_refl), (beqb_false_of ascii e xa9 A eq_refl),
    (beqb_false_of ascii e xaf A eq_refl), (beqb_false_of ascii e x9f A eq_refl).
  rewrite !andb_false_r. reflexivity.
Qed.

Lemma trim_start_stop c s : ascii c = true -> is_uws1 c = false -> rust_trim_start (c :: s) = c :: s.
Proof.
  intros A H. cbn [rust_trim_start]. rewrite H.
  destruct s as [|d s]; [reflexivity|]. rewrite (uws2_first c d A).
  destruct s as [|e s]; [reflexivity|]. rewrite (uws3_first c d e A). reflexivity.
Qed.

Lemma rev_trim_stop l z : ascii l = true -> is_uws1 l = false -> rev_trim (l :: z) = l :: z.
Proof.
  intros A H. cbn [rev_trim]. rewrite H.
  destruct z as [|d z]; [reflexivity|]. rewrite (uws2_last d l A).
  destruct z as [|e z]; [reflexivity|]. rewrite (uws3_last e d l A). reflexivity.
Qed.

Lemma trim_start_skip r c r2 : skip_ws r = c :: r2 -> ascii c = true -> is_uws1 c = false ->
  rust_trim_start r = c :: r2.
Proof.
  induction r as [|a r IH]; intros H A U; [discriminate|].
  unfold skip_ws in H. cbn [drop_while] in H. destruct (is_json_ws a) eqn:W.
  - cbn [rust_trim_start]. rewrite (json_ws_uws1 a W). apply IH; assumption.
  - injection H as -> ->. apply trim_start_stop; assumption.
Qed.

Lemma parse_value_open f d s1 : parse_value (S f) d (x5b :: s1) =
  match d with
  | S (S d') =>
    match skip_ws s1 with
    | c2 :: r => if beqb c2 x5d then Some (JArr [], r)
                 else match parse_elems f (S d') s1 with Some (vs, r') => Some (JArr vs, r') | None => None end
    | [] => None
    end
  | _ => None
  end.
Proof. reflexivity. Qed.

Lemma parse_value_kind f d s v r : parse_value f d s = Some (v, r) ->
  exists c s1, skip_ws s = c :: s1 /\ vstart c = true /\
    beqb c x5b = match v with JArr _ => true | _ => false end /\
    beqb c x7b = match v with JObj _ => true | _ => false end.
Proof.
  intro H. apply (proj1 (pgraph_sound f)) in H. destruct H; do 2 eexists; (split; [eassumption|]);
    try (repeat split; reflexivity).
  (* '-' or a digit *)
  split; [apply num_start_vstart; assumption|]. split; eapply (beqb_false_of is_num_start); eauto.
Qed.

Lemma vstart_ascii c : vstart c = true -> ascii c = true /\ is_uws1 c = false.
Proof.
  intro H. pose proof (byte_forall (fun c => implb (vstart c) (ascii c && negb (is_uws1 c))) ltac:(vm_compute; reflexivity) c) as A.
  cbv beta in A. rewrite H in A. apply andb_true_iff in A as [A U]. apply negb_true_iff in U. split; assumption.
Qed.

Lemma parse_text_inv text j : parse_text text = Some j ->
  exists r, parse_value (S (length text)) depth_limit text = Some (j, r) /\ skip_ws r = [].
Proof.
  unfold parse_text. destruct (parse_value (S (length text)) depth_limit text) as [[v r]|]; [|discriminate].
  destruct (skip_ws r) eqn:Er; [|discriminate]. intro H. inv_some H. exists r. split; [reflexivity | exact Er].
Qed.

Lemma parse_text_kind text j : skip_ws text = text -> parse_text text = Some j ->
  exists c s1, text = c :: s1 /\ vstart c = true /\
    beqb c x5b = match j with JArr _ => true | _ => false end /\
    beqb c x7b = match j with JObj _ => true | _ => false end.
Proof.
  intros Hw H. destruct (parse_text_inv text j H) as (r & E & _).
  destruct (parse_value_kind _ _ _ _ _ E) as (c & s1 & Es & K). rewrite Hw in Es. exists c, s1. split; assumption.
Qed.

Definition is_delim (c : byte) : Prop := c = x5b \/ c = x2c.

Lemma next_inner_open t s1 : next_inner t (x5b :: s1) =
  match skip_ws s1 with
  | c2 :: _ => if beqb c2 x5d then (INone, []) else after_delim t (x5b :: s1) s1
  | [] => after_delim t (x5b :: s1) s1
  end.
Proof. reflexivity. Qed.

Lemma next_inner_comma t s1 : next_inner t (x2c :: s1) = after_delim t (x2c :: s1) s1.
Proof. reflexivity. Qed.

Lemma peek_ok_of_skip r c r2 : skip_ws r = c :: r2 -> (c = x2c \/ c = x5d) -> peek_end_ok r = true.
Proof.
  intros H Hc. destruct r as [|a r]; [discriminate|]. cbn [peek_end_ok].
  unfold skip_ws in H. cbn [drop_while] in H. destruct (is_json_ws a) eqn:W; [reflexivity|].
  injection H as -> _. destruct Hc as [-> | ->]; reflexivity.
Qed.

Section Element.
Variables (f d : nat) (s : bytes) (v : json) (r : bytes) (c : byte) (r2 : bytes).
Hypothesis Hv : parse_value f d s = Some (v, r).
Hypothesis Hd : (d <= depth_limit)%nat.
Hypothesis Hr : skip_ws r = c :: r2.
Hypothesis Hc : c = x2c \/ c = x5d.

Lemma after_delim_value t s0 :
  after_delim t s0 s = match decode t v with Some x => (IOk x, c :: r2) | None => (IErr, []) end.
Proof.
  unfold after_delim, stream_next. destruct (parse_value_kind _ _ _ _ _ Hv) as (ch & s1 & E & _). rewrite E.
  rewrite (parse_value_depth_mono _ _ _ _ _ (parse_value_enough_fuel _ _ _ _ Hv) Hd).
  destruct (decode t v); [|reflexivity].
  rewrite (peek_ok_of_skip _ _ _ Hr Hc), orb_true_r.
  rewrite (trim_start_skip _ _ _ Hr); [reflexivity | |]; destruct Hc as [-> | ->]; reflexivity.
Qed.

Lemma next_inner_value t b : is_delim b ->
  next_inner t (b :: s) = match decode t v with Some x => (IOk x, c :: r2) | None => (IErr, []) end.
Proof.
  destruct (parse_value_kind _ _ _ _ _ Hv) as (ch & s1 & E & V & _).
  intros [-> | ->]; [rewrite next_inner_open, E, (vstart_not_rbracket _ V) | rewrite next_inner_comma];
    apply after_delim_value.
Qed.

Lemma step_value o b : is_delim b ->
  step o (b :: s) = match read_elem o v with Some res => (res, c :: r2) | None => (OErr invalid_params, []) end.
Proof.
  intro Hb. destruct o as [t | t]; unfold step, next, optional_next, read_elem; rewrite (next_inner_value _ b Hb).
  - destruct (decode t v); reflexivity.
  - cbn [decode]. destruct v; try reflexivity; destruct (decode t _); reflexivity.
Qed.

End Element.

Lemma spec_nil ops : spec ops [] = map exhausted ops.
Proof. induction ops as [|o ops IH]; [reflexivity|]. cbn [spec map]. rewrite IH. reflexivity. Qed.

Definition ended_state (s : bytes) : Prop :=
  s = [] \/ (exists r, s = x5d :: r) \/ (exists s1 r, s = x5b :: s1 /\ skip_ws s1 = x5d :: r).

Lemma step_ended o s : ended_state s -> step o s = (exhausted o, []).
Proof.
  intros [-> | [(r & ->) | (s1 & r & -> & H)]]; destruct o; try reflexivity;
    unfold step, next, optional_next; rewrite next_inner_open, H; reflexivity.
Qed.

Lemma run_ended ops : forall s, ended_state s -> run ops s = map exhausted ops.
Proof.
  induction ops as [|o ops IH]; intros s E; [reflexivity|]. cbn [run map].
  rewrite (step_ended o s E), IH by (left; reflexivity). reflexivity.
Qed.

Lemma read_seq_absent ops : read_seq None ops = spec ops [].
Proof. rewrite spec_nil. apply run_ended. left. reflexivity. Qed.

(* the reads walk the parser's own element list *)

Lemma run_elems f : forall d s vs r b ops,
  parse_elems f d s = Some (vs, r) -> (d <= depth_limit)%nat -> is_delim b ->
  run ops (b :: s) = spec ops vs.
Proof.
  induction f as [|f IH]; intros d s vs r b ops H D Hb; [discriminate|].
  rewrite parse_elems_S in H.
  destruct (parse_value f d s) as [[v r1]|] eqn:Ev; [|discriminate].
  destruct (skip_ws r1) as [|c r2] eqn:Er; [discriminate|].
  destruct ops as [|o ops]; [reflexivity|].
  assert (Dead : run ops [] = spec ops []) by apply read_seq_absent.
  destruct (beqb c x2c) eqn:Ec.
  - apply beqb_true in Ec. subst c.
    destruct (parse_elems f d r2) as [[vs' r3]|] eqn:Ee; [|discriminate]. inv_some H.
    cbn [run spec]. rewrite (step_value _ _ _ _ _ _ _ Ev D Er (or_introl eq_refl) o b Hb).
    destruct (read_elem o v) as [res|]; f_equal; [|exact Dead].
    apply (IH d r2 vs' r x2c ops Ee D). right; reflexivity.
  - destruct (beqb c x5d) eqn:Ec2; [|discriminate]. apply beqb_true in Ec2. subst c. inv_some H.
    cbn [run spec]. rewrite (step_value _ _ _ _ _ _ _ Ev D Er (or_intror eq_refl) o b Hb).
    destruct (read_elem o v) as [res|]; f_equal; [|exact Dead].
    rewrite spec_nil. apply run_ended. right; left. eauto.
Qed.

Lemma trim_start_head s : match rust_trim_start s with c :: _ => is_uws1 c = false | [] => True end.
Proof.
  induction s as [s IH] using bytes_len_ind.
  destruct s as [|c s1]; [exact I|]. cbn [rust_trim_start].
  destruct (is_uws1 c) eqn:E1; [apply IH; cbn; lia|].
  destruct s1 as [|d s2]; [exact E1|].
  destruct (is_uws2 c d); [apply IH; cbn; lia|].
  destruct s2 as [|e s3]; [exact E1|].
  destruct (is_uws3 c d e); [apply IH; cbn; lia | exact E1].
Qed.

Lemma rev_trim_suffix z : exists p, z = p ++ rev_trim z.
Proof.
  induction z as [z IH] using bytes_len_ind.
  destruct z as [|c s1]; [exists []; reflexivity|]. cbn [rev_trim].
  destruct (is_uws1 c).
  { destruct (IH s1 ltac:(cbn; lia)) as [p Hp]. exists (c :: p). cbn [app]. f_equal. exact Hp. }
  destruct s1 as [|d s2]; [exists []; reflexivity|].
  destruct (is_uws2 d c).
  { destruct (IH s2 ltac:(cbn; lia)) as [p Hp]. exists (c :: d :: p). cbn [app]. do 2 f_equal. exact Hp. }
  destruct s2 as [|e s3]; [exists []; reflexivity|].
  destruct (is_uws3 e d c).
  { destruct (IH s3 ltac:(cbn; lia)) as [p Hp]. exists (c :: d :: e :: p). cbn [app]. do 3 f_equal. exact Hp. }
  exists []; reflexivity.
Qed.

Lemma trim_end_prefix y : exists q, y = rust_trim_end y ++ q.
Proof.
  unfold rust_trim_end. destruct (rev_trim_suffix (rev y)) as [p Hp].
  exists (rev p). rewrite <- rev_app_distr, <- Hp, rev_involutive. reflexivity.
Qed.

Lemma trim_no_lead raw : skip_ws (rust_trim raw) = rust_trim raw.
Proof.
  unfold rust_trim. pose proof (trim_start_head raw) as H.
  destruct (trim_end_prefix (rust_trim_start raw)) as [q Hq].
  destruct (rust_trim_end (rust_trim_start raw)) as [|c t] eqn:E; [reflexivity|].
  rewrite Hq in H. cbn [app] in H. apply skip_ws_cons_nws.
  destruct (is_json_ws c) eqn:W; [|reflexivity]. apply json_ws_uws1 in W. congruence.
Qed.

Lemma read_seq_array text vs ops :
  skip_ws text = text -> parse_text text = Some (JArr vs) -> read_seq (Some text) ops = spec ops vs.
Proof.
  intros Hw H. destruct (parse_text_kind text _ Hw H) as (c & s1 & -> & _ & B & _). apply beqb_true in B. subst c.
  destruct (parse_text_inv _ _ H) as (r & E & _). rewrite parse_value_open in E.
  (* depth_limit = 128: written out so that the match on the depth reduces; the elements are read at depth_limit - 1 = 127 *)
  change depth_limit with (S (S 126)) in E.
  destruct (skip_ws s1) as [|c2 r0] eqn:Es1; [discriminate|]. destruct (beqb c2 x5d) eqn:Ec.
  - (* "[]" or "[ ]": the shortcut and the reader agree *)
    inv_some E. apply beqb_true in Ec. subst c2. unfold read_seq, sequence. rewrite spec_nil.
    destruct (bytes_eqb (x5b :: s1) b#"[]"); apply run_ended; [left; reflexivity | right; right; eauto].
  - destruct (parse_elems (length (x5b :: s1)) 127 s1) as [[vs' r']|] eqn:Ee; [|discriminate]. inv_some E.
    unfold read_seq, sequence. rewrite bytes_eqb_false.
    + apply (run_elems _ 127 s1 vs r x5b ops Ee); [unfold depth_limit; lia | left; reflexivity].
    + intro Q. injection Q as ->. cbn in Es1. injection Es1 as <- _. discriminate Ec.
Qed.

Lemma run_bad_head ops c s1 : beqb c x5d = false -> beqb c x5b = false -> beqb c x2c = false ->
  run ops (c :: s1) = map (fun _ => OErr invalid_params) ops.
Proof.
  intros E1 E2 E3. induction ops as [|o ops IH]; [reflexivity|]. cbn [run map].
  assert (S : step o (c :: s1) = (OErr invalid_params, c :: s1)).
  { destruct o; unfold step, next, optional_next; cbn [next_inner]; rewrite E1, E2, E3; reflexivity. }
  rewrite S, IH. reflexivity.
Qed.

Lemma read_seq_non_array text j ops :
  skip_ws text = text -> parse_text text = Some j -> match j with JArr _ => False | _ => True end ->
  read_seq (Some text) ops = map (fun _ => OErr invalid_params) ops.
Proof.
  intros Hw H NA. destruct (parse_text_kind text j Hw H) as (c & s1 & -> & V & B & _).
  assert (B' : beqb c x5b = false) by (rewrite B; destruct j; try reflexivity; destruct NA).
  unfold read_seq, sequence. rewrite bytes_eqb_false.
  - apply run_bad_head; [apply vstart_not_rbracket, V | exact B' | apply (beqb_false_of vstart c x2c V eq_refl)].
  - intro Q. injection Q as -> _. discriminate B'.
Qed.

Definition code_ok (o : out) : Prop := match o with OErr c => c = (-32602)%Z | _ => True end.

Lemma step_code_ok o s : code_ok (fst (step o s)).
Proof.
  destruct o as [t|t]; unfold step, next, optional_next.
  - destruct (next_inner t s) as [[| |v] s']; cbn; auto.
  - destruct (next_inner (TOpt t) s) as [[| |v] s']; cbn; auto. destruct v; exact I.
Qed.

Lemma run_code_ok ops : forall s, Forall code_ok (run ops s).
Proof.
  induction ops as [|o ops IH]; intro s; [constructor|]. cbn [run].
  pose proof (step_code_ok o s) as H. destruct (step o s) as [r s']. constructor; [exact H | apply IH].
Qed.

Lemma result_code_ok x : code_ok (result_of x).
Proof. destruct x; cbn; auto. Qed.

Lemma parse_code_ok t p : code_ok (parse t p).
Proof. unfold parse. destruct (parse_text (params_text p)); [apply result_code_ok | reflexivity]. Qed.

Lemma one_code_ok t p : code_ok (one t p).
Proof.
  unfold one. destruct (parse_text (params_text p)) as [[| | | |[|x [|y l]]|]|]; try reflexivity. apply result_code_ok.
Qed.

(* states in which no read yields an element, and which no read leaves *)
Definition dead_state (s : bytes) : Prop :=
  s = [] \/
  (exists c s1, s = c :: s1 /\ beqb c x5d = false /\ beqb c x5b = false /\ beqb c x2c = false) \/
  (exists c s1, s = c :: s1 /\ is_delim c /\ skip_ws s1 = []).

Definition no_element (res : inner * bytes) : Prop :=
  match res with (IOk _, _) => True | (_, s') => dead_state s' end.

Lemma after_delim_dead t c s1 : is_delim c -> no_element (after_delim t (c :: s1) s1).
Proof.
  intro Hd. unfold after_delim, stream_next. destruct (skip_ws s1) as [|c1 r] eqn:W.
  - right; right. exists c, s1. auto.
  - destruct (parse_value _ _ s1) as [[j r']|]; [|left; reflexivity].
    destruct (decode t j); [|left; reflexivity].
    destruct (self_delineated c1 || peek_end_ok r'); [exact I | left; reflexivity].
Qed.

Lemma next_inner_dead t s : no_element (next_inner t s).
Proof.
  destruct s as [|c s1]; [left; reflexivity|]. cbn [next_inner].
  destruct (beqb c x5d) eqn:E1; [left; reflexivity|].
  destruct (beqb c x5b) eqn:E2.
  { apply beqb_true in E2. subst c. destruct (skip_ws s1) as [|c2 r].
    - apply after_delim_dead. left; reflexivity.
    - destruct (beqb c2 x5d); [left; reflexivity | apply after_delim_dead; left; reflexivity]. }
  destruct (beqb c x2c) eqn:E3.
  { apply beqb_true in E3. subst c. apply after_delim_dead. right; reflexivity. }
  right; left. exists c, s1. auto.
Qed.

Lemma dead_next_inner t s : dead_state s -> match fst (next_inner t s) with IOk _ => False | _ => True end.
Proof.
  intros [-> | [(c & s1 & -> & E1 & E2 & E3) | (c & s1 & -> & Hd & W)]].
  - exact I.
  - cbn [next_inner]. rewrite E1, E2, E3. exact I.
  - destruct Hd as [-> | ->]; [rewrite next_inner_open, W | rewrite next_inner_comma];
      unfold after_delim, stream_next; rewrite W; exact I.
Qed.

Lemma step_err_dead o s : is_error (fst (step o s)) = true -> dead_state (snd (step o s)).
Proof.
  destruct o as [t|t]; unfold step, next, optional_next.
  - pose proof (next_inner_dead t s) as D. destruct (next_inner t s) as [[| |v] s']; [exact (fun _ => D).. | discriminate].
  - pose proof (next_inner_dead (TOpt t) s) as D. destruct (next_inner (TOpt t) s) as [[| |v] s'].
    + discriminate.
    + exact (fun _ => D).
    + destruct v; discriminate.
Qed.

Lemma dead_step o s : dead_state s -> is_value (fst (step o s)) = false /\ dead_state (snd (step o s)).
Proof.
  intro D. destruct o as [t|t]; unfold step, next, optional_next.
  - pose proof (dead_next_inner t s D) as N. pose proof (next_inner_dead t s) as K.
    destruct (next_inner t s) as [[| |v] s']; [split; [reflexivity | exact K].. | destruct N].
  - pose proof (dead_next_inner (TOpt t) s D) as N. pose proof (next_inner_dead (TOpt t) s) as K.
    destruct (next_inner (TOpt t) s) as [[| |v] s']; [split; [reflexivity | exact K].. | destruct N].
Qed.

Lemma dead_run ops : forall s, dead_state s -> Forall (fun r => is_value r = false) (run ops s).
Proof.
  induction ops as [|o ops IH]; intros s D; [constructor|]. cbn [run].
  destruct (dead_step o s D) as [H1 H2]. destruct (step o s) as [r s']. constructor; [exact H1 | apply IH, H2].
Qed.

Lemma error_sticky o s ops :
  is_error (fst (step o s)) = true -> Forall (fun r => is_value r = false) (run ops (snd (step o s))).
Proof. intro H. apply dead_run, step_err_dead, H. Qed.

Lemma vend_not_uws1 l : vend l = true -> is_uws1 l = false.
Proof.
  intro H. pose proof (byte_forall (fun c => implb (vend c) (negb (is_uws1 c))) ltac:(vm_compute; reflexivity) l) as A.
  cbv beta in A. rewrite H in A. apply negb_true_iff, A.
Qed.

Lemma rev_trim_ws w z : forallb is_json_ws w = true -> rev_trim (w ++ z) = rev_trim z.
Proof.
  induction w as [|a w IH]; intro H; [reflexivity|]. cbn [forallb] in H. apply andb_true_iff in H as [H1 H2].
  cbn [app rev_trim]. rewrite (json_ws_uws1 a H1). apply IH, H2.
Qed.

Lemma forallb_rev (p : byte -> bool) l : forallb p l = true -> forallb p (rev l) = true.
Proof.
  rewrite !forallb_forall. intros H x Hx. apply H. apply in_rev. exact Hx.
Qed.

Lemma trim_end_tail t r : t <> [] -> ascii (last t x20) = true -> is_uws1 (last t x20) = false ->
  forallb is_json_ws r = true -> rust_trim_end (t ++ r) = t.
Proof.
  intros N A U W. unfold rust_trim_end. rewrite rev_app_distr, (rev_trim_ws _ _ (forallb_rev _ _ W)).
  rewrite (app_removelast_last x20 N) at 1. rewrite rev_unit, (rev_trim_stop _ _ A U).
  cbn [rev]. rewrite rev_involutive. symmetry. apply app_removelast_last. exact N.
Qed.

Lemma new_keeps_json raw j : parse_text raw = Some j -> parse_text (rust_trim raw) = Some j.
Proof.
  unfold parse_text at 1. intro H.
  destruct (parse_value (S (length raw)) depth_limit raw) as [[j' r]|] eqn:E; [|discriminate].
  destruct (skip_ws r) eqn:Er; [|discriminate]. inv_some H.
  destruct (parse_value_kind _ _ _ _ _ E) as (c & s1 & Es & V & _).
  rewrite <- parse_value_skip, Es in E.
  destruct (parse_value_split _ _ _ _ _ E) as (t & Ht & _).
  pose proof (parse_value_trunc _ _ _ _ _ E t Ht) as T.
  destruct (parse_value_ends_vend _ _ _ _ T) as [Ne Vd].
  unfold rust_trim. rewrite (trim_start_skip _ _ _ Es (proj1 (vstart_ascii c V)) (proj2 (vstart_ascii c V))), Ht.
  rewrite (trim_end_tail t r Ne (vend_ascii _ Vd) (vend_not_uws1 _ Vd) (skip_ws_nil_all r Er)).
  unfold parse_text. rewrite (parse_value_enough_fuel _ _ _ _ T). reflexivity.
Qed.

Lemma typed_agrees raw vs ops :
  parse_text raw = Some (JArr vs) -> read_seq (params_new (Some raw)) ops = spec ops vs.
Proof. intro H. apply read_seq_array; [apply trim_no_lead | apply new_keeps_json, H]. Qed.

Lemma spec_values_prefix n : forall vs ops, (n <= length vs)%nat ->
  spec (repeat (ONext TValue) n ++ ops) vs = map (fun v => OVal (VValue v)) (firstn n vs) ++ spec ops (skipn n vs).
Proof.
  induction n as [|n IH]; intros vs ops L; [reflexivity|].
  destruct vs as [|v vs]; [cbn in L; lia|].
  cbn [repeat app spec read_elem decode firstn skipn map]. f_equal. apply IH. cbn in L. lia.
Qed.

Lemma empty_array_params ops : read_seq (params_new (Some b#"[]")) ops = read_seq (params_new None) ops.
Proof. reflexivity. Qed.

Lemma run_app a : forall b s, run (a ++ b) s = run a s ++ run b (run_state a s).
Proof.
  induction a as [|o a IH]; intros b s; [reflexivity|]. cbn [app run run_state].
  destruct (step o s) as [r s'] eqn:E. cbn [snd app]. f_equal. apply IH.
Qed.

Lemma run_length ops : forall s, length (run ops s) = length ops.
Proof.
  induction ops as [|o ops IH]; intro s; [reflexivity|]. cbn [run]. destruct (step o s). cbn [length]. f_equal. apply IH.
Qed.
