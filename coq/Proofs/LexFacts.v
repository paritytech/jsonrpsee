(* Lexical level: strings (scan_str / skip_str / escape_body) and numbers (scan_number / print_N). *)
From JV Require Import Base.Bytes Base.Dec Base.Utf8 Json.Json Json.JsonSer Json.JsonParse Json.JsonWf.
From JV Require Import Proofs.BytesFacts Proofs.DecFacts Proofs.Utf8Facts.
Local Open Scope N_scope.

Lemma skip_str_cons c s1 : skip_str (c :: s1) =
    if beqb c x22 then Some ([c], s1)
    else if beqb c x5c then
      match s1 with
      | [] => None
      | e :: s2 =>
        match simple_escape e with
        | Some _ => match skip_str s2 with Some (t, r) => Some (c :: e :: t, r) | None => None end
        | None =>
          if beqb e x75 then
            match s2 with
            | h1 :: h2 :: h3 :: h4 :: s3 =>
              match hex4 h1 h2 h3 h4 with
              | Some _ => match skip_str s3 with
                          | Some (t, r) => Some (c :: e :: h1 :: h2 :: h3 :: h4 :: t, r)
                          | None => None end
              | None => None
              end
            | _ => None
            end
          else None
        end
      end
    else if bN c <? 32 then None
    else match skip_str s1 with Some (t, r) => Some (c :: t, r) | None => None end.
Proof. reflexivity. Qed.

(* sstr s t r: skip_str s = Some (t, r), one constructor for each way through its body *)
Inductive sstr : bytes -> bytes -> bytes -> Prop :=
| ss_quote s1 : sstr (x22 :: s1) [x22] s1
| ss_esc e d s2 t r : simple_escape e = Some d -> sstr s2 t r -> sstr (x5c :: e :: s2) (x5c :: e :: t) r
| ss_uni h1 h2 h3 h4 n s3 t r : hex4 h1 h2 h3 h4 = Some n -> sstr s3 t r ->
    sstr (x5c :: x75 :: h1 :: h2 :: h3 :: h4 :: s3) (x5c :: x75 :: h1 :: h2 :: h3 :: h4 :: t) r
| ss_char c s1 t r : beqb c x22 = false -> beqb c x5c = false -> (bN c <? 32) = false -> sstr s1 t r ->
    sstr (c :: s1) (c :: t) r.

Lemma sstr_sound s : forall t r, skip_str s = Some (t, r) -> sstr s t r.
Proof.
  induction s as [s IH] using bytes_len_ind. intros t r H.
  destruct s as [|c s1]; [discriminate|]. rewrite skip_str_cons in H.
  repeat step H; inv_some H; beqb_norm; econstructor; try eassumption; (apply IH; [cbn [length]; lia | assumption]).
Qed.

(* For a goal  f args = v  where the context has the value of every scrutinee on the way through f: the left-hand
   side is evaluated up to the first scrutinee that is stuck, that one is rewritten with its equation, and so on.
   Evaluating first keeps the rewrites small: the tests on a known byte are gone with the branches not taken. *)
Ltac eval_lhs := match goal with |- ?l = ?r => let l' := eval hnf in l in change (l' = r) end.
Ltac rw_head := eval_lhs; repeat match goal with E : ?x = _ |- match ?x with _ => _ end = _ => rewrite E; eval_lhs end.

Lemma sstr_complete s t r : sstr s t r -> skip_str s = Some (t, r).
Proof. induction 1; rw_head; reflexivity. Qed.

Lemma sstr_split s t r : sstr s t r -> s = t ++ r.
Proof. induction 1; cbn [app]; congruence. Qed.

Lemma sstr_extend rest s t r : sstr s t r -> sstr (s ++ rest) t (r ++ rest).
Proof. induction 1; cbn [app]; econstructor; eassumption. Qed.

Lemma skip_str_split s t r : skip_str s = Some (t, r) -> s = t ++ r.
Proof. intro H. apply sstr_split, sstr_sound, H. Qed.

Lemma skip_str_extend s t r rest : skip_str s = Some (t, r) -> skip_str (s ++ rest) = Some (t, r ++ rest).
Proof. intro H. apply sstr_complete, sstr_extend, sstr_sound, H. Qed.

Lemma skip_str_nonempty s t r : skip_str s = Some (t, r) -> t <> [].
Proof. intro H. apply sstr_sound in H. destruct H; discriminate. Qed.

Lemma scan_str_cons c s1 : scan_str (c :: s1) =
    if beqb c x22 then Some ([], s1)
    else if beqb c x5c then
      match s1 with
      | [] => None
      | e :: s2 =>
        match simple_escape e with
        | Some d => match scan_str s2 with Some (t, r) => Some (d :: t, r) | None => None end
        | None =>
          if beqb e x75 then
            match s2 with
            | h1 :: h2 :: h3 :: h4 :: s3 =>
              match hex4 h1 h2 h3 h4 with
              | None => None
              | Some n =>
                if is_low_sur n then None
                else if is_high_sur n then
                  match s3 with
                  | q1 :: q2 :: g1 :: g2 :: g3 :: g4 :: s4 =>
                    if beqb q1 x5c && beqb q2 x75 then
                      match hex4 g1 g2 g3 g4 with
                      | Some n2 =>
                        if is_low_sur n2 then
                          match scan_str s4 with
                          | Some (t, r) => Some (utf8_encode ((n - 55296) * 1024 + (n2 - 56320) + 65536) ++ t, r)
                          | None => None
                          end
                        else None
                      | None => None
                      end
                    else None
                  | _ => None
                  end
                else
                  match scan_str s3 with
                  | Some (t, r) => Some (utf8_encode n ++ t, r)
                  | None => None
                  end
              end
            | _ => None
            end
          else None
        end
      end
    else if bN c <? 32 then None
    else match scan_str s1 with Some (t, r) => Some (c :: t, r) | None => None end.
Proof. reflexivity. Qed.

(* pstr s k r: scan_str s = Some (k, r) *)
Inductive pstr : bytes -> bytes -> bytes -> Prop :=
| ps_quote s1 : pstr (x22 :: s1) [] s1
| ps_esc e d s2 k r : simple_escape e = Some d -> pstr s2 k r -> pstr (x5c :: e :: s2) (d :: k) r
| ps_uni h1 h2 h3 h4 n s3 k r : hex4 h1 h2 h3 h4 = Some n -> is_low_sur n = false -> is_high_sur n = false ->
    pstr s3 k r -> pstr (x5c :: x75 :: h1 :: h2 :: h3 :: h4 :: s3) (utf8_encode n ++ k) r
| ps_pair h1 h2 h3 h4 n g1 g2 g3 g4 n2 s4 k r :
    hex4 h1 h2 h3 h4 = Some n -> is_low_sur n = false -> is_high_sur n = true ->
    hex4 g1 g2 g3 g4 = Some n2 -> is_low_sur n2 = true -> pstr s4 k r ->
    pstr (x5c :: x75 :: h1 :: h2 :: h3 :: h4 :: x5c :: x75 :: g1 :: g2 :: g3 :: g4 :: s4)
         (utf8_encode ((n - 55296) * 1024 + (n2 - 56320) + 65536) ++ k) r
| ps_char c s1 k r : beqb c x22 = false -> beqb c x5c = false -> (bN c <? 32) = false -> pstr s1 k r ->
    pstr (c :: s1) (c :: k) r.

Lemma pstr_sound s : forall k r, scan_str s = Some (k, r) -> pstr s k r.
Proof.
  induction s as [s IH] using bytes_len_ind. intros k r H.
  destruct s as [|c s1]; [discriminate|]. rewrite scan_str_cons in H.
  repeat step H; inv_some H;
    try match goal with E : _ && _ = true |- _ => apply andb_true_iff in E as [? ?] end;
    beqb_norm; econstructor; try eassumption; (apply IH; [cbn [length]; lia | assumption]).
Qed.

Lemma pstr_complete s k r : pstr s k r -> scan_str s = Some (k, r).
Proof.
  induction 1; rw_head; reflexivity.
Qed.

Lemma pstr_extend rest s k r : pstr s k r -> pstr (s ++ rest) k (r ++ rest).
Proof. induction 1; cbn [app]; econstructor; eassumption. Qed.

Lemma pstr_sstr s k r : pstr s k r -> exists t, sstr s t r.
Proof.
  induction 1; try match goal with IH : exists _, _ |- _ => destruct IH as [t IH] end; eexists.
  - constructor.
  - eapply ss_esc; eassumption.
  - eapply ss_uni; eassumption.
  - eapply ss_uni; [eassumption|]. eapply ss_uni; eassumption.
  - eapply ss_char; eassumption.
Qed.

Lemma pstr_trunc s k r : pstr s k r -> exists u, s = u ++ r /\ pstr u k [].
Proof.
  induction 1; try match goal with IH : exists _, _ |- _ => destruct IH as (u & -> & IH) end.
  1: exists [x22]; split; [reflexivity | constructor].
  (* the other cases: the same constructor on u; its conclusion tells the prefix that was cut *)
  all: eexists; (split; [|solve [econstructor; eassumption]]); reflexivity.
Qed.

Lemma scan_str_extend s t r rest : scan_str s = Some (t, r) -> scan_str (s ++ rest) = Some (t, r ++ rest).
Proof. intro H. apply pstr_complete, pstr_extend, pstr_sound, H. Qed.

Lemma scan_str_skip_str s t r : scan_str s = Some (t, r) -> exists k, skip_str s = Some (k, r).
Proof. intro H. apply pstr_sound, pstr_sstr in H as [k H]. exists k. apply sstr_complete, H. Qed.

Lemma scan_str_escape_byte c tl :
  scan_str (escape_byte c ++ tl) = match scan_str tl with Some (t, r) => Some (c :: t, r) | None => None end.
Proof. destruct c; exact eq_refl. Qed.

Lemma skip_str_escape_byte c tl :
  skip_str (escape_byte c ++ tl) = match skip_str tl with Some (t, r) => Some (escape_byte c ++ t, r) | None => None end.
Proof. destruct c; exact eq_refl. Qed.

Lemma scan_str_escape s rest : scan_str (escape_body s ++ x22 :: rest) = Some (s, rest).
Proof.
  induction s as [|c s IH]; [reflexivity|].
  cbn [escape_body]. rewrite <- app_assoc, scan_str_escape_byte, IH. reflexivity.
Qed.

Lemma skip_str_escape s rest : skip_str (escape_body s ++ x22 :: rest) = Some (escape_body s ++ [x22], rest).
Proof.
  induction s as [|c s IH]; [reflexivity|].
  cbn [escape_body]. rewrite <- !app_assoc, skip_str_escape_byte, IH. reflexivity.
Qed.

Lemma escape_byte_ascii c : ascii c = true -> forallb ascii (escape_byte c) = true.
Proof. intro H. destruct c; try reflexivity; vm_compute in H; discriminate H. Qed.

Lemma escape_byte_hi c : ascii c = false -> escape_byte c = [c].
Proof. intro H. destruct c; try reflexivity; vm_compute in H; discriminate H. Qed.

Lemma escape_body_hi ch s : Forall (fun y => ascii y = false) ch -> escape_body (ch ++ s) = ch ++ escape_body s.
Proof.
  induction 1 as [|y ch Hy _ IH]; [reflexivity|]. cbn [app escape_body].
  rewrite (escape_byte_hi y Hy), IH. reflexivity.
Qed.

Lemma escape_body_utf8 s : utf8_valid s = true -> utf8_valid (escape_body s) = true.
Proof.
  revert s. apply utf8_chunks.
  - reflexivity.
  - intros c s Hc IH. cbn [escape_body]. rewrite utf8_valid_ascii_app by (apply escape_byte_ascii, Hc). exact IH.
  - intros ch s Hhi Hch IH. rewrite (escape_body_hi ch s Hhi), Hch. exact IH.
Qed.

Lemma ser_str_utf8 s : utf8_valid s = true -> utf8_valid (ser_str s) = true.
Proof.
  intro H. unfold ser_str. rewrite utf8_valid_ascii_cons by reflexivity.
  apply utf8_valid_app; [apply escape_body_utf8, H | reflexivity].
Qed.

Definition is_dot (c : byte) : bool := beqb c x2e.
Definition is_e (c : byte) : bool := beqb c x65 || beqb c x45.
Definition is_sign (c : byte) : bool := beqb c x2b || beqb c x2d.

Lemma is_digit_ascii c : is_digit c = true -> ascii c = true.
Proof.
  unfold is_digit, in_range, ascii. intro H. apply andb_true_iff in H as [_ H].
  apply N.leb_le in H. apply N.ltb_lt. lia.
Qed.
Lemma is_digit_not_minus c : is_digit c = true -> beqb c x2d = false.
Proof. intro H. apply (beqb_false_of is_digit c x2d H). reflexivity. Qed.
Lemma is_digit_not_sign c : is_digit c = true -> is_sign c = false.
Proof.
  intro H. unfold is_sign. rewrite (beqb_false_of is_digit c x2b H), (is_digit_not_minus c H); reflexivity.
Qed.
Lemma is_digit_num_start c : is_digit c = true -> is_num_start c = true.
Proof. intro H. unfold is_num_start. rewrite H. apply orb_true_r. Qed.
Lemma is_e_inv c : is_e c = true -> c = x65 \/ c = x45.
Proof. intro H. apply orb_true_iff in H as [H | H]; apply beqb_true in H; auto. Qed.
Lemma is_e_not_dot c : is_e c = true -> is_dot c = false.
Proof. intro H. apply is_e_inv in H as [-> | ->]; reflexivity. Qed.
Lemma is_e_not_digit c : is_e c = true -> is_digit c = false.
Proof. intro H. apply is_e_inv in H as [-> | ->]; reflexivity. Qed.
Lemma nz_is_digit c : in_range 49 57 c = true -> is_digit c = true.
Proof.
  unfold is_digit, in_range. intro H. apply andb_true_iff in H as [H1 H2]. rewrite H2, andb_true_r.
  apply N.leb_le in H1. apply N.leb_le. lia.
Qed.

Definition num_byte (c : byte) : bool := is_digit c || is_dot c || is_e c || is_sign c.

Lemma digit_num_byte c : is_digit c = true -> num_byte c = true.
Proof. intro H. unfold num_byte. rewrite H. reflexivity. Qed.
Lemma is_e_num_byte c : is_e c = true -> num_byte c = true.
Proof. intro H. unfold num_byte. rewrite H, orb_true_r. reflexivity. Qed.
Lemma is_sign_num_byte c : is_sign c = true -> num_byte c = true.
Proof. intro H. unfold num_byte. rewrite H. apply orb_true_r. Qed.

Lemma num_byte_ascii c : num_byte c = true -> ascii c = true.
Proof.
  unfold num_byte, is_dot, is_e, is_sign. intro H. repeat (apply orb_true_iff in H as [H | H]).
  1: apply is_digit_ascii, H.
  all: apply beqb_true in H; subst c; reflexivity.
Qed.

Lemma digits_num_bytes a : forallb is_digit a = true -> forallb num_byte a = true.
Proof. apply forallb_impl, digit_num_byte. Qed.

Lemma digits_ascii a : forallb is_digit a = true -> forallb ascii a = true.
Proof. apply forallb_impl, is_digit_ascii. Qed.

(* fstop a X (estop a X): X may follow the fraction (exponent) lexeme a without changing how it is scanned.
   An empty a must not be followed by the byte that would open the part, a non-empty one not by a further digit.
   Each inversion lemma below ends with the converse: followed by such an X the lexeme is scanned again as it was;
   extension and truncation of scan_number come from that. *)
Definition fstop (a X : bytes) : bool := match a with [] => hd_not is_dot X | _ => hd_not is_digit X end.
Definition estop (a X : bytes) : bool := match a with [] => hd_not is_e X | _ => hd_not is_digit X end.

Lemma scan_int_inv s a r : scan_int s = Some (a, r) ->
  s = a ++ r /\ hd_not is_digit r = true /\ forallb is_digit a = true /\ a <> [] /\
  (forall X, hd_not is_digit X = true -> scan_int (a ++ X) = Some (a, X)).
Proof.
  unfold scan_int. destruct s as [|c s']; [discriminate|].
  destruct (beqb c x30) eqn:E0.
  - apply beqb_true in E0. subst c. destruct s' as [|d s''].
    + intro H; inv_some H. repeat split; try reflexivity; try discriminate.
      intros X HX. cbn. destruct X as [|x X]; [reflexivity|]. cbn in HX.
      destruct (is_digit x); [discriminate | reflexivity].
    + destruct (is_digit d) eqn:Ed; [discriminate|]. intro H; inv_some H.
      repeat split; try reflexivity; try discriminate.
      * cbn. rewrite Ed. reflexivity.
      * intros X HX. cbn. destruct X as [|x X]; [reflexivity|]. cbn in HX.
        destruct (is_digit x); [discriminate | reflexivity].
  - destruct (in_range 49 57 c) eqn:E1; [|discriminate]. intro H; inv_some H.
    pose proof (take_while_all is_digit s') as TA.
    repeat split; try discriminate.
    + cbn. rewrite take_drop_while. reflexivity.
    + apply drop_while_stop.
    + cbn. rewrite (nz_is_digit _ E1), TA. reflexivity.
    + intros X HX. cbn [app]. rewrite E0, E1.
      rewrite take_while_app_stop, drop_while_app_stop by assumption. reflexivity.
Qed.

Lemma scan_frac_inv s a r : scan_frac s = Some (a, r) ->
  s = a ++ r /\ fstop a r = true /\ forallb num_byte a = true /\ (a = [] \/ exists a', a = x2e :: a') /\
  (forall X, fstop a X = true -> scan_frac (a ++ X) = Some (a, X)).
Proof.
  assert (NIL : forall X, fstop [] X = true -> scan_frac ([] ++ X) = Some ([], X)).
  { intros X HX. destruct X as [|x X]; [reflexivity|]. cbn in *. unfold is_dot in HX.
    destruct (beqb x x2e); [discriminate | reflexivity]. }
  unfold scan_frac at 1. destruct s as [|c s'].
  - intro H; inv_some H. repeat split; try reflexivity; auto.
  - destruct (beqb c x2e) eqn:E.
    + apply beqb_true in E. subst c.
      destruct (take_while is_digit s') as [|b l] eqn:Et; [discriminate|].
      intro H; inv_some H.
      pose proof (take_while_all is_digit s') as TA. rewrite Et in TA.
      repeat split.
      * rewrite <- Et. cbn [app]. rewrite take_drop_while. reflexivity.
      * apply drop_while_stop.
      * change (forallb num_byte (x2e :: b :: l)) with (forallb num_byte (b :: l)). apply digits_num_bytes, TA.
      * right. eexists; reflexivity.
      * intros X HX. cbn [fstop] in HX. cbn [app]. unfold scan_frac. rewrite (beqb_refl x2e).
        change (b :: l ++ X) with ((b :: l) ++ X).
        rewrite take_while_app_stop, drop_while_app_stop by assumption. reflexivity.
    + intro H; inv_some H. repeat split; try reflexivity; auto.
      cbn. unfold is_dot. rewrite E. reflexivity.
Qed.

Lemma scan_exp_inv s a r : scan_exp s = Some (a, r) ->
  s = a ++ r /\ estop a r = true /\ forallb num_byte a = true /\
  (a = [] \/ exists c a', a = c :: a' /\ is_e c = true) /\
  (forall X, estop a X = true -> scan_exp (a ++ X) = Some (a, X)).
Proof.
  assert (NIL : forall X, estop [] X = true -> scan_exp ([] ++ X) = Some ([], X)).
  { intros X HX. destruct X as [|x X]; [reflexivity|]. cbn in *. unfold is_e in HX.
    destruct (beqb x x65 || beqb x x45); [discriminate | reflexivity]. }
  unfold scan_exp at 1. destruct s as [|c s'].
  - intro H; inv_some H. repeat split; try reflexivity; auto.
  - destruct (beqb c x65 || beqb c x45) eqn:E.
    2:{ intro H; inv_some H. repeat split; try reflexivity; auto.
        cbn. unfold is_e. rewrite E. reflexivity. }
    destruct s' as [|g t]; [discriminate|].
    destruct (beqb g x2b || beqb g x2d) eqn:Eg.
    + destruct (take_while is_digit t) as [|b l] eqn:Et; [discriminate|].
      intro H; inv_some H.
      pose proof (take_while_all is_digit t) as TA. rewrite Et in TA.
      repeat split.
      * rewrite <- Et. cbn [app]. rewrite take_drop_while. reflexivity.
      * apply drop_while_stop.
      * cbn [app forallb]. rewrite (is_e_num_byte c E), (is_sign_num_byte g Eg). exact (digits_num_bytes (b :: l) TA).
      * right. do 2 eexists; split; [reflexivity | exact E].
      * intros X HX. cbn [app estop] in HX |- *. unfold scan_exp. rewrite E, Eg.
        change (b :: l ++ X) with ((b :: l) ++ X).
        rewrite take_while_app_stop, drop_while_app_stop by assumption. reflexivity.
    + destruct (take_while is_digit (g :: t)) as [|b l] eqn:Et; [discriminate|].
      intro H; inv_some H.
      pose proof (take_while_all is_digit (g :: t)) as TA. rewrite Et in TA.
      repeat split.
      * rewrite <- Et. cbn [app]. f_equal. symmetry. exact (take_drop_while is_digit (g :: t)).
      * exact (drop_while_stop is_digit (g :: t)).
      * cbn [app forallb]. rewrite (is_e_num_byte c E). exact (digits_num_bytes (b :: l) TA).
      * right. do 2 eexists; split; [reflexivity | exact E].
      * intros X HX. cbn [app estop] in HX |- *. unfold scan_exp. rewrite E.
        assert (Hb : is_digit b = true) by (cbn in TA; apply andb_true_iff in TA; tauto).
        apply is_digit_not_sign in Hb. unfold is_sign in Hb. rewrite Hb.
        change (b :: l ++ X) with ((b :: l) ++ X).
        rewrite take_while_app_stop, drop_while_app_stop by assumption. reflexivity.
Qed.

(* the same for a whole number with fraction fp and exponent ep: no digit may follow; no dot if there is neither
   fraction nor exponent yet; no e if there is no exponent yet.  ok_follow (no digit, dot, e) implies it for every lexeme. *)
Definition stop' (fp ep X : bytes) : bool :=
  hd_not is_digit X
  && match fp, ep with [], [] => hd_not is_dot X | _, _ => true end
  && match ep with [] => hd_not is_e X | _ => true end.
Definition stop (l : numlex) (X : bytes) : bool := stop' (nl_frac l) (nl_exp l) X.

Lemma ok_follow_stop l X : ok_follow X = true -> stop l X = true.
Proof.
  unfold ok_follow, stop, stop'. destruct X as [|c X]; intro H.
  - cbn. destruct (nl_frac l), (nl_exp l); reflexivity.
  - unfold num_cont in H. cbn [hd_not]. unfold is_dot, is_e.
    destruct (is_digit c); [discriminate|]. destruct (beqb c x2e); [discriminate|].
    destruct (beqb c x65); [discriminate|]. destruct (beqb c x45); [discriminate|].
    destruct (nl_frac l), (nl_exp l); reflexivity.
Qed.

Lemma stop_nil l : stop l [] = true.
Proof. apply ok_follow_stop. reflexivity. Qed.

Lemma stop_app l r rest : r <> [] -> stop l r = true -> stop l (r ++ rest) = true.
Proof. destruct r; [congruence|]. intros _. unfold stop, stop'. cbn [app hd_not]. exact (fun H => H). Qed.

Lemma scan3_inv s0 ip s1 fp s2 ep r :
  scan_int s0 = Some (ip, s1) -> scan_frac s1 = Some (fp, s2) -> scan_exp s2 = Some (ep, r) ->
  s0 = ip ++ fp ++ ep ++ r /\ stop' fp ep r = true /\ forallb num_byte (ip ++ fp ++ ep) = true /\
  (exists c t, ip = c :: t /\ is_digit c = true) /\
  (forall X, stop' fp ep X = true ->
     scan_int (ip ++ fp ++ ep ++ X) = Some (ip, fp ++ ep ++ X) /\
     scan_frac (fp ++ ep ++ X) = Some (fp, ep ++ X) /\
     scan_exp (ep ++ X) = Some (ep, X)).
Proof.
  intros Hi Hf He.
  apply scan_int_inv in Hi as (Si & Ti & Ai & Ni & Ri).
  apply scan_frac_inv in Hf as (Sf & Tf & Af & Nf & Rf).
  apply scan_exp_inv in He as (Se & Te & Ae & Ne & Re).
  subst s0 s1 s2.
  assert (HD : forall X, stop' fp ep X = true ->
     estop ep X = true /\ fstop fp (ep ++ X) = true /\ hd_not is_digit (fp ++ ep ++ X) = true).
  { intros X HX. unfold stop' in HX.
    apply andb_true_iff in HX as [HX H3]. apply andb_true_iff in HX as [H1 H2].
    destruct Nf as [-> | [fp' ->]]; destruct Ne as [-> | (c & ep' & -> & Hc)]; cbn [app fstop estop hd_not];
      repeat split; try assumption; try reflexivity.
    all: try (rewrite ?(is_e_not_dot c Hc), ?(is_e_not_digit c Hc); reflexivity). }
  repeat split.
  - unfold stop'.
    destruct Nf as [-> | [fp' ->]]; destruct Ne as [-> | (c & ep' & -> & Hc)];
      cbn [app fstop estop] in *; rewrite ?Te, ?Tf, ?Ti; reflexivity.
  - rewrite !forallb_app. rewrite (digits_num_bytes _ Ai), Af, Ae. reflexivity.
  - destruct ip as [|c t]; [congruence|]. exists c, t. split; [reflexivity|].
    cbn in Ai. apply andb_true_iff in Ai. tauto.
  - apply Ri. apply (HD X H).
  - apply Rf. apply (HD X H).
  - apply Re. apply (HD X H).
Qed.

Lemma scan_number_inv s l r : scan_number s = Some (l, r) ->
  s = numlex_bytes l ++ r /\ stop l r = true /\ forallb num_byte (numlex_bytes l) = true /\
  (exists c t, numlex_bytes l = c :: t /\ is_num_start c = true) /\
  (forall X, stop l X = true -> scan_number (numlex_bytes l ++ X) = Some (l, X)).
Proof.
  unfold scan_number at 1. destruct s as [|c t]; [discriminate|].
  destruct (beqb c x2d) eqn:Ec.
  - destruct (scan_int t) as [[ip s1]|] eqn:Ei; [|discriminate].
    destruct (scan_frac s1) as [[fp s2]|] eqn:Ef; [|discriminate].
    destruct (scan_exp s2) as [[ep s3]|] eqn:Ee; [|discriminate].
    intro H; inv_some H. apply beqb_true in Ec. subst c.
    destruct (scan3_inv _ _ _ _ _ _ _ Ei Ef Ee) as (S3 & T3 & A3 & _ & R3).
    unfold numlex_bytes, stop. cbn [nl_neg nl_int nl_frac nl_exp app].
    repeat split.
    + rewrite S3, <- !app_assoc. reflexivity.
    + exact T3.
    + cbn [forallb]. rewrite A3. reflexivity.
    + do 2 eexists; split; reflexivity.
    + intros X HX. destruct (R3 X HX) as (Ri & Rf & Re).
      unfold scan_number. rewrite (beqb_refl x2d). rewrite <- !app_assoc. rewrite Ri, Rf, Re. reflexivity.
  - destruct (scan_int (c :: t)) as [[ip s1]|] eqn:Ei; [|discriminate].
    destruct (scan_frac s1) as [[fp s2]|] eqn:Ef; [|discriminate].
    destruct (scan_exp s2) as [[ep s3]|] eqn:Ee; [|discriminate].
    intro H; inv_some H.
    destruct (scan3_inv _ _ _ _ _ _ _ Ei Ef Ee) as (S3 & T3 & A3 & (c0 & t0 & -> & Hc0) & R3).
    unfold numlex_bytes, stop. cbn [nl_neg nl_int nl_frac nl_exp app].
    repeat split.
    + rewrite S3, <- !app_assoc. reflexivity.
    + exact T3.
    + exact A3.
    + do 2 eexists; split; [reflexivity | apply is_digit_num_start, Hc0].
    + intros X HX. destruct (R3 X HX) as (Ri & Rf & Re).
      unfold scan_number. rewrite (is_digit_not_minus c0 Hc0).
      cbn [app] in Ri. rewrite <- !app_assoc. cbn [app]. rewrite Ri, Rf, Re. reflexivity.
Qed.

Lemma scan_number_split s l r : scan_number s = Some (l, r) -> s = numlex_bytes l ++ r.
Proof. intro H. apply scan_number_inv in H. tauto. Qed.

Lemma scan_number_extend s l r rest :
  scan_number s = Some (l, r) -> (r <> [] \/ ok_follow rest = true) ->
  scan_number (s ++ rest) = Some (l, r ++ rest).
Proof.
  intros H Hr. apply scan_number_inv in H as (S & T & _ & _ & R).
  rewrite S, <- app_assoc. apply R.
  destruct r as [|c r].
  - destruct Hr as [Hr | Hr]; [congruence|]. apply ok_follow_stop, Hr.
  - apply stop_app; [discriminate | exact T].
Qed.

Lemma scan_number_trunc s l r : scan_number s = Some (l, r) -> scan_number (numlex_bytes l) = Some (l, []).
Proof.
  intro H. apply scan_number_inv in H as (_ & _ & _ & _ & R).
  rewrite <- (app_nil_r (numlex_bytes l)). apply R, stop_nil.
Qed.

Lemma scan_number_head s x : scan_number s = Some x ->
  exists c s1, s = c :: s1 /\ is_num_start c = true.
Proof.
  destruct x as [l r]. intro H. apply scan_number_inv in H as (S & _ & _ & (c & t & E & Hc) & _).
  rewrite S, E. exists c, (t ++ r). split; [reflexivity | exact Hc].
Qed.

Lemma scan_number_bytes s l r : scan_number s = Some (l, r) -> forallb num_byte (numlex_bytes l) = true.
Proof. intro H. apply scan_number_inv in H. tauto. Qed.

Lemma scan_number_nonempty s l r : scan_number s = Some (l, r) -> numlex_bytes l <> [].
Proof.
  intro H. apply scan_number_inv in H as (_ & _ & _ & (c & t & E & _) & _). rewrite E. discriminate.
Qed.

Lemma nz_not_zero c : in_range 49 57 c = true -> beqb c x30 = false.
Proof. intro H. apply (beqb_false_of (in_range 49 57) c x30 H). reflexivity. Qed.

Lemma scan_number_print_N_nil n :
  scan_number (print_N n) = Some ({| nl_neg := false; nl_int := print_N n; nl_frac := []; nl_exp := [] |}, []).
Proof.
  destruct (print_N_shape n) as [E | (c & ds & E & Hc & Hds)]; rewrite E; [reflexivity|].
  unfold scan_number. rewrite (is_digit_not_minus c (nz_is_digit c Hc)).
  unfold scan_int. rewrite (nz_not_zero c Hc), Hc.
  rewrite (take_while_forallb _ _ Hds), (drop_while_forallb _ _ Hds). reflexivity.
Qed.

Lemma scan_number_print_N n rest : ok_follow rest = true ->
  scan_number (print_N n ++ rest) =
    Some ({| nl_neg := false; nl_int := print_N n; nl_frac := []; nl_exp := [] |}, rest).
Proof.
  intro H. apply (scan_number_extend _ _ _ rest (scan_number_print_N_nil n)). right. exact H.
Qed.
