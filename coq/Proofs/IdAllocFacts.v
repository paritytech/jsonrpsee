(* C12 / C03: REAL threads on the client's request-id allocator -- the lemmas behind
   C12_id_ranges_disjoint_under_interleaving, C12_load_then_store_refuted and C12_sequential_allocation_is_an_interleaving.
   They depend on HOW the source touches the shared counter (Gen/IdAllocGen.id_alloc_gen, read from
   core/src/client/mod.rs on every check): with a load-then-store path this file stops building.

   Specification part (used by the statements in Props/C12.v):
     seq_handed c sc     closed form of what an all-atomic allocator hands out along schedule sc from counter c
     ev_reqs s e         the reservations the front-end call behind event e of Model/ClientMgr.v performs in state s
                         (read from the generated front_takes_gen: FCall/FNotify one id, FBatch one range of its length,
                         FSubscribe two single ids; none when the client is dead / the batch is empty / the names clash)
     apply_with s e ids  `ClientMgr.apply` with the ids of the event taken from the list `ids` (ranges [lo,hi)) instead of
                         from `next_id s` arithmetic; events that take no ids are `apply`
     fed_step / fed_run  `ClientMgr.step` / `run` in which every event takes its ids from the FRONT of a supply list
                         (None when the supply runs short); the supply that is left is returned *)
From Coq Require Import List NArith Bool Arith Lia.
From JV Require Import Base.Bytes Base.Dec Model.Wire Model.ClientMgr Model.IdAlloc Gen.IdAllocGen.
Import ListNotations.
Local Open Scope N_scope.
#[local] Arguments N.add : simpl never.
#[local] Arguments N.sub : simpl never.
#[local] Arguments N.pow : simpl never.
#[local] Arguments N.modulo : simpl never.
#[local] Arguments N.ltb : simpl never.

Definition all_atomic (a : id_alloc) : Prop := single_path a = RAtomicRmw /\ batch_path a = RAtomicRmw.

Fixpoint seq_handed (c : N) (sc : sched) : list (thread * (N * N)) :=
  match sc with
  | [] => []
  | (t, SReserve r) :: sc' => (t, (c, c + req_len r)) :: seq_handed (c + req_len r) sc'
  | (_, SFinish) :: sc' => seq_handed c sc'
  end.

Lemma path_atomic a r : all_atomic a -> path_of a r = RAtomicRmw.
Proof. intros [H1 H2]. destruct r; assumption. Qed.

Lemma bump_small a c n : c + n < modulus a -> bump a c n = Some (c + n).
Proof.
  intros H. unfold bump, wrap. destruct (counter_ovf a).
  - rewrite N.mod_small; auto.
  - apply N.ltb_lt in H. rewrite H. reflexivity.
Qed.

Lemma range_small a v r : v + req_len r < modulus a -> range_of a v r = Some (v, v + req_len r).
Proof.
  intros H. destruct r as [|n]; cbn [range_of req_len] in *; [reflexivity|].
  destruct (range_end_ovf a).
  - unfold wrap. rewrite N.mod_small; auto.
  - apply N.ltb_lt in H. rewrite H. reflexivity.
Qed.

Lemma step_reserve_atomic a st t r : all_atomic a -> pend st = [] -> counter st + req_len r < modulus a ->
  alloc_step1 a st (t, SReserve r) =
  mkAst (counter st + req_len r) [] (handed st ++ [(t, (counter st, counter st + req_len r))]) (failed st).
Proof.
  intros A P H. unfold alloc_step1. cbn [fst snd]. rewrite P. cbn [pend_of].
  rewrite (path_atomic a r A), (bump_small _ _ _ H). unfold deliver. rewrite (range_small _ _ _ H), P. reflexivity.
Qed.

Lemma step_finish_idle a st t : pend st = [] -> alloc_step1 a st (t, SFinish) = st.
Proof. intros P. unfold alloc_step1. cbn [fst snd]. rewrite P. reflexivity. Qed.

(* THE invariant: an all-atomic allocator never has a thread between two steps, and what it has handed out is the
   closed form *)
Lemma atomic_run a : all_atomic a -> forall sc st, pend st = [] -> counter st + total sc < modulus a ->
  alloc_run a st sc = mkAst (counter st + total sc) [] (handed st ++ seq_handed (counter st) sc) (failed st).
Proof.
  intros A. induction sc as [|[t x] sc IH]; intros st P H.
  - cbn [alloc_run fold_left total seq_handed]. rewrite N.add_0_r, app_nil_r. destruct st; cbn in *; subst; reflexivity.
  - unfold alloc_run. cbn [fold_left]. fold (alloc_run a (alloc_step1 a st (t, x)) sc). destruct x as [r|].
    + cbn [total] in H. rewrite (step_reserve_atomic a st t r A P) by lia.
      rewrite IH; cbn [pend counter handed failed]; [|reflexivity|lia].
      cbn [total seq_handed]. rewrite <- app_assoc. cbn [app]. f_equal. lia.
    + cbn [total] in H. rewrite (step_finish_idle a st t P). rewrite IH; auto.
Qed.

Lemma seq_handed_bounds : forall sc c t lo hi, In (t, (lo, hi)) (seq_handed c sc) -> c <= lo /\ lo <= hi /\ hi <= c + total sc.
Proof.
  induction sc as [|[t' x] sc IH]; intros c t lo hi H; [destruct H|].
  destruct x as [r|]; cbn [seq_handed total] in *.
  - destruct H as [E | H].
    + inversion E; subst. lia.
    + apply IH in H. lia.
  - apply IH in H. lia.
Qed.

Lemma seq_handed_ordered : forall sc c i j t1 lo1 hi1 t2 lo2 hi2, (i < j)%nat ->
  nth_error (seq_handed c sc) i = Some (t1, (lo1, hi1)) -> nth_error (seq_handed c sc) j = Some (t2, (lo2, hi2)) ->
  hi1 <= lo2.
Proof.
  induction sc as [|[t' x] sc IH]; intros c i j t1 lo1 hi1 t2 lo2 hi2 L H1 H2.
  - destruct i; discriminate.
  - destruct x as [r|]; cbn [seq_handed] in *; [|eapply IH; eauto].
    destruct j as [|j]; [lia|]. cbn [nth_error] in H2. destruct i as [|i].
    + cbn [nth_error] in H1. inversion H1; subst. apply nth_error_In in H2. apply seq_handed_bounds in H2. lia.
    + cbn [nth_error] in H1. eapply (IH _ i j); eauto. lia.
Qed.

Lemma seq_handed_disjoint sc c i j t1 lo1 hi1 t2 lo2 hi2 k : i <> j ->
  nth_error (seq_handed c sc) i = Some (t1, (lo1, hi1)) -> nth_error (seq_handed c sc) j = Some (t2, (lo2, hi2)) ->
  ~ (lo1 <= k < hi1 /\ lo2 <= k < hi2).
Proof.
  intros NE H1 H2 [K1 K2]. destruct (Nat.lt_ge_cases i j) as [L | L].
  - pose proof (seq_handed_ordered sc c i j _ _ _ _ _ _ L H1 H2). lia.
  - assert (L' : (j < i)%nat) by lia. pose proof (seq_handed_ordered sc c j i _ _ _ _ _ _ L' H2 H1). lia.
Qed.

Lemma seq_handed_lens : forall sc c,
  map (fun x : thread * (N * N) => (fst x, snd (snd x) - fst (snd x))) (seq_handed c sc) = reservations sc.
Proof.
  induction sc as [|[t x] sc IH]; intro c; [reflexivity|]. destruct x as [r|]; cbn [seq_handed reservations map fst snd].
  - rewrite IH. f_equal. f_equal. lia.
  - apply IH.
Qed.

Lemma total_on_one_thread sc : total (on_one_thread sc) = total sc.
Proof. unfold on_one_thread. induction sc as [|[t x] sc IH]; [reflexivity|]. destruct x; cbn [map snd total]; rewrite IH; reflexivity. Qed.

Lemma seq_handed_erase : forall sc c, map snd (seq_handed c sc) = map snd (seq_handed c (on_one_thread sc)).
Proof.
  unfold on_one_thread. induction sc as [|[t x] sc IH]; intro c; [reflexivity|].
  destruct x; cbn [map snd seq_handed]; [rewrite IH; reflexivity | apply IH].
Qed.

Lemma atomic_ranges_disjoint a : all_atomic a -> forall start sc, start + total sc < 2 ^ counter_bits a ->
  let st := alloc_run a (alloc_init start) sc in
  (forall i j t1 lo1 hi1 t2 lo2 hi2 k, i <> j ->
     nth_error (handed st) i = Some (t1, (lo1, hi1)) -> nth_error (handed st) j = Some (t2, (lo2, hi2)) ->
     ~ (lo1 <= k < hi1 /\ lo2 <= k < hi2)) /\
  counter st = start + total sc /\ pend st = [] /\ failed st = [] /\
  map (fun x : thread * (N * N) => (fst x, snd (snd x) - fst (snd x))) (handed st) = reservations sc /\
  (forall t lo hi, In (t, (lo, hi)) (handed st) -> start <= lo /\ lo <= hi /\ hi <= start + total sc) /\
  map snd (handed st) = map snd (handed (alloc_run a (alloc_init start) (on_one_thread sc))).
Proof.
  intros A start sc H. cbv zeta.
  rewrite (atomic_run a A sc (alloc_init start) eq_refl H).
  rewrite (atomic_run a A (on_one_thread sc) (alloc_init start) eq_refl) by (rewrite total_on_one_thread; exact H).
  cbn [alloc_init counter pend handed failed app].
  split; [intros; eapply seq_handed_disjoint; eauto|].
  split; [reflexivity|]. split; [reflexivity|]. split; [reflexivity|].
  split; [apply seq_handed_lens|]. split; [intros; eapply seq_handed_bounds; eauto | apply seq_handed_erase].
Qed.

(* the generated record, COMPUTED: this is where the proofs depend on what the source does now *)
Lemma id_alloc_gen_atomic : all_atomic id_alloc_gen.
Proof. split; reflexivity. Qed.

From JV Require Import Model.ClientDispatch Gen.ClientDispatchGen Proofs.ClientDispatchFacts Proofs.ClientMgrInv.

Definition ev_reqs (s : st) (e : ev) : list req :=
  if dead s then [] else
  match e with
  | FCall _ _ _ => reqs_of_takes 1 (fe_request front_takes_gen)
  | FNotify _ _ => reqs_of_takes 1 (fe_notification front_takes_gen)
  | FBatch _ es => match es with [] => [] | _ => reqs_of_takes (N.of_nat (length es)) (fe_batch front_takes_gen) end
  | FSubscribe _ sm um _ => if bytes_eqb sm um then [] else reqs_of_takes 1 (fe_subscribe front_takes_gen)
  | _ => []
  end.

Fixpoint hist_reqs (s : st) (es : list ev) : list req :=
  match es with
  | [] => []
  | e :: es' => ev_reqs s e ++ hist_reqs (fst (fst (step s e))) es'
  end.

Definition apply_with (s : st) (e : ev) (ids : list (N * N)) : st * list out * option nextres :=
  match e, ids with
  | FCall h me p, [(i, i')] =>
    let raw := ser_request {| rq_id := mk_id s i; rq_method := me; rq_params := p |} in
    (enqueue (upd_next s i') (MRequest (mk_id s i) (Some h) raw), [], None)
  | FNotify me p, [(_, i')] => (enqueue (upd_next s i') (MNotif (ser_notification me p)), [], None)
  | FBatch h es, [(lo, hi)] => (enqueue (upd_next s hi) (MBatch lo hi h (batch_raw s lo es)), [], None)
  | FSubscribe h sm um p, [(i, _); (j, j')] =>
    let raw := ser_request {| rq_id := mk_id s i; rq_method := sm; rq_params := p |} in
    (enqueue (upd_next s j') (MSubscribe (mk_id s i) (mk_id s j) um h raw), [], None)
  | _, _ => apply s e
  end.

Definition fed_step (s : st) (e : ev) (supply : list (N * N))
  : option ((st * list out * option nextres) * list (N * N)) :=
  let k := length (ev_reqs s e) in
  if Nat.leb k (length supply) then
    let '(s1, o1, r) := apply_with s e (firstn k supply) in
    let '(s2, o2) := settle s1 in
    Some ((s2, o1 ++ o2, r), skipn k supply)
  else None.

Fixpoint fed_run (s : st) (es : list ev) (supply : list (N * N))
  : option ((st * list (list out * option nextres)) * list (N * N)) :=
  match es with
  | [] => Some ((s, []), supply)
  | e :: es' =>
    match fed_step s e supply with
    | None => None
    | Some ((s1, o, r), supply1) =>
      match fed_run s1 es' supply1 with
      | None => None
      | Some ((s2, rest), supply2) => Some ((s2, (o, r) :: rest), supply2)
      end
    end
  end.

Lemma apply_is_apply_with s e : apply s e = apply_with s e (seq_ranges (next_id s) (ev_reqs s e)).
Proof.
  unfold ev_reqs, apply. destruct (dead s) eqn:D.
  - destruct e; cbn [seq_ranges apply_with]; unfold apply; rewrite D; reflexivity.
  - destruct e; try (cbn [seq_ranges apply_with]; unfold apply; rewrite D; reflexivity).
    + (* FBatch *) destruct entries as [|x entries]; [cbn [seq_ranges apply_with]; unfold apply; rewrite D; reflexivity|].
      reflexivity.
    + (* FSubscribe *) destruct (bytes_eqb sub unsub) eqn:E.
      * cbn [seq_ranges apply_with]. unfold apply. rewrite D, E. reflexivity.
      * cbn [front_takes_gen fe_subscribe reqs_of_takes map seq_ranges req_len apply_with].
        replace (next_id s + 1 + 1) with (next_id s + 2) by lia. reflexivity.
Qed.

Lemma nx_drop_sink s h : next_id (drop_sink s h) = next_id s.
Proof. exact (sc_next _ _ (drop_sink_same s h)). Qed.
Lemma nx_wire s raw : next_id (fst (wire s raw)) = next_id s.
Proof. exact (sc_next _ _ (wire_same s raw)). Qed.
Lemma nx_enqueue_tagged s msg tag : next_id (enqueue_tagged s msg tag) = next_id s.
Proof. exact (sq_next _ _ (enqueue_tagged_sameq s msg tag)). Qed.
Lemma nx_enqueue s msg : next_id (enqueue s msg) = next_id s.
Proof. apply nx_enqueue_tagged. Qed.
Lemma nx_try_enqueue s msg : next_id (try_enqueue s msg) = next_id s.
Proof. exact (sq_next _ _ (try_enqueue_sameq s msg)). Qed.
Lemma nx_admit_waiting f s : next_id (admit_waiting f s) = next_id s.
Proof. exact (sq_next _ _ (admit_waiting_sameq f s)). Qed.

Lemma nx_do_unsubscribe s sid : next_id (fst (do_unsubscribe s sid)) = next_id s.
Proof.
  unfold do_unsubscribe. destruct (alookup subid_eqb sid (subs (m s))) as [rid|]; [|reflexivity].
  destruct (req_lookup rid (m s)) as [[w|u w um|u ch um|sub]|]; try reflexivity.
  rewrite nx_wire. cbn [upd_unacked next_id]. rewrite nx_drop_sink. reflexivity.
Qed.

Lemma nx_handle_front s msg : next_id (fst (handle_front s msg)) = next_id s.
Proof.
  destruct msg as [lo hi h raw|raw|i w raw|si ui um h raw|me h|me|sid]; cbn [handle_front].
  - destruct (ahas range_eqb (lo, hi) (batches (m s))); [reflexivity|]. rewrite nx_wire. reflexivity.
  - apply nx_wire.
  - destruct (ahas id_eqb i (requests (m s))); [reflexivity|]. rewrite nx_wire. reflexivity.
  - destruct (negb _ && negb _ && negb _); [|reflexivity]. rewrite nx_wire. reflexivity.
  - destruct (ahas bytes_eqb me (nhandlers (m s))); [reflexivity|]. destruct (alive s h); reflexivity.
  - destruct (alookup bytes_eqb me (nhandlers (m s))); [|reflexivity]. cbn [fst]. rewrite nx_drop_sink. reflexivity.
  - apply nx_do_unsubscribe.
Qed.

Lemma nx_settle s : next_id (fst (settle s)) = next_id s.
Proof.
  apply (settle_rel (fun s _ s' => next_id s' = next_id s)).
  - reflexivity.
  - intros s1 _ s2 _ s3 A B. rewrite B. exact A.
  - intros f s0. apply nx_admit_waiting.
  - intros s0 msg q _ _ _ _. exact (nx_handle_front (upd_queue s0 q (waiting s0)) msg).
  - reflexivity.
  - intros s0. exact (sc_next _ _ (finish_unsubs_same s0)).
Qed.

Lemma nx_sub_deliver s sid p : next_id (sub_deliver s sid p) = next_id s.
Proof.
  unfold sub_deliver. destruct (alookup subid_eqb sid (subs (m s))) as [rid|]; [|reflexivity].
  destruct (req_lookup rid (m s)) as [[w|u w um|u ch um|sub]|]; try reflexivity.
  destruct (chan_of s ch) as [c|]; [|reflexivity]. destruct (chan_send c p) as [c' r].
  destruct r; try reflexivity; unfold forward; rewrite nx_enqueue; reflexivity.
Qed.

Lemma nx_sub_close s sid : next_id (sub_close s sid) = next_id s.
Proof.
  unfold sub_close. destruct (alookup subid_eqb sid (subs (m s))) as [rid|]; [|reflexivity].
  destruct (req_lookup rid (m s)) as [[w|u w um|u ch um|sub]|]; try reflexivity. rewrite nx_drop_sink. reflexivity.
Qed.

Lemma nx_notif_deliver s me p : next_id (notif_deliver s me p) = next_id s.
Proof.
  unfold notif_deliver. destruct (alookup bytes_eqb me (nhandlers (m s))) as [ch|]; [|reflexivity].
  destruct (chan_of s ch) as [c|]; [|reflexivity]. destruct (chan_send c _) as [c' r].
  destruct r; try reflexivity; rewrite nx_drop_sink; reflexivity.
Qed.

Lemma nx_single_response s r : next_id (rres_st (single_response s r)) = next_id s.
Proof.
  unfold single_response. destruct (req_lookup (rs_id r) (m s)) as [[w|u w um|u ch um|sub]|]; try reflexivity.
  destruct (rs_payload r) as [raw|e]; [|reflexivity].
  destruct (parse_subid raw) as [sid|]; [|reflexivity].
  destruct (ahas subid_eqb sid _); [reflexivity|]. destruct (alive s w); [reflexivity|].
  cbn [rres_st]. unfold forward. rewrite nx_enqueue. reflexivity.
Qed.

Lemma nx_batch_response s rs lo hi : next_id (rres_st (batch_response s rs lo hi)) = next_id s.
Proof. unfold batch_response. destruct (alookup range_eqb (lo, hi) (batches (m s))); reflexivity. Qed.

Lemma nx_handle_back_with d s fr : next_id (rres_st (handle_back_with d s fr)) = next_id s.
Proof.
  apply (handle_back_with_rel (fun s _ s' => next_id s' = next_id s)).
  - reflexivity.
  - intros s1 _ s2 _ s3 A B. rewrite B. exact A.
  - apply nx_single_response.
  - apply nx_sub_deliver.
  - apply nx_sub_close.
  - apply nx_notif_deliver.
  - apply nx_batch_response.
Qed.

Lemma nx_poll_next s sh : next_id (fst (poll_next s sh)) = next_id s.
Proof. exact (sc_next _ _ (poll_next_same s sh)). Qed.

Lemma nx_apply s e : next_id (fst (fst (apply s e))) = next_id s + total_reqs (ev_reqs s e).
Proof.
  unfold apply, ev_reqs. destruct (dead s) eqn:D.
  - cbn [total_reqs]. rewrite N.add_0_r. destruct e; try reflexivity.
    + pose proof (nx_poll_next s sh) as E. destruct (poll_next s sh). exact E.
    + destruct (close_msg_of s sh); [|reflexivity]. destruct (chan_of s sh); reflexivity.
    + destruct (close_msg_of s sh); [|reflexivity]. destruct (chan_of s sh); reflexivity.
  - destruct e; cbn [total_reqs]; rewrite ?N.add_0_r.
    + cbn [fst]. rewrite nx_enqueue. cbn. lia.
    + cbn [fst]. rewrite nx_enqueue. cbn. lia.
    + destruct entries as [|x entries]; [cbn [total_reqs fst]; lia|]. cbn [fst]. rewrite nx_enqueue. cbn. lia.
    + destruct (bytes_eqb sub unsub); [cbn [total_reqs fst]; lia|]. cbn [fst]. rewrite nx_enqueue. cbn. lia.
    + cbn [fst]. apply nx_enqueue.
    + pose proof (nx_poll_next s sh) as E. destruct (poll_next s sh). exact E.
    + destruct (close_msg_of s sh); [|reflexivity]. cbn [fst]. rewrite nx_enqueue_tagged. reflexivity.
    + destruct (close_msg_of s sh); [|reflexivity]. destruct (chan_of s sh); [|reflexivity]. cbn [fst]. rewrite nx_try_enqueue. reflexivity.
    + reflexivity.
    + reflexivity.
    + destruct (dying s); [reflexivity|]. pose proof (nx_handle_back_with client_dispatch s (classify_frame raw)) as E.
      unfold handle_back. destruct (handle_back_with client_dispatch s (classify_frame raw)); cbn [rres_st fst] in *; exact E.
    + reflexivity.
    + reflexivity.
Qed.

Lemma nx_step s e : next_id (fst (fst (step s e))) = next_id s + total_reqs (ev_reqs s e).
Proof.
  unfold step. pose proof (nx_apply s e) as E1. destruct (apply s e) as [[s1 o1] r]. cbn [fst] in E1.
  pose proof (nx_settle s1) as E2. destruct (settle s1) as [s2 o2]. cbn [fst] in *. congruence.
Qed.

Lemma seq_ranges_length : forall rs c, length (seq_ranges c rs) = length rs.
Proof. induction rs as [|r rs IH]; intro c; cbn [seq_ranges length]; [reflexivity | rewrite IH; reflexivity]. Qed.

Lemma seq_ranges_app : forall r1 r2 c, seq_ranges c (r1 ++ r2) = seq_ranges c r1 ++ seq_ranges (c + total_reqs r1) r2.
Proof.
  induction r1 as [|r r1 IH]; intros r2 c; cbn [app seq_ranges total_reqs]; [rewrite N.add_0_r; reflexivity|].
  rewrite IH. f_equal. f_equal. f_equal. lia.
Qed.

Lemma total_seq_sched t rs : total (seq_sched t rs) = total_reqs rs.
Proof. unfold seq_sched. induction rs as [|r rs IH]; cbn [map total total_reqs]; [reflexivity | rewrite IH; reflexivity]. Qed.

Lemma seq_handed_seq_sched t : forall rs c, map snd (seq_handed c (seq_sched t rs)) = seq_ranges c rs.
Proof. unfold seq_sched. induction rs as [|r rs IH]; intro c; cbn [map seq_handed seq_ranges snd]; [reflexivity | rewrite IH; reflexivity]. Qed.

Lemma alloc_seq_sched a t c rs : all_atomic a -> c + total_reqs rs < modulus a ->
  map snd (handed (alloc_run a (alloc_init c) (seq_sched t rs))) = seq_ranges c rs /\
  counter (alloc_run a (alloc_init c) (seq_sched t rs)) = c + total_reqs rs.
Proof.
  intros A H. rewrite (atomic_run a A (seq_sched t rs) (alloc_init c) eq_refl) by (rewrite total_seq_sched; exact H).
  cbn [alloc_init counter handed app]. rewrite total_seq_sched. split; [apply seq_handed_seq_sched | reflexivity].
Qed.

Lemma fed_step_seq s e rest :
  fed_step s e (seq_ranges (next_id s) (ev_reqs s e) ++ rest) = Some (step s e, rest).
Proof.
  unfold fed_step, step.
  assert (L : length (ev_reqs s e) = length (seq_ranges (next_id s) (ev_reqs s e))) by (symmetry; apply seq_ranges_length).
  cbv zeta. rewrite L. rewrite app_length.
  replace (Nat.leb _ _) with true by (symmetry; apply Nat.leb_le; lia).
  rewrite firstn_app, Nat.sub_diag, firstn_all, skipn_app, Nat.sub_diag, skipn_all. cbn [firstn skipn app]. rewrite app_nil_r.
  rewrite <- apply_is_apply_with. destruct (apply s e) as [[s1 o1] r]. destruct (settle s1) as [s2 o2]. reflexivity.
Qed.

Lemma fed_run_seq : forall es s rest,
  fed_run s es (seq_ranges (next_id s) (hist_reqs s es) ++ rest) = Some (run s es, rest).
Proof.
  induction es as [|e es IH]; intros s rest; [reflexivity|].
  cbn [fed_run hist_reqs]. rewrite seq_ranges_app, <- app_assoc, fed_step_seq.
  rewrite run_cons. pose proof (nx_step s e) as NX.
  destruct (step s e) as [[s1 o] r]. cbn [fst snd] in *. rewrite <- NX, IH. destruct (run s1 es) as [s2 outs]. reflexivity.
Qed.

Lemma nx_run : forall es s, next_id (fst (run s es)) = next_id s + total_reqs (hist_reqs s es).
Proof.
  induction es as [|e es IH]; intro s; cbn [hist_reqs total_reqs]; [cbn; lia|].
  rewrite run_cons. cbn [fst]. rewrite IH, nx_step.
  assert (T : forall r1 r2, total_reqs (r1 ++ r2) = total_reqs r1 + total_reqs r2).
  { induction r1 as [|r r1 IH1]; intro r2; cbn [app total_reqs]; [reflexivity | rewrite IH1; lia]. }
  rewrite T. lia.
Qed.

