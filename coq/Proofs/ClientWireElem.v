(* Byte-level classification of the ELEMENTS of an array: what the server sends inside a JSON array (the serialisation
   of a response / subscription notification / closing notification) is read by the loop of handle_recv_message as
   exactly that message.  Rests on the ORDER of the readers of the loop as read from the source
   (Proofs/ClientReadersElem.v); the whole-message counterparts are in Proofs/ClientWire.v. *)
From JV Require Import Base.Bytes Base.Dec Base.Utf8 Json.Json Json.JsonSer Json.JsonParse Json.JsonWf
  Model.Wire Model.ClientMgr Model.ClientDispatch Proofs.JsonFacts Proofs.WireFacts Proofs.ClientWire Proofs.ClientReadersElem.

Theorem classify_elem_response r : wf_response r -> classify_elem (ser_response r) = IResp r.
Proof. intro W. rewrite classify_elem_now. apply classify_chain_response, W. Qed.

Theorem classify_elem_sub_notif me sid raw :
  utf8_valid me = true -> wf_subid sid -> raw_payload raw ->
  classify_elem (ser_sub_notif me sid false raw) = ISubNotif me sid raw.
Proof. rewrite classify_elem_now. exact (classify_chain_sub me sid false raw). Qed.

Theorem classify_elem_sub_close me sid raw :
  utf8_valid me = true -> wf_subid sid -> raw_payload raw ->
  classify_elem (ser_sub_notif me sid true raw) = ISubErr me sid raw.
Proof. rewrite classify_elem_now. exact (classify_chain_sub me sid true raw). Qed.
