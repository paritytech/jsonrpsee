(* C05: what a client subscription stream yields, over Model/ClientMgr.v -- the vocabulary of Props/C05.v and the lemmas
   its theorems rest on.  One channel first: `chan_send` case by case, and an invariant of every run of one channel
   (FIFO, prefixes).  Then the client state: a notification is `sub_deliver_eq` on the channel of the subscription it
   names, an array of notifications the fold of the single steps, and a stream ends by close, connection end, lag or
   unsubscribe.  Last, with nothing blocking it the send task handles everything queued within the step
   (`drain_ungated`), which is why each of those ends writes exactly one unsubscribe request. *)
From Coq Require Import List NArith ZArith Bool Lia.
From JV Require Import Base.Bytes Base.Dec Model.Wire Model.ClientMgr.
From JV Require Import Proofs.ClientDispatchFacts.
Import ListNotations.
Local Open Scope N_scope.
Local Arguments N.add : simpl never.
Local Arguments N.sub : simpl never.
Local Arguments N.eqb : simpl never.

(* Subscription::poll_next on the channel alone (the consumer side of `poll_next`) *)
Definition chan_poll (c : chan) : chan * nextres :=
  if negb (c_rx c) then (c, NPending)
  else match c_buf c with
       | x :: b' => ({| c_cap := c_cap c; c_buf := b'; c_tx := c_tx c; c_rx := true; c_lag := c_lag c |}, NItem x)
       | [] => (c, if c_tx c then NPending else if c_lag c then NEndLagged else NEndClosed)
       end.

Definition set_lag (c : chan) : chan :=
  {| c_cap := c_cap c; c_buf := c_buf c; c_tx := c_tx c; c_rx := c_rx c; c_lag := true |}.
Definition push_buf (c : chan) (x : bytes) : chan :=
  {| c_cap := c_cap c; c_buf := c_buf c ++ [x]; c_tx := c_tx c; c_rx := c_rx c; c_lag := c_lag c |}.

Definition accepts (c : chan) : Prop := c_lag c = false /\ c_rx c = true /\ (length (c_buf c) < c_cap c)%nat.

Lemma chan_send_lagged c x : c_lag c = true -> chan_send c x = (c, SentTooSlow).
Proof. intro H. unfold chan_send. rewrite H. reflexivity. Qed.

Lemma chan_send_closed c x : c_lag c = false -> c_rx c = false -> chan_send c x = (c, SentClosed).
Proof. intros H1 H2. unfold chan_send. rewrite H1, H2. reflexivity. Qed.

Lemma chan_send_accept c x : accepts c -> chan_send c x = (push_buf c x, SentOk).
Proof.
  intros [H1 [H2 H3]]. apply Nat.ltb_lt in H3. unfold chan_send. rewrite H1, H2, H3. unfold push_buf. now rewrite H1, H2.
Qed.

Lemma chan_send_full c x :
  c_lag c = false -> c_rx c = true -> (c_cap c <= length (c_buf c))%nat -> chan_send c x = (set_lag c, SentTooSlow).
Proof.
  intros H1 H2 H3. apply Nat.ltb_ge in H3. unfold chan_send. rewrite H1, H2, H3. unfold set_lag. now rewrite H2.
Qed.

Lemma chan_send_cases c x :
  (accepts c /\ chan_send c x = (push_buf c x, SentOk)) \/
  (c_lag c = true /\ chan_send c x = (c, SentTooSlow)) \/
  (c_rx c = false /\ chan_send c x = (c, SentClosed)) \/
  ((c_cap c <= length (c_buf c))%nat /\ chan_send c x = (set_lag c, SentTooSlow)).
Proof.
  destruct (c_lag c) eqn:L; [right; left; split; [reflexivity | now apply chan_send_lagged]|].
  destruct (c_rx c) eqn:R; [|right; right; left; split; [reflexivity | now apply chan_send_closed]].
  destruct (Nat.lt_ge_cases (length (c_buf c)) (c_cap c)) as [H|H].
  - left. assert (Ha : accepts c) by (unfold accepts; auto). split; [exact Ha | now apply chan_send_accept].
  - right; right; right. split; [exact H | now apply chan_send_full].
Qed.

Lemma chan_send_lag_mono c x : c_lag c = true -> c_lag (fst (chan_send c x)) = true.
Proof. intro H. now rewrite chan_send_lagged. Qed.

Lemma chan_poll_item c c' x : chan_poll c = (c', NItem x) ->
  c_rx c = true /\ c_buf c = x :: c_buf c' /\ c_rx c' = true /\ c_tx c' = c_tx c /\ c_lag c' = c_lag c /\ c_cap c' = c_cap c.
Proof.
  unfold chan_poll. destruct (c_rx c); simpl; [|discriminate].
  destruct (c_buf c) as [|y b]; [destruct (c_tx c), (c_lag c); discriminate|].
  intro H. injection H as <- <-. simpl. repeat split; reflexivity.
Qed.

Lemma chan_poll_other c c' r : chan_poll c = (c', r) -> (forall x, r <> NItem x) -> c' = c.
Proof.
  unfold chan_poll. destruct (c_rx c); simpl; [|intro H; now injection H].
  destruct (c_buf c) as [|y b]; [intro H; now injection H|].
  intro H. injection H as <- <-. intro Hn. exfalso. now apply (Hn y).
Qed.

(* an abstract run of one channel: pushes by the read task, polls by the consumer, either end going away *)
Inductive cop := CSend (x : bytes) | CPoll | CDropTx | CDropRx.

Record crun_st := { r_chan : chan; r_pushed : list bytes; r_accepted : list bytes; r_polled : list bytes }.

Definition cstep (t : crun_st) (o : cop) : crun_st :=
  match o with
  | CSend x =>
    let '(c', r) := chan_send (r_chan t) x in
    {| r_chan := c'; r_pushed := r_pushed t ++ [x];
       r_accepted := match r with SentOk => r_accepted t ++ [x] | _ => r_accepted t end; r_polled := r_polled t |}
  | CPoll =>
    let '(c', r) := chan_poll (r_chan t) in
    {| r_chan := c'; r_pushed := r_pushed t; r_accepted := r_accepted t;
       r_polled := match r with NItem x => r_polled t ++ [x] | _ => r_polled t end |}
  | CDropTx => {| r_chan := chan_drop_tx (r_chan t); r_pushed := r_pushed t; r_accepted := r_accepted t; r_polled := r_polled t |}
  | CDropRx => {| r_chan := chan_drop_rx (r_chan t); r_pushed := r_pushed t; r_accepted := r_accepted t; r_polled := r_polled t |}
  end.

Definition crun (t : crun_st) (ops : list cop) : crun_st := fold_left cstep ops t.
Definition cinit (cap : nat) : crun_st := {| r_chan := new_chan cap; r_pushed := []; r_accepted := []; r_polled := [] |}.

Definition prefix {A} (a b : list A) : Prop := exists rest, a ++ rest = b.

Record cinv (cap : nat) (t : crun_st) : Prop := {
  ci_cap : c_cap (r_chan t) = cap;
  ci_len : (length (c_buf (r_chan t)) <= cap)%nat;
  ci_live : c_rx (r_chan t) = true -> r_polled t ++ c_buf (r_chan t) = r_accepted t;
  ci_gone : c_rx (r_chan t) = false -> c_buf (r_chan t) = [];
  ci_pol : prefix (r_polled t) (r_accepted t);
  ci_acc : prefix (r_accepted t) (r_pushed t);
  ci_all : c_lag (r_chan t) = false -> c_rx (r_chan t) = true -> r_accepted t = r_pushed t
}.

Lemma prefix_refl {A} (a : list A) : prefix a a.
Proof. exists []. apply app_nil_r. Qed.
Lemma prefix_snoc_r {A} (a b : list A) x : prefix a b -> prefix a (b ++ [x]).
Proof. intros [r <-]. exists (r ++ [x]). now rewrite app_assoc. Qed.

Lemma cinv_init cap : cinv cap (cinit cap).
Proof. constructor; simpl; auto; try apply prefix_refl. lia. Qed.

Lemma cinv_step cap t o : cinv cap t -> cinv cap (cstep t o).
Proof.
  intros [Hcap Hlen Hlive Hgone Hpol Hacc Hall]. destruct o as [x| | |]; unfold cstep.
  - destruct (chan_send_cases (r_chan t) x) as [[[Hl [Hr Hlt]] ->]|[[H ->]|[[H ->]|[H ->]]]].
    + (* accepted: pushed = accepted before, and both grow by x *)
      specialize (Hlive Hr). specialize (Hall Hl Hr).
      constructor; simpl.
      * exact Hcap.
      * rewrite app_length. simpl. lia.
      * intros _. now rewrite app_assoc, Hlive.
      * congruence.
      * now apply prefix_snoc_r.
      * rewrite Hall. apply prefix_refl.
      * intros _ _. now rewrite Hall.
    + (* lagged: only pushed grows *)
      constructor; simpl; auto using prefix_snoc_r. congruence.
    + constructor; simpl; auto using prefix_snoc_r. congruence.
    + (* full: the flag is set *)
      constructor; simpl; auto using prefix_snoc_r. discriminate.
  - destruct (chan_poll (r_chan t)) as [c' r] eqn:E.
    assert (Hsame : (forall x, r <> NItem x) -> cinv cap {| r_chan := c'; r_pushed := r_pushed t; r_accepted := r_accepted t; r_polled := r_polled t |}).
    { intro Hn. rewrite (chan_poll_other _ _ _ E Hn). now constructor. }
    destruct r as [x| | |]; try (apply Hsame; discriminate).
    (* an item: it moves from the head of the buffer to the tail of polled *)
    apply chan_poll_item in E as [Erx [Eb [Erx' [Etx [Elag Ecap]]]]].
    specialize (Hlive Erx). rewrite Eb in Hlive, Hlen. simpl in Hlen.
    constructor; simpl; try congruence; try lia.
    + intros _. now rewrite <- app_assoc.
    + exists (c_buf c'). now rewrite <- app_assoc.
    + rewrite Elag. intros H _. now apply Hall.
  - constructor; simpl; auto.
  - constructor; simpl; auto; try discriminate. lia.
Qed.

Lemma cinv_run cap ops : forall t, cinv cap t -> cinv cap (crun t ops).
Proof. induction ops as [|o ops IH]; intros t H; [exact H|]. apply IH. now apply cinv_step. Qed.

Lemma lag_step t o : c_lag (r_chan t) = true ->
  c_lag (r_chan (cstep t o)) = true /\ r_accepted (cstep t o) = r_accepted t.
Proof.
  intro H. destruct o as [x| | |]; unfold cstep.
  - rewrite chan_send_lagged by exact H. auto.
  - destruct (chan_poll (r_chan t)) as [c' r] eqn:E. simpl. split; [|reflexivity].
    destruct r as [x| | |]; try (apply chan_poll_other in E; [|discriminate]; now subst c').
    apply chan_poll_item in E. destruct E as [_ [_ [_ [_ [E _]]]]]. congruence.
  - auto.
  - auto.
Qed.

Fixpoint polls (c : chan) (n : nat) : chan * list nextres :=
  match n with
  | O => (c, [])
  | S n' => let '(c1, r) := chan_poll c in let '(c2, rs) := polls c1 n' in (c2, r :: rs)
  end.

Definition end_reason (c : chan) : nextres := if c_lag c then NEndLagged else NEndClosed.

Lemma polls_drain : forall b cap lg,
  snd (polls {| c_cap := cap; c_buf := b; c_tx := false; c_rx := true; c_lag := lg |} (S (length b)))
  = map NItem b ++ [if lg then NEndLagged else NEndClosed].
Proof.
  induction b as [|x b IH]; intros cap lg.
  - reflexivity.
  - change (polls ?c (S (length (x :: b)))) with
      (let '(c1, r) := chan_poll c in let '(c2, rs) := polls c1 (S (length b)) in (c2, r :: rs)).
    unfold chan_poll at 1. cbn [c_rx c_buf negb c_cap c_tx c_lag].
    specialize (IH cap lg). destruct (polls _ (S (length b))) as [c2 rs]. simpl in *. now rewrite IH.
Qed.

Theorem drain_then_end : forall c, c_rx c = true -> c_tx c = false ->
  snd (polls c (S (length (c_buf c)))) = map NItem (c_buf c) ++ [end_reason c].
Proof.
  intros [cap b tx rx lg] H1 H2. simpl in *. subst. apply polls_drain.
Qed.

Lemma chan_of_set_same s h c : chan_of (set_chan s h c) h = Some c.
Proof. apply (alookup_aset_same N.eqb Neqb_ok). Qed.
Lemma chan_of_set_other s h h' c : h <> h' -> chan_of (set_chan s h' c) h = chan_of s h.
Proof. apply (alookup_aset_other N.eqb Neqb_ok). Qed.

Lemma poll_next_unknown s sh : chan_of s sh = None -> poll_next s sh = (s, NPending).
Proof. intro H. unfold poll_next. now rewrite H. Qed.

Definition sub_chan (s : st) (sid : subid) : option handle :=
  match alookup subid_eqb sid (subs (m s)) with
  | Some rid => match req_lookup rid (m s) with Some (KSub _ ch _) => Some ch | _ => None end
  | None => None
  end.

Lemma chan_of_enqueue s x h : chan_of (enqueue s x) h = chan_of s h.
Proof. unfold chan_of. now rewrite enqueue_chans. Qed.

Definition pending_msgs (s : st) : list f2b := queue s ++ map fst (waiting s).

Lemma enqueue_pending s x : pending_msgs (enqueue s x) = pending_msgs s ++ [x].
Proof. apply enqueue_tagged_msgs. Qed.

Lemma sub_deliver_eq s sid p :
  sub_deliver s sid p =
  match sub_chan s sid with
  | Some ch =>
    match chan_of s ch with
    | Some c => match snd (chan_send c p) with
                | SentOk => set_chan s ch (fst (chan_send c p))
                | _ => forward (set_chan s ch (fst (chan_send c p))) (MSubClosed sid)
                end
    | None => s
    end
  | None => s
  end.
Proof.
  unfold sub_chan, sub_deliver. destruct (alookup subid_eqb sid (subs (m s))) as [rid|]; [|reflexivity].
  destruct (req_lookup rid (m s)) as [[| | u ch um|]|]; try reflexivity.
  destruct (chan_of s ch) as [c|]; [|reflexivity]. destruct (chan_send c p) as [c' r]. reflexivity.
Qed.

Lemma chan_of_drop_sink_other s h h' : h <> h' -> chan_of (drop_sink s h') h = chan_of s h.
Proof. intro Hn. unfold drop_sink. destruct (chan_of s h'); [now apply chan_of_set_other|reflexivity]. Qed.
Lemma chan_of_drop_sink s h : chan_of (drop_sink s h) h = option_map chan_drop_tx (chan_of s h).
Proof. unfold drop_sink. destruct (chan_of s h) eqn:E; simpl; [apply chan_of_set_same|exact E]. Qed.

Definition is_notif (x : inmsg) : bool :=
  match x with ISubNotif _ _ _ | ISubErr _ _ _ | INotif _ _ => true | IResp _ | IBad => false end.

Definition notif_step (s : st) (x : inmsg) : st :=
  match x with
  | ISubNotif _ sid p => sub_deliver s sid p
  | ISubErr _ sid _ => sub_close s sid
  | INotif me p => notif_deliver s me p
  | _ => s
  end.

Lemma handle_single_notif s x : is_notif x = true -> handle_back s (FSingle x) = ROk (notif_step s x) [].
Proof. destruct x; simpl; intro H; try discriminate; reflexivity. Qed.

Lemma array_loop_notifs : forall ms s acc rng got,
  forallb is_notif ms = true ->
  array_loop s ms acc rng got = inl (fold_left notif_step ms s, acc, rng, (got || match ms with [] => false | _ => true end)%bool).
Proof.
  induction ms as [|x ms IH]; intros s acc rng got H.
  - simpl. now rewrite orb_false_r.
  - simpl in H. apply andb_true_iff in H as [Hx Hms].
    destruct x; try discriminate; simpl; rewrite IH by exact Hms; rewrite orb_true_r; simpl; reflexivity.
Qed.

Theorem array_of_notifs : forall s ms,
  forallb is_notif ms = true -> ms <> [] -> handle_back s (FArray ms) = ROk (fold_left notif_step ms s) [].
Proof.
  intros s ms H Hne. rewrite handle_back_now; unfold handle_back_ref. rewrite array_loop_notifs by exact H.
  destruct ms; [contradiction|]. reflexivity.
Qed.

Fixpoint run_frames (s : st) (frs : list inframe) : rres :=
  match frs with
  | [] => ROk s []
  | fr :: rest =>
    match handle_back s fr with
    | ROk s' o =>
      match run_frames s' rest with
      | ROk s'' o' => ROk s'' (o ++ o')
      | RFatal s'' o' f => RFatal s'' (o ++ o') f
      end
    | RFatal s' o f => RFatal s' o f
    end
  end.

Lemma run_singles : forall ms s, forallb is_notif ms = true ->
  run_frames s (map FSingle ms) = ROk (fold_left notif_step ms s) [].
Proof.
  induction ms as [|x ms IH]; intros s H; [reflexivity|].
  simpl in H. apply andb_true_iff in H as [Hx Hms].
  cbn [map run_frames]. rewrite handle_single_notif by exact Hx. rewrite IH by exact Hms. reflexivity.
Qed.

Lemma run_arrays : forall parts s,
  (forall p, In p parts -> p <> [] /\ forallb is_notif p = true) ->
  run_frames s (map FArray parts) = ROk (fold_left notif_step (concat parts) s) [].
Proof.
  induction parts as [|p parts IH]; intros s H; [reflexivity|].
  cbn [map run_frames concat]. destruct (H p (or_introl eq_refl)) as [Hne Hp].
  rewrite array_of_notifs by assumption. rewrite IH by (intros q Hq; apply H; now right).
  rewrite fold_left_app. reflexivity.
Qed.

(* bytes: the classifier skips Rust's ASCII whitespace, `raw_array` JSON whitespace; byte by byte the second is among
   the first *)
Lemma json_ws_is_ascii_ws c : is_json_ws c = true -> is_ascii_ws c = true.
Proof. destruct c; intro H; (exact H || reflexivity). Qed.

Lemma skip_ws_drop_ascii : forall s c r, skip_ws s = c :: r -> is_ascii_ws c = false -> drop_while is_ascii_ws s = c :: r.
Proof.
  induction s as [|a s IH]; intros c r H Hc; [discriminate|].
  unfold skip_ws in *. simpl in *. destruct (is_json_ws a) eqn:E.
  - rewrite (json_ws_is_ascii_ws _ E). now apply IH.
  - injection H as -> ->. now rewrite Hc.
Qed.

Lemma release_reserved_lookup_none u mm i : req_lookup i mm = None -> req_lookup i (release_reserved u mm) = None.
Proof.
  intro H. unfold release_reserved. destruct (req_lookup u mm) as [[[]| | |]|]; try exact H.
  unfold req_lookup in *. simpl. now apply (alookup_aremove_none id_eqb id_eqb_ok).
Qed.

Theorem kill_closes_all : forall s f h,
  chan_of (fst (kill s f)) h = option_map chan_drop_tx (chan_of s h) /\
  m (fst (kill s f)) = empty_mgr /\ dead (fst (kill s f)) = true.
Proof.
  intros s f h. unfold kill, chan_of. cbn [fst]. cbn. split; [apply (alookup_map_val N.eqb)|auto].
Qed.

Corollary kill_no_sender : forall s f h c, chan_of (fst (kill s f)) h = Some c -> c_tx c = false.
Proof.
  intros s f h c H. destruct (kill_closes_all s f h) as [E _]. rewrite E in H.
  destruct (chan_of s h); [|discriminate]. injection H as <-. reflexivity.
Qed.

Lemma wire_snd s raw : snd (wire s raw) = if sendfail s then [] else [OWire raw].
Proof. unfold wire. destruct (sendfail s); reflexivity. Qed.

Lemma chan_of_wire s raw h : chan_of (fst (wire s raw)) h = chan_of s h.
Proof. unfold chan_of. now rewrite wire_chans. Qed.

(* behind C05_unsubscribe_spec and C05_unsubscribe_at_most_once (a second MSubClosed finds nothing) *)
Theorem do_unsubscribe_spec : forall s sid rid u ch um,
  alookup subid_eqb sid (subs (m s)) = Some rid -> req_lookup rid (m s) = Some (KSub u ch um) ->
  let r := do_unsubscribe s sid in
  snd r = (if sendfail s then [] else [OWire (unsub_request s u um sid)]) /\
  alookup subid_eqb sid (subs (m (fst r))) = None /\
  sub_chan (fst r) sid = None /\
  chan_of (fst r) ch = option_map chan_drop_tx (chan_of s ch) /\
  (forall h, h <> ch -> chan_of (fst r) h = chan_of s h).
Proof.
  intros s sid rid u ch um H1 H2 r. subst r. unfold do_unsubscribe. rewrite H1, H2.
  rewrite wire_snd. cbn [sendfail upd_unacked].
  assert (Hsf : forall s0 h0, sendfail (drop_sink s0 h0) = sendfail s0).
  { intros s0 h0. unfold drop_sink. destruct (chan_of s0 h0); reflexivity. }
  rewrite Hsf. cbn [sendfail upd_m]. split; [reflexivity|].
  assert (E : forall s1 raw, alookup subid_eqb sid (subs (m s1)) = None ->
              alookup subid_eqb sid (subs (m (fst (wire (upd_unacked s1 (u :: unacked s1)) raw)))) = None).
  { intros s1 raw H. now rewrite wire_m. }
  assert (E0 : forall rq, alookup subid_eqb sid (subs (m (drop_sink (upd_m s (set_subs (set_requests (m s) rq)
                 (aremove subid_eqb sid (subs (m s))))) ch))) = None).
  { intro rq. rewrite drop_sink_m. simpl. apply (alookup_aremove_same subid_eqb subid_eqb_ok). }
  split; [apply E, E0|]. split; [unfold sub_chan; now rewrite E by apply E0|].
  split.
  - rewrite chan_of_wire. exact (chan_of_drop_sink (upd_m s _) ch).
  - intros h Hn. rewrite chan_of_wire. exact (chan_of_drop_sink_other (upd_m s _) h ch Hn).
Qed.

Lemma sub_chan_inv s sid ch : sub_chan s sid = Some ch ->
  exists rid u um, alookup subid_eqb sid (subs (m s)) = Some rid /\ req_lookup rid (m s) = Some (KSub u ch um).
Proof.
  unfold sub_chan. destruct (alookup subid_eqb sid (subs (m s))) as [rid|] eqn:E1; [|discriminate].
  destruct (req_lookup rid (m s)) as [[| | u ch' um|]|] eqn:E2; try discriminate.
  intro H. injection H as ->. exists rid, u, um. split; [reflexivity|exact E2].
Qed.

Lemma sub_chan_m s s' sid : m s' = m s -> sub_chan s' sid = sub_chan s sid.
Proof. intro H. unfold sub_chan. now rewrite H. Qed.

Definition frame (s : st) (q : list f2b) (w : list (f2b * option handle)) (u : list (handle * handle * bool)) : st :=
  upd_unsubw (upd_queue s q w) u.

Lemma frame_id s : frame s (queue s) (waiting s) (unsubw s) = s.
Proof. destruct s; reflexivity. Qed.

Definition ungated (s : st) : Prop :=
  gated s = false /\ dead s = false /\ dying s = None /\ sendfail s = false /\ busy s = false.

Definition flags (s : st) := (gated s, dead s, dying s, sendfail s, busy s, qcap s).

Lemma ungated_flags s s' : flags s' = flags s -> ungated s -> ungated s' /\ qcap s' = qcap s.
Proof.
  unfold flags, ungated. intros E [H1 [H2 [H3 [H4 H5]]]]. injection E as -> -> -> -> -> ->. auto 10.
Qed.

Fixpoint process (s : st) (msgs : list f2b) : st * list out :=
  match msgs with
  | [] => (s, [])
  | x :: rest =>
    let '(s1, o1) := handle_front s x in
    let '(s2, o2) := process s1 rest in
    (s2, o1 ++ o2)
  end.

(* unsubscribe() futures whose message is admitted to the queue are marked *)
Definition marks (tags : list (option handle)) (u : list (handle * handle * bool)) : list (handle * handle * bool) :=
  fold_left (fun u t => match t with Some h => mark_admitted h u | None => u end) tags u.

Lemma flags_gated_sendfail s s' : flags s' = flags s -> gated s' = gated s /\ sendfail s' = sendfail s.
Proof. intro E. injection E. auto. Qed.

Lemma wire_flags s0 s raw : flags s = flags s0 -> gated s0 = false -> sendfail s0 = false ->
  flags (fst (wire s raw)) = flags s0.
Proof. intros E Hg Hs. destruct (flags_gated_sendfail _ _ E) as [Eg Es]. rewrite wire_quiet by congruence. exact E. Qed.

Lemma drop_sink_flags s h : flags (drop_sink s h) = flags s.
Proof. unfold drop_sink. destruct (chan_of s h); reflexivity. Qed.

Lemma hf_flags s x : gated s = false -> sendfail s = false -> flags (fst (handle_front s x)) = flags s.
Proof.
  intros Hg Hs. destruct x; cbn [handle_front].
  - destruct (ahas _ _ _); [reflexivity|]. now apply wire_flags.
  - now apply wire_flags.
  - destruct (ahas _ _ _); [reflexivity|]. now apply wire_flags.
  - destruct (_ && _)%bool; [|reflexivity]. now apply wire_flags.
  - destruct (ahas _ _ _); [reflexivity|]. destruct (alive s h); reflexivity.
  - destruct (alookup _ _ _); [|reflexivity]. exact (drop_sink_flags (upd_m s _) _).
  - unfold do_unsubscribe. destruct (alookup _ _ _); [|reflexivity].
    destruct (req_lookup _ _) as [[| | u ch um|]|]; try reflexivity.
    apply wire_flags; [exact (drop_sink_flags (upd_m s _) ch) | exact Hg | exact Hs].
Qed.

(* the send task's handler neither reads nor writes queue, waiting and unsubw: `frame` (three field updates) commutes
   with every other field update by conversion, and each `change` below is one such commutation *)
Lemma wire_frame s q w u raw :
  wire (frame s q w u) raw = (frame (fst (wire s raw)) q w u, snd (wire s raw)).
Proof.
  unfold wire, frame. cbn [sendfail gated upd_unsubw upd_queue]. destruct (sendfail s); [|destruct (gated s)]; reflexivity.
Qed.

Lemma drop_sink_frame s q w u h : drop_sink (frame s q w u) h = frame (drop_sink s h) q w u.
Proof.
  unfold drop_sink, chan_of, frame. cbn [chans upd_unsubw upd_queue]. destruct (alookup N.eqb h (chans s)); reflexivity.
Qed.

Lemma hf_frame s q w u x :
  handle_front (frame s q w u) x = (frame (fst (handle_front s x)) q w u, snd (handle_front s x)).
Proof.
  destruct x; cbn [handle_front].
  - change (m (frame s q w u)) with (m s). destruct (ahas _ _ _); [reflexivity|].
    change (upd_m (frame s q w u) ?mm) with (frame (upd_m s mm) q w u). apply wire_frame.
  - apply wire_frame.
  - change (m (frame s q w u)) with (m s). destruct (ahas _ _ _); [reflexivity|].
    change (upd_m (frame s q w u) ?mm) with (frame (upd_m s mm) q w u). apply wire_frame.
  - change (m (frame s q w u)) with (m s). destruct (_ && _)%bool; [|reflexivity].
    change (upd_m (frame s q w u) ?mm) with (frame (upd_m s mm) q w u). apply wire_frame.
  - change (m (frame s q w u)) with (m s). destruct (ahas _ _ _); [reflexivity|].
    change (alive (frame s q w u) h) with (alive s h). destruct (alive s h); reflexivity.
  - change (m (frame s q w u)) with (m s). destruct (alookup _ _ _); [|reflexivity].
    change (upd_m (frame s q w u) ?mm) with (frame (upd_m s mm) q w u). now rewrite drop_sink_frame.
  - unfold do_unsubscribe. change (m (frame s q w u)) with (m s).
    destruct (alookup _ _ _); [|reflexivity].
    destruct (req_lookup _ _) as [[| | u0 ch um|]|]; try reflexivity.
    change (upd_m (frame s q w u) ?mm) with (frame (upd_m s mm) q w u). rewrite drop_sink_frame.
    change (upd_unacked (frame ?x q w u) ?l) with (frame (upd_unacked x l) q w u).
    change (unacked (frame ?x q w u)) with (unacked x).
    apply wire_frame.
Qed.

Lemma process_frame q w u : forall msgs s,
  process (frame s q w u) msgs = (frame (fst (process s msgs)) q w u, snd (process s msgs)).
Proof.
  induction msgs as [|x msgs IH]; intro s; [reflexivity|].
  cbn [process]. rewrite hf_frame. destruct (handle_front s x) as [s1 o1]. cbn [fst snd].
  rewrite IH. destruct (process s1 msgs) as [s2 o2]. reflexivity.
Qed.

Lemma process_flags : forall msgs s, gated s = false -> sendfail s = false ->
  flags (fst (process s msgs)) = flags s.
Proof.
  induction msgs as [|x msgs IH]; intros s Hg Hs; [reflexivity|].
  cbn [process]. pose proof (hf_flags s x Hg Hs) as E. destruct (handle_front s x) as [s1 o1]. cbn [fst] in E.
  destruct (flags_gated_sendfail _ _ E) as [Eg Es].
  specialize (IH s1). destruct (process s1 msgs) as [s2 o2]. cbn [fst] in *. rewrite IH; congruence.
Qed.

Lemma admit_waiting_spec : forall n s, exists a b,
  waiting s = a ++ b /\
  admit_waiting n s = frame s (queue s ++ map fst a) b (marks (map snd a) (unsubw s)) /\
  ((length (waiting s) <= n)%nat -> b = [] \/ ~ (length (queue s ++ map fst a) < qcap s)%nat).
Proof.
  induction n as [|n IH]; intro s.
  - exists [], (waiting s). split; [reflexivity|]. split.
    + cbn [admit_waiting map marks fold_left]. rewrite app_nil_r. symmetry. apply frame_id.
    + intro H. left. destruct (waiting s); [reflexivity|simpl in H; lia].
  - cbn [admit_waiting]. destruct (waiting s) as [|[msg tag] w] eqn:Ew.
    + exists [], []. split; [reflexivity|]. split; [|now left].
      cbn [map marks fold_left]. rewrite app_nil_r, <- Ew. symmetry. apply frame_id.
    + destruct (Nat.ltb (length (queue s)) (qcap s)) eqn:Eroom.
      * set (s' := frame s (queue s ++ [msg]) w (marks [tag] (unsubw s))).
        assert (Es' : (match tag with
                       | Some h => upd_unsubw (upd_queue s (queue s ++ [msg]) w)
                                     (mark_admitted h (unsubw (upd_queue s (queue s ++ [msg]) w)))
                       | None => upd_queue s (queue s ++ [msg]) w end) = s').
        { destruct tag; reflexivity. }
        rewrite Es'. destruct (IH s') as [a [b [Hw [Ha Hb]]]].
        exists ((msg, tag) :: a), b. split; [cbn in Hw; now rewrite Hw|]. split.
        -- rewrite Ha. unfold s'. cbn [queue waiting unsubw frame upd_unsubw upd_queue map snd fst marks fold_left].
           rewrite <- app_assoc. reflexivity.
        -- intro H. cbn [length] in H. destruct Hb as [Hb|Hb]; [cbn; lia|now left|right].
           unfold s' in Hb. cbn [queue qcap frame upd_unsubw upd_queue] in Hb.
           cbn [map fst]. now rewrite <- app_assoc in Hb.
      * exists [], ((msg, tag) :: w). split; [reflexivity|]. split.
        -- cbn [map marks fold_left]. rewrite app_nil_r, <- Ew. symmetry. apply frame_id.
        -- intros _. right. cbn [map]. rewrite app_nil_r. apply Nat.ltb_ge in Eroom. lia.
Qed.

Lemma marks_app t1 t2 u : marks (t1 ++ t2) u = marks t2 (marks t1 u).
Proof. unfold marks. apply fold_left_app. Qed.

Theorem drain_ungated : forall fuel s,
  ungated s -> (0 < qcap s)%nat -> (length (pending_msgs s) < fuel)%nat ->
  drain fuel s =
  (frame (fst (process s (pending_msgs s))) [] [] (marks (map snd (waiting s)) (unsubw s)),
   snd (process s (pending_msgs s))).
Proof.
  induction fuel as [|fuel IH]; intros s Hu Hq Hlen; [lia|].
  cbn [drain]. destruct (admit_waiting_spec (length (waiting s)) s) as [a [b [Hw [Ha Hb]]]].
  rewrite Ha. specialize (Hb (le_n _)).
  destruct Hu as [Hg [Hd [Hdy [Hsf Hb']]]].
  cbn [busy dead dying queue waiting frame upd_unsubw upd_queue]. rewrite Hb', Hd, Hdy. cbn [orb].
  unfold pending_msgs in *. rewrite Hw, map_app, app_assoc in *.
  destruct (queue s ++ map fst a) as [|msg q] eqn:EQ.
  - (* nothing queued: then nothing is blocked either *)
    destruct Hb as [->|Hb]; [|cbn in Hb; lia].
    apply app_eq_nil in EQ as [Eq Ea]. apply map_eq_nil in Ea. subst a. cbn [map app process fst snd]. reflexivity.
  - assert (E : upd_queue (frame s (msg :: q) b (marks (map snd a) (unsubw s))) q b
                = frame s q b (marks (map snd a) (unsubw s))) by reflexivity.
    rewrite E, hf_frame. cbn [app process].
    pose proof (hf_flags s msg Hg Hsf) as Ef.
    destruct (handle_front s msg) as [s1 o1]. cbn [fst snd] in *.
    set (U := marks (map snd a) (unsubw s)).
    assert (Hu1 : ungated (frame s1 q b U) /\ qcap (frame s1 q b U) = qcap s).
    { apply (ungated_flags s); [exact Ef|]. unfold ungated; auto. }
    destruct Hu1 as [Hu1 Hq1].
    rewrite (IH (frame s1 q b U)); [|exact Hu1|rewrite Hq1; exact Hq|].
    2:{ unfold pending_msgs. cbn [queue waiting frame upd_unsubw upd_queue].
        cbn [app length] in Hlen. rewrite app_length in *. lia. }
    unfold pending_msgs. cbn [queue waiting unsubw frame upd_unsubw upd_queue].
    fold (frame s1 q b U). rewrite process_frame.
    destruct (process s1 (q ++ map fst b)) as [s2 o2]. cbn [fst snd].
    rewrite map_app, marks_app. reflexivity.
Qed.

Definition wires_of (o : list out) : list bytes :=
  flat_map (fun x => match x with OWire w => [w] | _ => [] end) o.

Lemma wires_of_app a b : wires_of (a ++ b) = wires_of a ++ wires_of b.
Proof. unfold wires_of. apply flat_map_app. Qed.

Lemma complete_wires s h r : wires_of (complete s h r) = [].
Proof. unfold complete. destruct (alive s h); reflexivity. Qed.

Lemma finish_unsubs_wires s : wires_of (snd (finish_unsubs s)) = [].
Proof.
  unfold finish_unsubs. cbn [snd]. induction (filter (unsub_done s) (unsubw s)) as [|[[w c] adm] l IH]; [reflexivity|].
  cbn [flat_map]. now rewrite wires_of_app, complete_wires, IH.
Qed.

Lemma finish_unsubs_nil s : unsubw s = [] -> snd (finish_unsubs s) = [].
Proof. intro H. unfold finish_unsubs. rewrite H. reflexivity. Qed.

Theorem settle_ungated : forall s, ungated s -> (0 < qcap s)%nat ->
  let P := process s (pending_msgs s) in
  let D := frame (fst P) [] [] (marks (map snd (waiting s)) (unsubw s)) in
  settle s = (fst (finish_unsubs D), snd P ++ snd (finish_unsubs D)) /\
  ungated D /\ qcap D = qcap s.
Proof.
  intros s Hu Hq P D.
  assert (Hf : flags D = flags s).
  { destruct Hu as [Hg [_ [_ [Hsf _]]]]. exact (process_flags (pending_msgs s) s Hg Hsf). }
  destruct (ungated_flags s D Hf Hu) as [HuD HqD]. split; [|auto].
  unfold settle, try_kill. destruct Hu as [Hg [Hd [Hdy [Hsf Hb]]]]. rewrite Hdy.
  rewrite drain_ungated; [|unfold ungated; auto|exact Hq|].
  2:{ unfold pending_msgs. rewrite app_length, map_length. lia. }
  fold P. fold D. destruct HuD as [_ [_ [HdyD _]]]. rewrite HdyD.
  destruct (finish_unsubs D) as [s4 o4]. cbn [fst snd app]. reflexivity.
Qed.

Theorem settle_quiescent : forall s, ungated s -> (0 < qcap s)%nat ->
  queue (fst (settle s)) = [] /\ waiting (fst (settle s)) = [] /\ ungated (fst (settle s)) /\
  qcap (fst (settle s)) = qcap s.
Proof.
  intros s Hu Hq. destruct (settle_ungated s Hu Hq) as [E [HuD HqD]]. rewrite E. cbn [fst].
  set (D := frame _ _ _ _) in *.
  destruct (finish_unsubs_shape D) as (cs & -> & _). repeat split; try reflexivity; try apply HuD. exact HqD.
Qed.

Lemma settle_one_ungated s x : ungated s -> (0 < qcap s)%nat -> queue s = [x] -> waiting s = [] ->
  let D := frame (fst (handle_front s x)) [] [] (unsubw s) in
  settle s = (fst (finish_unsubs D), snd (handle_front s x) ++ snd (finish_unsubs D)).
Proof.
  intros Hu Hq Hqu Hw D. destruct (settle_ungated s Hu Hq) as [E _]. rewrite E.
  unfold pending_msgs. rewrite Hqu, Hw. cbn [map app process marks fold_left].
  subst D. destruct (handle_front s x) as [s1 o1]. cbn [fst snd]. now rewrite app_nil_r.
Qed.

Lemma enqueue_tagged_room s x tag : queue s = [] -> waiting s = [] -> (0 < qcap s)%nat ->
  enqueue_tagged s x tag = frame s [x] [] (marks [tag] (unsubw s)).
Proof.
  intros Hq Hw Hc. rewrite (enqueue_quiet s x tag Hq Hw Hc). destruct tag; reflexivity.
Qed.

Lemma gone_wire s raw : gone (fst (wire s raw)) = gone s.
Proof. unfold wire. destruct (sendfail s); [|destruct (gated s)]; reflexivity. Qed.
Lemma gone_drop_sink s h : gone (drop_sink s h) = gone s.
Proof. destruct (drop_sink_chans s h) as (cs & ->). reflexivity. Qed.
Lemma gone_do_unsubscribe s sid : gone (fst (do_unsubscribe s sid)) = gone s.
Proof.
  unfold do_unsubscribe. destruct (alookup _ _ _); [|reflexivity].
  destruct (req_lookup _ _) as [[| | u ch um|]|]; try reflexivity.
  rewrite gone_wire. cbn [gone upd_unacked]. now rewrite gone_drop_sink.
Qed.

(* the common core of the three ways a stream is closed from the client's side (refused push, unsubscribe(), drop) *)
Lemma settle_sub_closed s sid rid u ch um :
  ungated s -> (0 < qcap s)%nat -> queue s = [MSubClosed sid] -> waiting s = [] ->
  alookup subid_eqb sid (subs (m s)) = Some rid -> req_lookup rid (m s) = Some (KSub u ch um) ->
  let D := frame (fst (do_unsubscribe s sid)) [] [] (unsubw s) in
  settle s = (fst (finish_unsubs D), OWire (unsub_request s u um sid) :: snd (finish_unsubs D)) /\
  wires_of (snd (settle s)) = [unsub_request s u um sid] /\
  alookup subid_eqb sid (subs (m (fst (settle s)))) = None /\
  chan_of D ch = option_map chan_drop_tx (chan_of s ch) /\ gone D = gone s.
Proof.
  intros Hu Hq Hqu Hw H1 H2 D.
  pose proof (settle_one_ungated s (MSubClosed sid) Hu Hq Hqu Hw) as E. cbn [handle_front] in E. fold D in E.
  destruct (do_unsubscribe_spec s sid rid u ch um H1 H2) as [Ho [Hs [_ [Hc _]]]].
  destruct Hu as [_ [_ [_ [Hsf _]]]]. rewrite Hsf in Ho. rewrite Ho in E. cbn [app] in E.
  split; [exact E|]. rewrite E. cbn [fst snd]. split; [|split; [|split]].
  - cbn [wires_of flat_map]. fold (wires_of (snd (finish_unsubs D))). now rewrite finish_unsubs_wires.
  - destruct (finish_unsubs_shape D) as (cs & -> & _). exact Hs.
  - exact Hc.
  - unfold D. cbn [gone frame upd_unsubw upd_queue]. apply gone_do_unsubscribe.
Qed.

Lemma settle_sub_closed_once s sid rid u ch um :
  ungated s -> (0 < qcap s)%nat -> queue s = [MSubClosed sid] -> waiting s = [] ->
  alookup subid_eqb sid (subs (m s)) = Some rid -> req_lookup rid (m s) = Some (KSub u ch um) ->
  wires_of (snd (settle s)) = [unsub_request s u um sid] /\
  (unsubw s = [] -> snd (settle s) = [OWire (unsub_request s u um sid)]) /\
  alookup subid_eqb sid (subs (m (fst (settle s)))) = None /\
  queue (fst (settle s)) = [] /\ waiting (fst (settle s)) = [].
Proof.
  intros Hu Hq Hqu Hw H1 H2.
  destruct (settle_sub_closed s sid rid u ch um Hu Hq Hqu Hw H1 H2) as [E [Hwi [Hsu _]]].
  destruct (settle_quiescent s Hu Hq) as [Hq0 [Hw0 _]].
  split; [exact Hwi|]. split; [|auto].
  intro Hun. rewrite E. cbn [snd]. now rewrite finish_unsubs_nil.
Qed.

Lemma try_enqueue_room s x : queue s = [] -> waiting s = [] -> (0 < qcap s)%nat ->
  try_enqueue s x = frame s [x] [] (unsubw s).
Proof.
  intros Hq Hw Hc. unfold try_enqueue. rewrite Hq, Hw. cbn [length app].
  apply Nat.ltb_lt in Hc. rewrite Hc. reflexivity.
Qed.

Lemma sub_chan_of_lookups s sid rid u ch um :
  alookup subid_eqb sid (subs (m s)) = Some rid -> req_lookup rid (m s) = Some (KSub u ch um) -> sub_chan s sid = Some ch.
Proof. intros H1 H2. unfold sub_chan. now rewrite H1, H2. Qed.

Lemma sub_deliver_refused_room s sid p ch c :
  sub_chan s sid = Some ch -> chan_of s ch = Some c -> snd (chan_send c p) <> SentOk ->
  queue s = [] -> waiting s = [] -> (0 < qcap s)%nat ->
  sub_deliver s sid p = frame (set_chan s ch (fst (chan_send c p))) [MSubClosed sid] [] (unsubw s).
Proof.
  intros Hs Hc Hr Hq Hw Hcap. rewrite sub_deliver_eq, Hs, Hc.
  destruct (chan_send c p) as [c' r]. cbn [fst snd] in *.
  destruct r; [contradiction| |]; unfold forward, enqueue;
    rewrite (enqueue_tagged_room (set_chan s ch c') (MSubClosed sid) None Hq Hw Hcap); reflexivity.
Qed.

Lemma in_mark_admitted h sh l : In (h, sh, true) (mark_admitted h (l ++ [(h, sh, false)])).
Proof.
  unfold mark_admitted. apply in_map_iff. exists (h, sh, false). rewrite N.eqb_refl. split; [reflexivity|].
  apply in_or_app. right. now left.
Qed.

From JV Require Import Model.ClientDispatch Gen.ClientDispatchGen.

(* the dispatch d with the readers of its two tables tried in the order rs (each reader keeps the arm it has in d) *)
Definition reorder_readers (rs : list reader) (d : dispatch) : dispatch :=
  {| d_first := d_first d; d_first_default := d_first_default d;
     d_single := flat_map (fun r => match single_action r (d_single d) with Some a => [(r, a)] | None => [] end) rs;
     d_single_no_reader := d_single_no_reader d;
     d_elem := flat_map (fun r => match elem_action r (d_elem d) with Some (a, g) => [(r, a, g)] | None => [] end) rs;
     d_elem_no_reader := d_elem_no_reader d;
     d_post := d_post d |}.

Definition read_with (d : dispatch) (s : st) (raw : bytes) : rres := handle_back_with d s (classify_frame_with d raw).

(* the witness of C05_dispatch_order_matters: subscription 7 is active with an empty stream (channel 1).  With the
   dispatch read from the source its notification -- alone or as the element of an array -- lands in that stream.  With
   the same arms but Notification tried before SubscriptionResponse the same bytes are a plain notification for method
   "sub" (nobody registered for it): the read task answers Ok and the stream stays empty. *)
Definition ow_push : bytes := b#"{""jsonrpc"":""2.0"",""method"":""sub"",""params"":{""subscription"":7,""result"":1}}".
Definition ow_state : st :=
  fst (run (init false 4 4 false)
         [FSubscribe 1 b#"sub" b#"unsub" None; Back b#"{""jsonrpc"":""2.0"",""id"":0,""result"":7}"]).
Definition ow_array : bytes := x5b :: ow_push ++ [x5d].

Lemma array_run_with_app d : forall pre post s acc rng got,
  array_run_with d s (pre ++ post) acc rng got =
  match array_run_with d s pre acc rng got with
  | inl (s1, acc1, rng1, got1) => array_run_with d s1 post acc1 rng1 got1
  | inr r => inr r
  end.
Proof.
  induction pre as [|x pre IH]; intros post s acc rng got; [reflexivity|].
  cbn [app array_run_with]. destruct (elem_step d s x acc rng got) as [[[[s1 a1] r1] g1]|r]; [apply IH | reflexivity].
Qed.

(* C05_array_close_is_pushed, under the dispatch read from the source: whatever `sub_deliver` did -- including asking
   for the subscription to be closed (C05_refused_item_requests_unsubscribe) -- the loop goes on *)
Lemma array_run_sub_notif s me sid p post acc rng got :
  array_run s (ISubNotif me sid p :: post) acc rng got = array_run (sub_deliver s sid p) post acc rng true.
Proof.
  unfold array_run. cbn [array_run_with]. unfold elem_step. cbn [d_elem client_dispatch reader_of].
  destruct elem_actions_now as (_ & -> & _). reflexivity.
Qed.

Lemma sub_deliver_own_only : forall s sid p,
  m (sub_deliver s sid p) = m s /\
  match sub_chan s sid with
  | None => sub_deliver s sid p = s
  | Some ch =>
    (forall h, h <> ch -> chan_of (sub_deliver s sid p) h = chan_of s h) /\
    chan_of (sub_deliver s sid p) ch = option_map (fun c => fst (chan_send c p)) (chan_of s ch)
  end.
Proof.
  intros s sid p. rewrite sub_deliver_eq. destruct (sub_chan s sid) as [ch|]; [|auto].
  destruct (chan_of s ch) as [c|] eqn:Hc; [|rewrite Hc; auto]. cbn [option_map].
  destruct (chan_send c p) as [c' r]. cbn [fst snd].
  destruct r; unfold forward; rewrite ?enqueue_m; (split; [reflexivity|]); split;
    try (intros h Hn; rewrite ?chan_of_enqueue; now apply chan_of_set_other);
    rewrite ?chan_of_enqueue; apply chan_of_set_same.
Qed.

Lemma refused_item_requests_unsubscribe : forall s sid p ch c,
  sub_chan s sid = Some ch -> chan_of s ch = Some c -> snd (chan_send c p) <> SentOk ->
  pending_msgs (sub_deliver s sid p) = pending_msgs s ++ [MSubClosed sid].
Proof.
  intros s sid p ch c Hs Hc Hr. rewrite sub_deliver_eq, Hs, Hc.
  destruct (snd (chan_send c p)); [contradiction| |]; unfold forward; now rewrite enqueue_pending.
Qed.
