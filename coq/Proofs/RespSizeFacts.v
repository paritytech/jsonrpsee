(* C08: facts about the bounded writer, MethodResponse and the batch builder (Model/RespSize.v).  The writer over any
   chunking succeeds iff the concatenation fits (`bounded_write_spec`), hence a reply is sent unchanged or replaced by
   the oversize error (`method_response_chunked_spec`, `method_response_spec`); the batch builder keeps an exact account
   of the bytes appended (`batch_loop_spec`); the fixed error objects built from the generated constants are bounded
   (`consts_pinned`, a finite table checked by evaluation, and `shape_bound`). *)
From JV Require Import Base.Bytes Base.Dec Base.Utf8 Json.Json Json.JsonSer Model.Wire Model.ErrShape Gen.LimitsWiringGen
  Gen.ErrorConstsGen Model.RespSize Model.ReqLimit Proofs.BytesFacts Proofs.DecFacts Proofs.ReqLimitFacts.
From Coq Require DecimalN DecimalPos DecimalFacts Decimal.
Local Open Scope N_scope.
#[local] Arguments N.add : simpl never.
#[local] Arguments N.sub : simpl never.
#[local] Arguments N.mul : simpl never.
#[local] Arguments N.ltb : simpl never.
#[local] Arguments N.leb : simpl never.
#[local] Arguments N.eqb : simpl never.

Lemma blen_cons x a : blen (x :: a) = 1 + blen a.
Proof. unfold blen. cbn [length]. lia. Qed.

Lemma bw_loop_spec : forall chunks buf max,
  blen buf <= max ->
  bw_loop buf chunks max = if blen (buf ++ concat chunks) <=? max then Some (buf ++ concat chunks) else None.
Proof.
  induction chunks as [|c cs IH]; intros buf max Hb; cbn [bw_loop concat].
  - rewrite app_nil_r. destruct (N.leb_spec (blen buf) max); [reflexivity | lia].
  - destruct (N.leb_spec (blen buf + blen c) max) as [Hle | Hgt].
    + rewrite IH by (rewrite blen_app; exact Hle). rewrite <- app_assoc. reflexivity.
    + rewrite !blen_app. destruct (N.leb_spec (blen buf + (blen c + blen (concat cs))) max); [lia | reflexivity].
Qed.

Lemma bounded_write_spec chunks max :
  bounded_write chunks max = if blen (concat chunks) <=? max then Some (concat chunks) else None.
Proof. apply bw_loop_spec, N.le_0_l. Qed.

Lemma bounded_write_chunking chunks1 chunks2 max :
  concat chunks1 = concat chunks2 -> bounded_write chunks1 max = bounded_write chunks2 max.
Proof. intro H. rewrite !bounded_write_spec, H. reflexivity. Qed.

Definition flag_of (p : rpayload) : flag :=
  match p with RResult _ => FSuccess | RError e => FFailed (e_code e) | RFail _ => FFailed (-32603)%Z end.

Definition fitting_reply (i : id) (p : rpayload) : bytes :=
  match p with RFail _ => error_response i internal_error | _ => full_ser i p end.

(* the two codes are those of the generated shapes *)
Lemma method_response_chunked_spec chunks i p max :
  concat chunks = full_ser i p ->
  method_response_chunked chunks i p max =
  if blen (full_ser i p) <=? max then (fitting_reply i p, flag_of p)
  else (error_response i (oversized_response_error max), FFailed (-32008)%Z).
Proof.
  intro H. unfold method_response_chunked. rewrite bounded_write_spec, H.
  destruct (blen (full_ser i p) <=? max); [|reflexivity]. destruct p; reflexivity.
Qed.

Definition exact_reply (i : id) (p : rpayload) (max : N) : bytes * flag :=
  if blen (full_ser i p) <=? max then (fitting_reply i p, flag_of p)
  else (error_response i (oversized_response_error max), FFailed (-32008)%Z).

Lemma exact_reply_fits i p max :
  blen (full_ser i p) <= max -> exact_reply i p max = (fitting_reply i p, flag_of p).
Proof. intro H. unfold exact_reply. destruct (N.leb_spec (blen (full_ser i p)) max); [reflexivity | lia]. Qed.

Lemma exact_reply_too_big i p max :
  max < blen (full_ser i p) ->
  exact_reply i p max = (error_response i (oversized_response_error max), FFailed (-32008)%Z).
Proof. intro H. unfold exact_reply. destruct (N.leb_spec (blen (full_ser i p)) max); [lia | reflexivity]. Qed.

Lemma method_response_spec i p max : method_response i p max = exact_reply i p max.
Proof. apply method_response_chunked_spec, app_nil_r. Qed.

Lemma single_exact_core :
  forall chunks i p max, concat chunks = full_ser i p ->
    (blen (full_ser i p) <= max ->
       method_response_chunked chunks i p max = (fitting_reply i p, flag_of p)) /\
    (max < blen (full_ser i p) ->
       method_response_chunked chunks i p max = (error_response i (oversized_response_error max), FFailed (-32008)%Z)) /\
    method_response_chunked chunks i p max = method_response i p max.
Proof.
  intros chunks i p max H. rewrite (method_response_chunked_spec chunks i p max H), method_response_spec.
  fold (exact_reply i p max).
  split; [apply exact_reply_fits|]. split; [apply exact_reply_too_big | reflexivity].
Qed.

(* server level: the RpcService of every entry point is built with max_response ... *)
Lemma ws_svc_limit_wired : wired_to max_response ws_svc_limit_of.
Proof. intros []; (left; reflexivity) || (right; reflexivity). Qed.

Lemma http_svc_limit_wired : wired_to max_response http_svc_limit_of.
Proof. intros []; (left; reflexivity) || (right; reflexivity). Qed.

(* ... and hands it to every callback kind except the subscribe callback *)
Lemma ws_call_limit_non_sub e c k l :
  k <> CbSubscription -> ws_call_limit e c k = Some l -> l = max_response c.
Proof.
  intros Hk. unfold ws_call_limit. destruct (ws_svc_limit_of e c) as [svc|] eqn:E; [|discriminate].
  apply (wired_some _ _ _ _ _ ws_svc_limit_wired) in E. subst svc.
  destruct (sink_limit_of e c); [|discriminate]. intros [= <-]. destruct k; first [reflexivity | contradiction].
Qed.

Definition buf_of (done : list bytes) : bytes := x5b :: concat (map (fun r => r ++ [x2c]) done).

Fixpoint alen (l : list bytes) : N :=
  match l with [] => 0 | r :: l' => blen r + 1 + alen l' end.

Lemma blen_buf_of done : blen (buf_of done) = 1 + alen done.
Proof.
  unfold buf_of. rewrite blen_cons. f_equal.
  induction done as [|r l IH]; cbn [map concat alen]; [reflexivity|].
  rewrite !blen_app, IH. cbn. lia.
Qed.

Lemma alen_app a b : alen (a ++ b) = alen a + alen b.
Proof. induction a as [|r a IH]; cbn [app alen]; [lia | rewrite IH; lia]. Qed.

Lemma concat_commas rs : rs <> [] -> concat (map (fun r => r ++ [x2c]) rs) = join [x2c] rs ++ [x2c].
Proof.
  induction rs as [|r rs IH]; [congruence|]. intros _. destruct rs as [|r2 rs].
  - cbn. rewrite app_nil_r. reflexivity.
  - change (map (fun r => r ++ [x2c]) (r :: r2 :: rs)) with ((r ++ [x2c]) :: map (fun r => r ++ [x2c]) (r2 :: rs)).
    cbn [concat]. rewrite IH by discriminate. rewrite join_cons2. rewrite <- !app_assoc. reflexivity.
Qed.

Lemma blen_array_of rs : rs <> [] -> blen (array_of rs) = 1 + alen rs.
Proof.
  intro H. unfold array_of. rewrite blen_cons. f_equal.
  pose proof (blen_buf_of rs) as B. unfold buf_of in B. rewrite (concat_commas rs H) in B.
  rewrite blen_cons in B. rewrite !blen_app in *. cbn in *. lia.
Qed.

Lemma finish_buf_of rs : rs <> [] -> finish (buf_of rs) = array_of rs.
Proof.
  intro H. unfold buf_of. rewrite (concat_commas rs H). unfold finish.
  destruct (join [x2c] rs ++ [x2c]) as [|y l] eqn:E.
  - destruct (join [x2c] rs); discriminate.
  - rewrite <- E. unfold array_of.
    change (x5b :: join [x2c] rs ++ [x2c]) with ((x5b :: join [x2c] rs) ++ [x2c]).
    rewrite removelast_last. reflexivity.
Qed.

Lemma append_spec done max r :
  append (buf_of done) max r = if 1 + alen (done ++ [r]) <=? max then Some (buf_of (done ++ [r])) else None.
Proof.
  unfold append. rewrite blen_buf_of, alen_app. cbn [alen].
  replace (buf_of (done ++ [r])) with (buf_of done ++ r ++ [x2c])
    by (unfold buf_of; rewrite map_app, concat_app; cbn [map concat]; rewrite app_nil_r; reflexivity).
  destruct (N.ltb_spec max (blen r + (1 + alen done) + 1)); destruct (N.leb_spec (1 + (alen done + (blen r + 1 + 0))) max);
    try reflexivity; lia.
Qed.

Lemma batch_loop_spec : forall rs done max,
  rs <> [] \/ 1 + alen done <= max ->
  batch_loop (buf_of done) max rs = if 1 + alen (done ++ rs) <=? max then Some (buf_of (done ++ rs)) else None.
Proof.
  induction rs as [|r rs IH]; intros done max Hd; cbn [batch_loop].
  - rewrite app_nil_r. destruct (N.leb_spec (1 + alen done) max); [reflexivity | destruct Hd; [congruence | lia]].
  - rewrite append_spec. replace (done ++ r :: rs) with ((done ++ [r]) ++ rs) by (rewrite <- app_assoc; reflexivity).
    destruct (N.leb_spec (1 + alen (done ++ [r])) max) as [Hle | Hgt]; [apply IH; right; exact Hle|].
    rewrite (alen_app (done ++ [r]) rs). destruct (N.leb_spec (1 + (alen (done ++ [r]) + alen rs)) max); [lia | reflexivity].
Qed.

Lemma batch_empty max : batch_response max [] = error_response IdNull invalid_request_error.
Proof. reflexivity. Qed.

Section Digits.
Import DecimalN DecimalPos DecimalFacts Decimal.

Lemma of_uint_acc_lower d : forall acc, Npos acc * 10 ^ N.of_nat (nb_digits d) <= Npos (Pos.of_uint_acc d acc).
Proof.
  induction d; intro acc; cbn [nb_digits Pos.of_uint_acc];
    try (rewrite Nat2N.inj_succ, N.pow_succ_r by lia;
         match goal with |- _ <= N.pos (Pos.of_uint_acc _ ?a) => specialize (IHd a) end;
         eapply N.le_trans; [|exact IHd]; rewrite N.mul_assoc; apply N.mul_le_mono_r; lia).
  - cbn. lia.
Qed.

Lemma length_uint_to_bytes u : length (uint_to_bytes u) = nb_digits u.
Proof. induction u; cbn [uint_to_bytes length nb_digits]; congruence. Qed.

(* digits u after the leading part a: the number is at least 10 ^ (number of those digits) *)
Lemma acc_lower_digits u a k : Npos (Pos.of_uint_acc u a) < 10 ^ N.of_nat k -> (S (nb_digits u) <= k)%nat.
Proof.
  intro H. assert (Hd : 10 ^ N.of_nat (nb_digits u) < 10 ^ N.of_nat k).
  { eapply N.le_lt_trans; [|exact H]. eapply N.le_trans; [|apply of_uint_acc_lower].
    rewrite <- (N.mul_1_l (10 ^ _)) at 1. apply N.mul_le_mono_r. lia. }
  apply N.pow_lt_mono_r_iff in Hd; lia.
Qed.

(* N.to_uint has no leading zero *)
Lemma print_N_length_bound n k : n < 10 ^ N.of_nat k -> (1 <= k)%nat -> (length (print_N n) <= k)%nat.
Proof.
  intros Hn Hk. unfold print_N. rewrite length_uint_to_bytes.
  rewrite <- (DecimalN.Unsigned.of_to n) in Hn. revert Hn. rewrite to_uint_unorm. unfold unorm.
  pose proof (nzhead_nonzero (N.to_uint n)) as NZ.
  destruct (nzhead (N.to_uint n)) as [|u|u|u|u|u|u|u|u|u|u]; cbn [nb_digits N.of_uint Pos.of_uint];
    [intros _; exact Hk | exfalso; apply (NZ u); reflexivity | apply acc_lower_digits ..].
Qed.

Lemma print_N_u64 n : n < 2 ^ 64 -> blen (print_N n) <= 20.
Proof.
  intro H. unfold blen. assert (L : (length (print_N n) <= 20)%nat).
  { apply print_N_length_bound; [|lia]. eapply N.lt_le_trans; [exact H|]. vm_compute. discriminate. }
  lia.
Qed.
End Digits.

(* 32 = |{"jsonrpc":"2.0","id":| + |,"error":| + |}| = 22 + 9 + 1 *)
Lemma blen_error_response i e :
  blen (error_response i e) =
  32 + blen (ser_id i) + blen (ser_errobj e).
Proof.
  unfold error_response, mk_response, ser_response. cbn [rs_jsonrpc rs_payload rs_id].
  rewrite !blen_app. cbn. lia.
Qed.

(* 8 = |{"code":|, 11 = |,"message":|, 8 = |,"data":|, 1 = |}| *)
Lemma blen_ser_errobj e :
  blen (ser_errobj e) =
  8 + blen (print_Z (e_code e)) + 11 + blen (ser_str (e_message e)) +
  match e_data e with Some d => 8 + blen d | None => 0 end + 1.
Proof.
  unfold ser_errobj. rewrite !blen_app. destruct (e_data e); rewrite ?blen_app; cbn; lia.
Qed.

Lemma escape_body_app : forall a b', escape_body (a ++ b') = escape_body a ++ escape_body b'.
Proof. induction a as [|c a IH]; intro b'; cbn [app escape_body]; [reflexivity|]. rewrite IH, app_assoc. reflexivity. Qed.

Lemma escape_body_print_N n : escape_body (print_N n) = print_N n.
Proof. unfold print_N. induction (N.to_uint n); cbn [uint_to_bytes escape_body]; [|rewrite IHu ..]; reflexivity. Qed.

Lemma blen_limit_data p lim : escape_body p = p -> blen (limit_data p lim) = 2 + blen p + blen (print_N lim).
Proof.
  intro E. unfold limit_data, ser_str. rewrite blen_cons, blen_app, escape_body_app, E.
  rewrite escape_body_print_N, blen_app.
  change (blen [x22]) with 1. lia.
Qed.

(* What the bound below needs of the generated constants (Props/C08.v says what each clause is for): decided by
   evaluating them, so a regenerated constant that breaks a clause stops the build here. *)
Fixpoint nodupb_Z (l : list Z) : bool :=
  match l with [] => true | x :: l' => negb (existsb (Z.eqb x) l') && nodupb_Z l' end.
Lemma nodupb_Z_sound l : nodupb_Z l = true -> NoDup l.
Proof.
  induction l as [|x l IH]; cbn [nodupb_Z]; intro H; [constructor|]. apply andb_true_iff in H as [H1 H2].
  constructor; [|apply IH, H2]. intro Hin. apply negb_true_iff in H1.
  assert (E : existsb (Z.eqb x) l = true) by (apply existsb_exists; exists x; split; [exact Hin | apply Z.eqb_refl]).
  congruence.
Qed.

Ltac in_consts := repeat (first [left; reflexivity | right]).

Lemma consts_pinned :
  NoDup all_error_codes /\
  Forall (fun c => (-2147483648 <= c < 2147483648)%Z /\ blen (print_Z c) <= 6) all_error_codes /\
  Forall (fun m => utf8_valid m = true /\ escape_body m = m /\ blen m <= 72) all_error_msgs /\
  Forall (fun sh => In (sh_code sh) all_error_codes /\ In (sh_msg sh) all_error_msgs /\
                    exists p, sh_prefix sh = Some p /\ utf8_valid p = true /\ escape_body p = p /\
                              blen (sh_msg sh) + blen p <= 62) limit_shapes /\
  Forall (fun cm => In (fst cm) all_error_codes /\ In (snd cm) all_error_msgs) errorcode_pairs /\
  In batches_not_supported_code all_error_codes /\ In batches_not_supported_msg all_error_msgs.
Proof.
  split; [|split; [|split; [|split; [|split; [|split]]]]].
  - apply nodupb_Z_sound. reflexivity.
  - unfold all_error_codes. repeat apply Forall_cons; [.. | apply Forall_nil].
    all: split; [split; [apply Z.leb_le | apply Z.ltb_lt] | apply N.leb_le]; reflexivity.
  - unfold all_error_msgs. repeat apply Forall_cons; [.. | apply Forall_nil].
    all: split; [|split; [|apply N.leb_le]]; reflexivity.
  - unfold limit_shapes. repeat apply Forall_cons; [.. | apply Forall_nil].
    all: split; [in_consts | split; [in_consts|]].
    all: eexists; split; [|split; [|split; [|apply N.leb_le]]]; reflexivity.
  - unfold errorcode_pairs. repeat apply Forall_cons; [.. | apply Forall_nil].
    all: split; in_consts.
  - in_consts.
  - in_consts.
Qed.

(* 132 = 32 (envelope) + 8 + 6 (code) + 11 + 1 (error object) + 74: without data the message is at most 72 bytes between
   two quotes; with data, message and prefix together are at most 62 and 8 + 2 quotes + the printed limit come on top. *)
Lemma shape_bound i sh lim :
  In (sh_code sh) all_error_codes -> In (sh_msg sh) all_error_msgs -> sh_prefix sh = None \/ In sh limit_shapes ->
  blen (error_response i (shape_err sh lim)) <= 132 + blen (print_N lim) + blen (ser_id i).
Proof.
  intros Hc Hm Hp. destruct consts_pinned as (_ & Fc & Fm & Fs & _). rewrite Forall_forall in Fc, Fm, Fs.
  destruct (Fc _ Hc) as [_ Lc]. destruct (Fm _ Hm) as (_ & Em & Lm).
  rewrite blen_error_response, blen_ser_errobj. unfold shape_err. cbn [e_code e_message e_data].
  unfold ser_str. rewrite Em, blen_cons, blen_app. change (blen [x22]) with 1.
  destruct Hp as [-> | Hs]; [lia|].
  destruct (Fs _ Hs) as (_ & _ & p & -> & _ & Esc & Lp). rewrite (blen_limit_data p lim Esc). lia.
Qed.

Lemma fixed_error_bound :
  forall lim i e, In e (fixed_errors lim) ->
    blen (error_response i e) <= 132 + blen (print_N lim) + blen (ser_id i).
Proof.
  intros lim i e H. unfold fixed_errors in H.
  destruct H as [<- | [<- | [<- | [<- | [<- | [<- | [<- | [<- | [<- | [<- | []]]]]]]]]]].
  - apply (shape_bound i from_parse_error_shape lim); [in_consts | in_consts | left; reflexivity].
  - apply (shape_bound i from_invalid_request_shape lim); [in_consts | in_consts | left; reflexivity].
  - apply (shape_bound i from_method_not_found_shape lim); [in_consts | in_consts | left; reflexivity].
  - apply (shape_bound i from_internal_error_shape lim); [in_consts | in_consts | left; reflexivity].
  - apply (shape_bound i (batches_not_supported_code, batches_not_supported_msg, None) lim);
      [in_consts | in_consts | left; reflexivity].
  - apply (shape_bound i reject_too_many_subscriptions_shape lim); [in_consts | in_consts | right; in_consts].
  - apply (shape_bound i reject_too_big_request_shape lim); [in_consts | in_consts | right; in_consts].
  - apply (shape_bound i oversized_response_shape lim); [in_consts | in_consts | right; in_consts].
  - apply (shape_bound i reject_too_big_batch_request_shape lim); [in_consts | in_consts | right; in_consts].
  - apply (shape_bound i reject_too_big_batch_response_shape lim); [in_consts | in_consts | right; in_consts].
Qed.
