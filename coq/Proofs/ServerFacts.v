(* C01 / C02: facts about Model/Server.v -- the answer to one delivered message (single or batch), for all byte
   strings, registries and handler functions; the vocabulary of the theorems of Props/C01.v and Props/C02.v.
   A message that is not a batch is answered according to its class (handle_not_batch); a batch according to the gate
   (rpc_batch_eq) and, once admitted, to the responses of its entries (batch_tail_silent / _fits / _overflow). *)
From JV Require Import Base.Bytes Base.Dec Base.Utf8 Json.Json Json.JsonSer Json.JsonParse Json.JsonWf Model.Wire Model.ErrShape
  Model.RespSize Model.BatchGate Gen.SniffGen Gen.ErrorConstsGen Gen.BatchGateGen Model.Server.
From JV Require Import Proofs.BytesFacts Proofs.Utf8Facts Proofs.DecFacts Proofs.LexFacts Proofs.JsonFacts Proofs.WireFacts
  Proofs.RespSizeFacts.
Local Open Scope N_scope.
Local Arguments N.add : simpl never.
Local Arguments N.sub : simpl never.
Local Arguments N.mul : simpl never.
Local Arguments N.ltb : simpl never.
Local Arguments N.leb : simpl never.
Local Arguments N.eqb : simpl never.

(* what a handler may produce: JSON texts, UTF-8 messages, i32 codes (what `Serialize` / ErrorObject give) *)
Definition opt_span_ok (o : option bytes) : Prop := match o with Some d => span_ok d | None => True end.
Definition hres_ok (r : hres) : Prop :=
  match r with
  | HOk raw => span_ok raw
  | HErr c m d => i32_range c /\ utf8_valid m = true /\ opt_span_ok d
  | HBadParams d => opt_span_ok d
  | HPanic => True
  end.
Definition handlers_wf (h : bytes -> option bytes -> hres) : Prop := forall m p, hres_ok (h m p).

(* The real server catches a panic (and answers -32603 with the call's id) only inside spawn_blocking; a panic in a
   sync or async handler unwinds the task.  The model answers HPanic with -32603 for every kind, so it is faithful only
   where this holds.  The theorems that carry it as a hypothesis mark that domain; no proof needs it. *)
Definition panics_only_blocking (reg : bytes -> option mkind) (h : bytes -> option bytes -> hres) : Prop :=
  forall m p, h m p = HPanic -> reg m = Some KBlocking.

Definition errobj_ok (e : errobj) : Prop :=
  i32_range (e_code e) /\ utf8_valid (e_message e) = true /\ opt_span_ok (e_data e).
Definition payload_ok (p : payload) : Prop :=
  match p with PResult raw => span_ok raw | PError e => errobj_ok e end.

Definition is_response (f : bytes) (i : id) (p : payload) : Prop :=
  object_members f = Some [(k_jsonrpc, ser_str v_two); (k_id, ser_id i); payload_member p].

Definition wellformed_response (f : bytes) : Prop :=
  exists m i, object_members f = Some m /\ wf_id i /\
    field_of k_jsonrpc m = FOne (ser_str v_two) /\ is_two (ser_str v_two) = true /\
    field_of k_id m = FOne (ser_id i) /\ parse_id (ser_id i) = Some i /\
    ((exists raw, field_of k_result m = FOne raw /\ field_of k_error m = FAbsent) \/
     (exists e em, field_of k_error m = FOne (ser_errobj e) /\ field_of k_result m = FAbsent /\
        object_members (ser_errobj e) = Some em /\
        field_of k_code em = FOne (print_Z (e_code e)) /\ field_of k_message em = FOne (ser_str (e_message e)))).

Definition is_batch_msg (t : transport) (b : bytes) : bool :=
  match sniff t b with Some (false, _) => true | _ => false end.

Definition runs_handler (k : mkind) (t : transport) : bool :=
  match k, t with
  | KSync, _ | KAsync, _ | KBlocking, _ => true
  | KSub, Ws => true
  | _, _ => false
  end.
(* subscriptions need a connection: -32603 over HTTP *)
Definition served (k : mkind) (t : transport) : bool :=
  match k, t with KSub, Http | KUnsub, Http => false | _, _ => true end.

Lemma mk_response_eq i p :
  mk_response i p = ser_object [(k_jsonrpc, ser_str v_two); (k_id, ser_id i); payload_member p].
Proof.
  unfold mk_response. rewrite ser_response_eq. reflexivity.
Qed.

Lemma errobj_members_mem_ok e : errobj_ok e -> Forall mem_ok (errobj_members e).
Proof.
  intros (Hc & Um & Hd). unfold errobj_members, opt_member.
  constructor; [split; [reflexivity | apply span_ok_code, Hc]|].
  constructor; [split; [reflexivity | apply span_ok_str, Um]|].
  destruct (e_data e) as [d|]; [|constructor].
  constructor; [|constructor]. split; [reflexivity | exact Hd].
Qed.

Lemma mk_response_members_ok i p : wf_id i -> payload_ok p ->
  Forall mem_ok [(k_jsonrpc, ser_str v_two); (k_id, ser_id i); payload_member p].
Proof.
  intros Wi Wp.
  constructor; [split; [reflexivity | apply span_ok_two]|].
  constructor; [split; [reflexivity | apply span_ok_id, Wi]|].
  constructor; [|constructor].
  destruct p as [raw|e]; (split; [reflexivity|]); cbn [payload_member snd].
  - exact Wp.
  - rewrite ser_errobj_eq. apply span_ok_object, errobj_members_mem_ok, Wp.
Qed.

Lemma mk_response_is_response i p : wf_id i -> payload_ok p -> is_response (mk_response i p) i p.
Proof.
  intros Wi Wp. unfold is_response. rewrite mk_response_eq. apply object_members_ser, mk_response_members_ok; assumption.
Qed.

Lemma mk_response_span_ok i p : wf_id i -> payload_ok p -> span_ok (mk_response i p).
Proof. intros Wi Wp. rewrite mk_response_eq. apply span_ok_object, mk_response_members_ok; assumption. Qed.

Lemma is_response_wellformed f i p : wf_id i -> payload_ok p -> is_response f i p -> wellformed_response f.
Proof.
  intros Wi Wp H. exists [(k_jsonrpc, ser_str v_two); (k_id, ser_id i); payload_member p], i.
  destruct (response_fields (ser_id i) p) as (F1 & F2 & F3).
  split; [exact H|]. split; [exact Wi|]. split; [exact F1|]. split; [exact is_two_two|].
  split; [exact F2|]. split; [apply id_roundtrip, Wi|].
  destruct p as [raw|e].
  - left. exists raw. exact F3.
  - right. exists e, (errobj_members e). destruct F3 as [F3 F4].
    split; [exact F3|]. split; [exact F4|].
    split; [rewrite ser_errobj_eq; apply object_members_ser, errobj_members_mem_ok, Wp|].
    unfold errobj_members, opt_member. destruct (e_data e); split; reflexivity.
Qed.

Lemma mk_response_wellformed i p : wf_id i -> payload_ok p -> wellformed_response (mk_response i p).
Proof. intros Wi Wp. apply (is_response_wellformed _ i p Wi Wp), mk_response_is_response; assumption. Qed.

(* a response starts with '{': HTTP's `null` acknowledgement is never mistaken for one *)
Lemma mk_response_not_null i p : bytes_eqb (mk_response i p) null_text = false.
Proof. rewrite mk_response_eq. reflexivity. Qed.

Lemma limit_data_span_ok p n : utf8_valid p = true -> span_ok (limit_data p n).
Proof.
  intro Hp. unfold limit_data. apply span_ok_str. apply utf8_valid_app; [exact Hp|].
  apply utf8_valid_ascii, digits_ascii, print_N_digits.
Qed.

Lemma limit_shape_err_ok c m p n :
  i32_range c -> utf8_valid m = true -> utf8_valid p = true -> errobj_ok (shape_err (c, m, Some p) n).
Proof. intros Hc Hm Hp. split; [exact Hc | split; [exact Hm | apply limit_data_span_ok, Hp]]. Qed.

(* code and message of the library's error objects are generated constants: checked by evaluation *)
Ltac i32 := unfold i32_range; cbv; split; [discriminate | reflexivity].
Ltac fixed_err := split; [i32 | split; [vm_compute; reflexivity | exact I]].

Lemma parse_error_ok : errobj_ok parse_error. Proof. fixed_err. Qed.
Lemma invalid_request_ok : errobj_ok invalid_request. Proof. fixed_err. Qed.
Lemma method_not_found_ok : errobj_ok method_not_found. Proof. fixed_err. Qed.
Lemma internal_err_ok : errobj_ok internal_err. Proof. fixed_err. Qed.
Lemma batches_not_supported_ok : errobj_ok batches_not_supported. Proof. fixed_err. Qed.
Ltac limit_err := apply limit_shape_err_ok; [i32 | vm_compute; reflexivity | vm_compute; reflexivity].
Lemma too_big_batch_request_ok n : errobj_ok (too_big_batch_request n).
Proof. limit_err. Qed.
Lemma oversized_response_ok n : errobj_ok (oversized_response_error n).
Proof. limit_err. Qed.
Lemma too_big_batch_response_ok n : errobj_ok (too_big_batch_response_error n).
Proof. limit_err. Qed.
Lemma invalid_params_ok d : opt_span_ok d -> errobj_ok (invalid_params d).
Proof. intro H. split; [i32 | split; [vm_compute; reflexivity | exact H]]. Qed.

Lemma internal_err_eq : internal_err = RespSize.internal_error. Proof. reflexivity. Qed.
Lemma invalid_request_eq : invalid_request = RespSize.invalid_request_error. Proof. reflexivity. Qed.

Definition bounded (i : id) (p : payload) (max : N) : payload :=
  if blen (mk_response i p) <=? max then p else PError (oversized_response_error max).

Definition hres_payload (hr : hres) : payload :=
  match hr with HOk raw => PResult raw | _ => PError (err_of hr) end.

Definition handler_payload (i : id) (hr : hres) (max : N) : payload :=
  match hr with HPanic => PError internal_err | _ => bounded i (hres_payload hr) max end.

(* MethodResponse::response through C08's bounded writer (Proofs/RespSizeFacts.v) *)
Lemma method_response_fst i p max :
  fst (method_response i p max) =
  if blen (full_ser i p) <=? max then fitting_reply i p else error_response i (oversized_response_error max).
Proof.
  unfold method_response. rewrite (method_response_chunked_spec [full_ser i p]) by apply app_nil_r.
  destruct (blen (full_ser i p) <=? max); reflexivity.
Qed.

Lemma handler_response_eq i hr max : handler_response i hr max = mk_response i (handler_payload i hr max).
Proof.
  assert (B : forall rp p, full_ser i rp = mk_response i p -> fitting_reply i rp = mk_response i p ->
            fst (method_response i rp max) = mk_response i (bounded i p max)).
  { intros rp p F R. rewrite method_response_fst, F, R. unfold bounded. destruct (_ <=? max); reflexivity. }
  destruct hr as [raw|c m d|d|]; cbn [handler_response handler_payload hres_payload err_of].
  - apply B; reflexivity.
  - apply B; reflexivity.
  - apply B; reflexivity.
  - reflexivity.
Qed.

Lemma sub_response_eq i hr : sub_response i hr = mk_response i (hres_payload hr).
Proof. destruct hr; reflexivity. Qed.

Lemma err_of_ok hr : hres_ok hr -> errobj_ok (err_of hr).
Proof.
  destruct hr as [raw|c m d|d|]; cbn [hres_ok err_of]; intro H.
  - apply internal_err_ok.
  - exact H.
  - apply invalid_params_ok, H.
  - apply internal_err_ok.
Qed.

Lemma hres_payload_ok hr : hres_ok hr -> payload_ok (hres_payload hr).
Proof.
  destruct hr as [raw|c m d|d|]; cbn [hres_payload]; intro H; try exact H;
    cbn [payload_ok]; apply err_of_ok; exact H.
Qed.

Lemma bounded_ok i p max : payload_ok p -> payload_ok (bounded i p max).
Proof. intro H. unfold bounded. destruct (_ <=? _); [exact H | apply oversized_response_ok]. Qed.

Lemma bounded_cases i p max :
  bounded i p max = p \/ max < blen (mk_response i p) /\ bounded i p max = PError (oversized_response_error max).
Proof.
  unfold bounded. destruct (N.leb_spec (blen (mk_response i p)) max) as [_|Hgt];
    [left; reflexivity | right; split; [exact Hgt | reflexivity]].
Qed.

Lemma handler_payload_ok i hr max : hres_ok hr -> payload_ok (handler_payload i hr max).
Proof.
  intro H. destruct hr; cbn [handler_payload]; try (apply bounded_ok, hres_payload_ok, H).
  apply internal_err_ok.
Qed.

(* both sniffers are the same function: this is where a change of one window / byte table shows *)
Lemma sniff_ws_http b : sniff Ws b = sniff Http b.
Proof.
  unfold sniff, ws_sniff_ws, http_sniff_ws, ws_single_byte, http_single_byte, ws_batch_byte, http_batch_byte,
    ws_sniff_window, http_sniff_window.
  reflexivity.
Qed.

Lemma sniff_go_head wsp sb bb : forall fuel b single body,
  sniff_go wsp sb bb fuel b = Some (single, body) -> exists tl, body = (if single then sb else bb) :: tl.
Proof.
  induction fuel as [|f IH]; intros b single body H; [discriminate|]. cbn [sniff_go] in H.
  destruct b as [|c b']; [discriminate|]. destruct (wsp c); [apply (IH _ _ _ H)|].
  destruct (beqb c sb) eqn:E1.
  - inv_some H. apply beqb_true in E1. subst c. eexists. reflexivity.
  - destruct (beqb c bb) eqn:E2; [|discriminate]. inv_some H. apply beqb_true in E2. subst c. eexists. reflexivity.
Qed.

Lemma sniff_batch t b body : sniff t b = Some (false, body) -> exists tl, body = x5b :: tl.
Proof. destruct t; intro H; exact (sniff_go_head _ _ _ _ _ _ _ H). Qed.

Lemma single_is_object_text t b body : sniff t b = Some (true, body) -> is_object_text body = true.
Proof. destruct t; intro H; destruct (sniff_go_head _ _ _ _ _ _ _ H) as [tl ->]; reflexivity. Qed.

Lemma sniff_object_text t e : is_object_text e = true -> sniff t e = Some (true, e).
Proof.
  destruct e as [|c tl]; [discriminate|]. cbn [is_object_text]. intro H. apply beqb_true in H. subst c.
  destruct t; reflexivity.
Qed.

Lemma as_request_eq m :
  as_request m =
  match as_notification m, as_invalid m with
  | Some (me, p), Some i => Some {| rq_id := i; rq_method := me; rq_params := p |}
  | _, _ => None
  end.
Proof.
  unfold as_request, as_notification, as_invalid.
  destruct (field_of k_jsonrpc m) as [|j|]; [reflexivity | | reflexivity].
  destruct (field_of k_method m) as [|me|]; [destruct (field_of k_id m); reflexivity | | destruct (field_of k_id m); reflexivity].
  destruct (is_two j); [|destruct (field_of k_id m); reflexivity].
  destruct (field_of k_id m) as [|i|].
  - destruct (as_str me), (opt_field_raw k_params m); reflexivity.
  - destruct (parse_id i), (as_str me), (opt_field_raw k_params m); reflexivity.
  - destruct (as_str me), (opt_field_raw k_params m); reflexivity.
Qed.

Lemma as_request_notification m r :
  as_request m = Some r -> as_notification m = Some (rq_method r, rq_params r).
Proof.
  rewrite as_request_eq. destruct (as_notification m) as [[me p]|]; [|discriminate].
  destruct (as_invalid m); [|discriminate]. intro H. inv_some H. reflexivity.
Qed.

Lemma classify_eq body :
  classify body =
  match object_members body with
  | Some m =>
    match as_notification m, as_invalid m with
    | Some (me, p), Some i => Call {| rq_id := i; rq_method := me; rq_params := p |}
    | Some _, None => Notif
    | None, Some i => Invalid i
    | None, None => ParseErr
    end
  | None => ParseErr
  end.
Proof.
  unfold classify. destruct (object_members body) as [m|]; [|reflexivity]. rewrite as_request_eq.
  destruct (as_notification m) as [[me p]|], (as_invalid m); reflexivity.
Qed.

Lemma as_invalid_none m :
  as_invalid m = None <-> match field_of k_id m with FOne sp => parse_id sp = None | _ => True end.
Proof. unfold as_invalid. destruct (field_of k_id m); [split; trivial | reflexivity | split; trivial]. Qed.

Lemma parse_id_wf sp i : parse_id sp = Some i -> wf_id i.
Proof.
  unfold parse_id. destruct (parse_text sp) as [v|] eqn:E; [|discriminate]. intro Hi.
  unfold parse_text in E. destruct (parse_value (S (length sp)) depth_limit sp) as [[v' r]|] eqn:Ev; [|discriminate].
  destruct (skip_ws r); [|discriminate]. inv_some E.
  apply parse_value_wf in Ev as [W _]; [|unfold depth_limit; lia].
  destruct v as [| |[n|n|l]|s| |]; cbn [id_of_json] in Hi; try discriminate Hi; inv_some Hi; cbn [wf_id].
  - exact I.
  - cbn [wf wf_num] in W. apply N.leb_le. exact W.
  - exact W.
Qed.

Lemma as_invalid_wf m i : as_invalid m = Some i -> wf_id i.
Proof. unfold as_invalid. destruct (field_of k_id m) as [|sp|]; try discriminate. apply parse_id_wf. Qed.

Definition class_wf (k : msgclass) : Prop :=
  match k with Call r => wf_id (rq_id r) | Invalid i => wf_id i | Notif | ParseErr => True end.

Lemma classify_class_wf body : class_wf (classify body).
Proof.
  rewrite classify_eq. destruct (object_members body) as [m|]; [|exact I].
  destruct (as_notification m) as [[me p]|], (as_invalid m) as [i|] eqn:E; try exact I; apply (as_invalid_wf _ _ E).
Qed.

(* ws* value ws* eof for serde's ignore_value: what "is JSON" means for a message whose members are skipped *)
Definition lenient_json (s : bytes) : bool :=
  match skip_value (S (length s)) s with
  | Some (_, r) => match skip_ws r with [] => true | _ :: _ => false end
  | None => false
  end.

(* Wire's member scanner and the lenient skip_members walk the same bytes (quoted key, colon, value, then comma or closing
   brace), the one keeping keys it has checked and value spans, the other only lengths.  The fuel that serves is the larger
   of what the value and what the remaining members need. *)
Lemma members_loop_skip : forall f s ms r,
  members_loop f s = Some (ms, r) -> exists g t, skip_members g s = Some (t, r).
Proof.
  induction f as [|f IH]; intros s ms r H; [discriminate|].
  rewrite members_loop_S in H. cbv zeta in H.
  destruct (skip_ws s) as [|q s1] eqn:Es; [discriminate|].
  destruct (beqb q x22) eqn:Eq; [|discriminate].
  destruct (scan_str_valid s1) as [[k r0]|] eqn:Ek; [|discriminate].
  destruct (skip_ws r0) as [|col r1] eqn:Er0; [discriminate|].
  destruct (beqb col x3a) eqn:Ec; [|discriminate].
  destruct (skip_value (S (length (skip_ws r1))) (skip_ws r1)) as [[span r']|] eqn:Ev; [|discriminate].
  destruct (skip_ws r') as [|c r2] eqn:Er'; [discriminate|].
  apply scan_str_valid_inv in Ek as [Ek _]. apply scan_str_skip_str in Ek as [k' Ek'].
  assert (Ev' : skip_value (S (length (skip_ws r1))) r1 = Some (ws_prefix r1 ++ span, r')).
  { rewrite skip_value_ws, Ev. reflexivity. }
  destruct (beqb c x2c) eqn:Ecomma.
  - destruct (members_loop f r2) as [[ms' r3]|] eqn:El; [|discriminate]. inv_some H.
    destruct (IH _ _ _ El) as (g & t3 & Hg).
    exists (S (Nat.max (S (length (skip_ws r1))) g)). eexists.
    rewrite skip_members_S, Es, Eq, Ek', Er0, Ec.
    rewrite (skip_value_fuel_mono _ (Nat.max (S (length (skip_ws r1))) g) _ _ Ev') by lia.
    rewrite Er'. cbv zeta. rewrite Ecomma.
    rewrite (skip_members_fuel_mono _ (Nat.max (S (length (skip_ws r1))) g) _ _ Hg) by lia. reflexivity.
  - destruct (beqb c x7d) eqn:Eclose; [|discriminate]. inv_some H.
    exists (S (S (length (skip_ws r1)))). eexists.
    rewrite skip_members_S, Es, Eq, Ek', Er0, Ec, Ev', Er'. cbv zeta. rewrite Ecomma, Eclose. reflexivity.
Qed.

Lemma lenient_json_intro g s t r : skip_value g s = Some (t, r) -> skip_ws r = [] -> lenient_json s = true.
Proof. intros Hg Hr. unfold lenient_json. rewrite (skip_value_enough_fuel _ _ _ Hg), Hr. reflexivity. Qed.

Lemma object_members_lenient_json s m : object_members s = Some m -> lenient_json s = true.
Proof.
  unfold object_members. intro H.
  destruct (skip_ws s) as [|c s1] eqn:Es; [discriminate|].
  destruct (beqb c x7b) eqn:Ec; [|discriminate]. apply beqb_true in Ec. subst c.
  destruct (skip_ws s1) as [|c2 r] eqn:Es1; [discriminate|].
  destruct (beqb c2 x7d) eqn:Ec2.
  - destruct (skip_ws r) eqn:Er; [|discriminate].
    eapply (lenient_json_intro 1 s _ r); [rewrite (skip_value_object _ _ _ Es), Es1, Ec2; reflexivity | exact Er].
  - destruct (members_loop (S (length s1)) s1) as [[ms r']|] eqn:El; [|discriminate].
    destruct (skip_ws r') eqn:Er'; [|discriminate].
    destruct (members_loop_skip _ _ _ _ El) as (g & t & Hg).
    eapply (lenient_json_intro (S g) s _ r'); [rewrite (skip_value_object _ _ _ Es), Es1, Ec2, Hg; reflexivity | exact Er'].
Qed.

(* an unsniffable message is answered like one that is no JSON *)
Definition msg_class (t : transport) (b : bytes) : msgclass :=
  match sniff t b with Some (true, body) => classify body | _ => ParseErr end.

Lemma msg_class_wf t b : class_wf (msg_class t b).
Proof. unfold msg_class. destruct (sniff t b) as [[[|] body]|]; try exact I. apply classify_class_wf. Qed.

Lemma msg_class_single t b body : sniff t b = Some (true, body) -> msg_class t b = classify body.
Proof. intro S. unfold msg_class. rewrite S. reflexivity. Qed.

Lemma msg_class_inv t b k :
  msg_class t b = k -> k <> ParseErr -> exists body, sniff t b = Some (true, body) /\ classify body = k.
Proof.
  unfold msg_class. destruct (sniff t b) as [[[|] body]|]; intros H Hk; try congruence.
  exists body. split; [reflexivity | exact H].
Qed.

Section Facts.
Variable reg : bytes -> option mkind.
Variable h : bytes -> option bytes -> hres.

Definition call_payload (t : transport) (c : scfg) (r : request) : payload :=
  match reg (rq_method r) with
  | None => PError method_not_found
  | Some k =>
    match k, t with
    | KSub, Http | KUnsub, Http => PError internal_err
    | KSub, Ws => hres_payload (h (rq_method r) (rq_params r))
    | _, _ => handler_payload (rq_id r) (h (rq_method r) (rq_params r)) (sc_max_response c)
    end
  end.

Lemma call_json t c r : c_json (call reg h t c r) = mk_response (rq_id r) (call_payload t c r).
Proof.
  unfold call, call_payload. destruct (reg (rq_method r)) as [k|]; [|reflexivity].
  destruct k, t; cbn [c_json]; try reflexivity; try apply handler_response_eq; apply sub_response_eq.
Qed.

Lemma call_payload_ok t c r : handlers_wf h -> payload_ok (call_payload t c r).
Proof.
  intro Hw. unfold call_payload. destruct (reg (rq_method r)) as [k|]; [|apply method_not_found_ok].
  destruct k, t; try apply handler_payload_ok; try apply hres_payload_ok; try apply Hw; apply internal_err_ok.
Qed.

(* what the WS transport puts on the wire for a single call: exactly the response, once *)
Lemma call_ws_frames c r :
  c_direct (call reg h Ws c r) ++
    match c_kind (call reg h Ws c r) with RkCall | RkBatch => [c_json (call reg h Ws c r)] | _ => [] end =
  [c_json (call reg h Ws c r)].
Proof. unfold call. destruct (reg (rq_method r)) as [k|]; [destruct k|]; reflexivity. Qed.

Lemma call_http_kind c r : c_kind (call reg h Http c r) = RkCall /\ c_direct (call reg h Http c r) = [].
Proof. unfold call. destruct (reg (rq_method r)) as [k|]; [destruct k|]; split; reflexivity. Qed.

Lemma call_log t c r :
  c_log (call reg h t c r) =
  match reg (rq_method r) with
  | Some k => if runs_handler k t then [(rq_method r, rq_params r)] else []
  | None => []
  end.
Proof. unfold call. destruct (reg (rq_method r)) as [k|]; [destruct k, t|]; reflexivity. Qed.

Lemma call_direct_nil t c r :
  ~ (t = Ws /\ reg (rq_method r) = Some KSub) -> c_direct (call reg h t c r) = [].
Proof.
  intro H. unfold call. destruct (reg (rq_method r)) as [k|] eqn:E; [|reflexivity].
  destruct k, t; try reflexivity. exfalso. apply H. split; reflexivity.
Qed.

Lemma call_ws_http c r :
  reg (rq_method r) <> Some KSub -> reg (rq_method r) <> Some KUnsub ->
  call_payload Ws c r = call_payload Http c r /\ c_log (call reg h Ws c r) = c_log (call reg h Http c r).
Proof.
  intros H1 H2. unfold call_payload, call. destruct (reg (rq_method r)) as [k|]; [|split; reflexivity].
  destruct k; try (split; reflexivity); exfalso; (apply H1; reflexivity) || (apply H2; reflexivity).
Qed.

Lemma call_payload_served t c r k :
  reg (rq_method r) = Some k -> served k t = true ->
  call_payload t c r = hres_payload (h (rq_method r) (rq_params r)) \/
  call_payload t c r = handler_payload (rq_id r) (h (rq_method r) (rq_params r)) (sc_max_response c).
Proof.
  intros Hk Hs. unfold call_payload. rewrite Hk. destruct k, t; try discriminate Hs; (left; reflexivity) || (right; reflexivity).
Qed.

Definition class_replies (t : transport) (c : scfg) (k : msgclass) : list bytes :=
  match k with
  | Call r => [mk_response (rq_id r) (call_payload t c r)]
  | Notif => []
  | Invalid i => [mk_response i (PError invalid_request)]
  | ParseErr => [mk_response IdNull (PError parse_error)]
  end.

Definition class_log (t : transport) (c : scfg) (k : msgclass) : log :=
  match k with Call r => c_log (call reg h t c r) | _ => [] end.

Lemma filter_not_null_one i p :
  filter (fun f => negb (bytes_eqb f null_text)) [mk_response i p] = [mk_response i p].
Proof. cbn [filter]. rewrite mk_response_not_null. reflexivity. Qed.

Lemma replies_single t c b body :
  sniff t b = Some (true, body) -> replies t (handle reg h t c b) = class_replies t c (classify body).
Proof.
  intro H. unfold handle. rewrite H. unfold handle_rpc_call, rpc_single.
  destruct (classify body) as [r| |i|].
  - destruct t; cbn [replies o_frames m_direct m_kind m_json class_replies].
    + rewrite call_json. apply filter_not_null_one.
    + rewrite call_ws_frames, call_json. reflexivity.
  - destruct t; reflexivity.
  - destruct t; cbn [replies o_frames plain m_direct m_kind m_json app]; [apply filter_not_null_one | reflexivity].
  - destruct t; cbn [replies o_frames plain m_direct m_kind m_json app]; [apply filter_not_null_one | reflexivity].
Qed.

Lemma log_single t c b body :
  sniff t b = Some (true, body) -> o_log (handle reg h t c b) = class_log t c (classify body).
Proof.
  intro H. unfold handle. rewrite H. unfold handle_rpc_call, rpc_single. destruct (classify body), t; reflexivity.
Qed.

Lemma replies_unsniffable t c b :
  sniff t b = None -> replies t (handle reg h t c b) = [mk_response IdNull (PError parse_error)] /\ o_log (handle reg h t c b) = [].
Proof.
  intro H. unfold handle. rewrite H. destruct t; cbn [replies o_frames o_log]; split; reflexivity.
Qed.

Lemma replies_not_object t c b body :
  sniff t b = Some (true, body) -> object_members body = None ->
  replies t (handle reg h t c b) = [mk_response IdNull (PError parse_error)] /\ o_log (handle reg h t c b) = [].
Proof.
  intros S Hm. rewrite (replies_single t c b body S), (log_single t c b body S). unfold classify. rewrite Hm.
  split; reflexivity.
Qed.

Lemma handle_not_batch t c b :
  is_batch_msg t b = false ->
  replies t (handle reg h t c b) = class_replies t c (msg_class t b) /\
  o_log (handle reg h t c b) = class_log t c (msg_class t b).
Proof.
  unfold is_batch_msg, msg_class. destruct (sniff t b) as [[[|] body]|] eqn:S; intro H; try discriminate H.
  - split; [exact (replies_single t c b body S) | exact (log_single t c b body S)].
  - exact (replies_unsniffable t c b S).
Qed.

Lemma class_replies_wellformed t c k :
  handlers_wf h -> class_wf k ->
  (length (class_replies t c k) <= 1)%nat /\ Forall wellformed_response (class_replies t c k).
Proof.
  intros Hw W. destruct k as [r| |i|]; cbn [class_replies length]; (split; [lia|]).
  - constructor; [|constructor]. apply mk_response_wellformed; [exact W | apply call_payload_ok, Hw].
  - constructor.
  - constructor; [|constructor]. apply mk_response_wellformed; [exact W | apply invalid_request_ok].
  - constructor; [|constructor]. apply mk_response_wellformed; [exact I | apply parse_error_ok].
Qed.

Definition entry_response (t : transport) (c : scfg) (e : bytes) : option bytes :=
  match entry_result reg h t c e with Some cr => Some (c_json cr) | None => None end.
Definition opt_list {A} (o : option A) : list A := match o with Some x => [x] | None => [] end.
Definition entry_responses (t : transport) (c : scfg) (es : list bytes) : list bytes :=
  flat_map (fun e => opt_list (entry_response t c e)) es.
Definition entry_directs (t : transport) (c : scfg) (es : list bytes) : list bytes :=
  flat_map (fun e => match entry_result reg h t c e with Some cr => c_direct cr | None => [] end) es.
Definition entry_logs (t : transport) (c : scfg) (es : list bytes) : log :=
  flat_map (fun e => match entry_result reg h t c e with Some cr => c_log cr | None => [] end) es.

Definition answered (e : bytes) : bool := match classify_entry e with ENotif => false | _ => true end.

Definition over_limit (b : batchcfg) (n : nat) : option N :=
  match b with
  | BLimit l => if l <? N.of_nat n then Some l else None
  | _ => None
  end.

(* `gate_reference`, `epilogue_reference` and `batch_tail` are the readings of the batch prologue, epilogue and loop
   that the theorems of C02 are proved about.  run_batch_gate and run_batch_epilogue evaluate the interpreters of
   Model/Server.v on the lists Gen/BatchGateGen.{batch_gate, batch_epilogue} generated from the source: a regenerated
   list with another order, another comparison or another error object makes them, and with them every C02 theorem,
   fail. *)
Definition gate_reference (bc : batchcfg) (body : bytes) : gate_result :=
  match bc with
  | BDisabled => GReject batches_not_supported
  | _ =>
    match batch_elems body with
    | None => GReject parse_error
    | Some es =>
      match over_limit bc (length es) with
      | Some l => GReject (too_big_batch_request l)
      | None => GAdmit es
      end
    end
  end.

Lemma run_batch_gate bc body : run_gate batch_gate bc body = gate_reference bc body.
Proof.
  unfold run_gate, batch_gate, gate_reference, over_limit.
  destruct bc as [|l|]; cbn [run_gate_from]; [reflexivity| |]; destruct (batch_elems body) as [es|]; try reflexivity.
  cbn [len_exceeds]. destruct (l <? N.of_nat (length es)); reflexivity.
Qed.

Lemma gate_reference_enabled bc body :
  bc <> BDisabled ->
  gate_reference bc body =
  match batch_elems body with
  | None => GReject parse_error
  | Some es => match over_limit bc (length es) with Some l => GReject (too_big_batch_request l) | None => GAdmit es end
  end.
Proof. intro H. destruct bc; [congruence | reflexivity | reflexivity]. Qed.

Lemma gate_reference_too_long n body es :
  batch_elems body = Some es -> n < N.of_nat (length es) ->
  gate_reference (BLimit n) body = GReject (too_big_batch_request n).
Proof.
  intros He Hn. unfold gate_reference, over_limit. rewrite He.
  destruct (N.ltb_spec n (N.of_nat (length es))); [reflexivity | lia].
Qed.

Lemma gate_admits_elems bc body es : gate_reference bc body = GAdmit es -> batch_elems body = Some es.
Proof.
  unfold gate_reference. destruct bc; try discriminate; (destruct (batch_elems body); [|discriminate]);
    (destruct (over_limit _ _); [discriminate|]); intro H; inversion H; reflexivity.
Qed.

Definition epilogue_reference (buf : bytes) (got_notification : bool) : option epilogue_result :=
  if (Nat.leb (length buf) 1) && got_notification then Some FinSilent else Some (FinJson (finish buf)).

Lemma run_batch_epilogue buf gn : run_epilogue batch_epilogue buf gn = epilogue_reference buf gn.
Proof.
  unfold batch_epilogue, epilogue_reference. cbn [run_epilogue].
  destruct ((Nat.leb (length buf) 1) && gn); [reflexivity|]. unfold finish.
  destruct buf as [|x [|y buf]]; reflexivity.
Qed.

Definition batch_tail (t : transport) (c : scfg) (es : list bytes) : mresp :=
  let '(buf, overflow, direct, lg) := run_entries reg h t c batch_new es in
  if overflow then
    {| m_json := too_big_batch (sc_max_response c); m_kind := RkCall; m_direct := direct; m_log := lg |}
  else if (Nat.leb (length buf) 1) && existsb is_notification_entry es then
    {| m_json := null_text; m_kind := RkNotif; m_direct := direct; m_log := lg |}
  else
    {| m_json := finish buf; m_kind := RkBatch; m_direct := direct; m_log := lg |}.

Lemma rpc_batch_eq t c body :
  rpc_batch reg h t c body =
  match gate_reference (sc_batch c) body with
  | GReject e => plain (error_response IdNull e)
  | GAdmit es => batch_tail t c es
  | GStuck => stuck_resp
  end.
Proof.
  unfold rpc_batch. rewrite run_batch_gate. destruct (gate_reference (sc_batch c) body) as [e|es|]; try reflexivity.
  unfold batch_tail. destruct (run_entries reg h t c batch_new es) as [[[buf o] d] l].
  destruct o; [reflexivity|]. rewrite run_batch_epilogue. unfold epilogue_reference.
  destruct ((Nat.leb (length buf) 1) && existsb is_notification_entry es); reflexivity.
Qed.

Lemma entry_response_eq t c e :
  entry_response t c e =
  match classify_entry e with
  | ECall r => Some (mk_response (rq_id r) (call_payload t c r))
  | ENotif => None
  | EInvalid i => Some (mk_response i (PError invalid_request))
  end.
Proof.
  unfold entry_response, entry_result. destruct (classify_entry e); try reflexivity.
  cbn [c_json]. rewrite call_json. reflexivity.
Qed.

Lemma classify_entry_wf e :
  match classify_entry e with ECall r => wf_id (rq_id r) | EInvalid i => wf_id i | ENotif => True end.
Proof.
  unfold classify_entry. destruct (is_object_text e); [|exact I].
  pose proof (classify_class_wf e) as W. destruct (classify e); exact W.
Qed.

Lemma entry_responses_ok t c es :
  handlers_wf h -> Forall (fun f => span_ok f /\ wellformed_response f) (entry_responses t c es).
Proof.
  intro Hw. unfold entry_responses. induction es as [|e es IH]; [constructor|]. cbn [flat_map].
  apply Forall_app. split; [|exact IH]. rewrite entry_response_eq. pose proof (classify_entry_wf e) as W.
  assert (R : forall i p, wf_id i -> payload_ok p ->
            Forall (fun f => span_ok f /\ wellformed_response f) (opt_list (Some (mk_response i p)))).
  { intros i p Wi Wp. constructor; [|constructor].
    split; [apply mk_response_span_ok | apply mk_response_wellformed]; assumption. }
  destruct (classify_entry e) as [r| |i].
  - apply R; [exact W | apply call_payload_ok, Hw].
  - constructor.
  - apply R; [exact W | apply invalid_request_ok].
Qed.

Definition re_overflow (x : bytes * bool * list bytes * log) : bool := snd (fst (fst x)).
Definition re_direct (x : bytes * bool * list bytes * log) : list bytes := snd (fst x).
Definition re_log (x : bytes * bool * list bytes * log) : log := snd x.

Lemma run_entries_spec t c : forall es done,
  let rs := entry_responses t c es in
  let out := run_entries reg h t c (buf_of done) es in
  (1 + alen (done ++ rs) <= sc_max_response c ->
     out = (buf_of (done ++ rs), false, entry_directs t c es, entry_logs t c es)) /\
  (rs <> [] -> sc_max_response c < 1 + alen (done ++ rs) -> re_overflow out = true).
Proof.
  induction es as [|e es IH]; intro done; cbv zeta.
  - cbn. rewrite app_nil_r. split; [reflexivity | intro H; exfalso; apply H; reflexivity].
  - change (entry_responses t c (e :: es)) with (opt_list (entry_response t c e) ++ entry_responses t c es).
    cbn [run_entries entry_directs entry_logs flat_map]. unfold entry_response.
    destruct (entry_result reg h t c e) as [cr|]; cbn [opt_list app]; [|exact (IH done)].
    rewrite append_spec. destruct (IH (done ++ [c_json cr])) as (I2 & I3).
    rewrite <- app_assoc in I2, I3. cbn [app] in I2, I3.
    destruct (N.leb_spec (1 + alen (done ++ [c_json cr])) (sc_max_response c)) as [Hle|Hgt]; split.
    + intro Hfit. rewrite (I2 Hfit). reflexivity.
    + intros _ Hbig.
      assert (Hne : entry_responses t c es <> []) by (intro E; rewrite E in Hbig; lia).
      specialize (I3 Hne Hbig). destruct (run_entries reg h t c (buf_of (done ++ [c_json cr])) es) as [[[b o] d] l].
      exact I3.
    + intro Hfit. exfalso. rewrite !alen_app in Hgt, Hfit. cbn [alen] in Hgt, Hfit. lia.
    + reflexivity.
Qed.

Lemma buf_of_length_ge2 rs : rs <> [] -> Nat.leb (length (buf_of rs)) 1 = false.
Proof.
  destruct rs as [|r rs]; [congruence|]. intros _. apply Nat.leb_gt.
  unfold buf_of. cbn [map concat length]. rewrite !app_length. cbn [length]. lia.
Qed.

Lemma run_entries_notifications t c : forall es buf,
  forallb is_notification_entry es = true -> run_entries reg h t c buf es = (buf, false, [], []).
Proof.
  induction es as [|e es IH]; intros buf H; [reflexivity|]. cbn [forallb] in H. apply andb_prop in H as [He Hes].
  cbn [run_entries]. unfold entry_result. unfold is_notification_entry in He.
  destruct (classify_entry e); try discriminate He. apply IH, Hes.
Qed.

Lemma entry_responses_nil t c es : entry_responses t c es = [] -> forallb is_notification_entry es = true.
Proof.
  induction es as [|e es IH]; [reflexivity|].
  change (entry_responses t c (e :: es)) with (opt_list (entry_response t c e) ++ entry_responses t c es).
  intro H. apply app_eq_nil in H as [He Hes]. cbn [forallb]. rewrite (IH Hes), andb_true_r.
  rewrite entry_response_eq in He. unfold is_notification_entry.
  destruct (classify_entry e); try discriminate He. reflexivity.
Qed.

Lemma batch_tail_silent t c es :
  es <> [] -> entry_responses t c es = [] ->
  batch_tail t c es = {| m_json := null_text; m_kind := RkNotif; m_direct := []; m_log := [] |}.
Proof.
  intros Hne Hrs. pose proof (entry_responses_nil t c es Hrs) as N. unfold batch_tail.
  rewrite (run_entries_notifications t c es batch_new N).
  destruct es as [|e es]; [congruence|]. cbn [forallb existsb] in *. apply andb_prop in N as [-> _]. reflexivity.
Qed.

Lemma batch_tail_fits t c es :
  let rs := entry_responses t c es in
  rs <> [] -> blen (array_of rs) <= sc_max_response c ->
  batch_tail t c es =
  {| m_json := array_of rs; m_kind := RkBatch; m_direct := entry_directs t c es; m_log := entry_logs t c es |}.
Proof.
  cbv zeta. intros Hne Hfit. unfold batch_tail. change batch_new with (buf_of []).
  rewrite (blen_array_of _ Hne) in Hfit. destruct (run_entries_spec t c es []) as (S2 & _). rewrite (S2 Hfit).
  cbn [app].
  rewrite (buf_of_length_ge2 _ Hne), (finish_buf_of _ Hne). reflexivity.
Qed.

Lemma batch_tail_overflow t c es :
  let rs := entry_responses t c es in
  rs <> [] -> sc_max_response c < blen (array_of rs) ->
  m_json (batch_tail t c es) = too_big_batch (sc_max_response c) /\ m_kind (batch_tail t c es) = RkCall.
Proof.
  cbv zeta. intros Hne Hbig. unfold batch_tail. change batch_new with (buf_of []).
  rewrite (blen_array_of _ Hne) in Hbig. destruct (run_entries_spec t c es []) as (_ & S3).
  pose proof (S3 Hne Hbig) as O.
  destruct (run_entries reg h t c (buf_of []) es) as [[[b o] d] l]. unfold re_overflow in O. cbn [fst snd] in O.
  subst o. split; reflexivity.
Qed.

Definition ws_own (r : mresp) : list bytes := match m_kind r with RkCall | RkBatch => [m_json r] | _ => [] end.

Lemma handle_batch t c b body :
  sniff t b = Some (false, body) ->
  let r := rpc_batch reg h t c body in
  o_log (handle reg h t c b) = m_log r /\
  o_frames (handle reg h t c b) = match t with Ws => m_direct r ++ ws_own r | Http => [m_json r] end.
Proof. intro S. unfold handle. rewrite S. unfold handle_rpc_call. destruct t; split; reflexivity. Qed.

Lemma frames_plain t c b body json :
  sniff t b = Some (false, body) -> rpc_batch reg h t c body = plain json ->
  o_frames (handle reg h t c b) = [json] /\ o_log (handle reg h t c b) = [].
Proof.
  intros S E. destruct (handle_batch t c b body S) as [L F]. rewrite L, F, E. destruct t; split; reflexivity.
Qed.

Definition admitted (c : scfg) (body : bytes) (es : list bytes) : Prop :=
  sc_batch c <> BDisabled /\ batch_elems body = Some es /\ es <> [] /\ over_limit (sc_batch c) (length es) = None.

Lemma rpc_batch_admitted t c body es : admitted c body es -> rpc_batch reg h t c body = batch_tail t c es.
Proof. intros (H1 & H2 & _ & H4). rewrite rpc_batch_eq, gate_reference_enabled, H2, H4 by exact H1. reflexivity. Qed.

Lemma entry_direct_nil t c es e :
  ~ KnownClass_C02_sub reg t es -> In e es ->
  match entry_result reg h t c e with Some cr => c_direct cr = [] | None => True end.
Proof.
  intros Hk He. unfold entry_result, classify_entry. destruct (is_object_text e) eqn:Ho; [|reflexivity].
  destruct (classify e) as [r| |i|] eqn:E; cbn [entry_of_class]; try reflexivity; try exact I.
  apply call_direct_nil. intros [Ht Hr]. apply Hk. split; [exact Ht|]. exists e, r. repeat split; assumption.
Qed.

Lemma run_entries_direct_nil t c : forall es buf,
  Forall (fun e => match entry_result reg h t c e with Some cr => c_direct cr = [] | None => True end) es ->
  re_direct (run_entries reg h t c buf es) = [].
Proof.
  induction es as [|e es IH]; intros buf H; [reflexivity|]. inversion H as [|? ? He H']. subst. cbn [run_entries].
  destruct (entry_result reg h t c e) as [cr|]; [|apply IH, H'].
  destruct (append buf (sc_max_response c) (c_json cr)) as [buf'|]; [|exact He].
  specialize (IH buf' H'). destruct (run_entries reg h t c buf' es) as [[[b0 o] d] l].
  unfold re_direct in *. cbn [fst snd] in *. rewrite He, IH. reflexivity.
Qed.

Lemma batch_direct_nil t c body :
  (forall es, batch_elems body = Some es -> ~ KnownClass_C02_sub reg t es) -> m_direct (rpc_batch reg h t c body) = [].
Proof.
  intro Hk. rewrite rpc_batch_eq. destruct (gate_reference (sc_batch c) body) as [e|es|] eqn:G; try reflexivity.
  assert (D : re_direct (run_entries reg h t c batch_new es) = []).
  { apply run_entries_direct_nil, Forall_forall. intros e He.
    apply (entry_direct_nil t c es e (Hk es (gate_admits_elems _ _ _ G)) He). }
  unfold batch_tail. destruct (run_entries reg h t c batch_new es) as [[[b0 o] d] l].
  unfold re_direct in D. cbn [fst snd] in D. subst d. destruct o; [reflexivity|]. destruct (_ && _); reflexivity.
Qed.

Lemma entry_directs_http c es : entry_directs Http c es = [].
Proof.
  unfold entry_directs. induction es as [|e es IH]; [reflexivity|]. cbn [flat_map]. rewrite IH, app_nil_r.
  unfold entry_result. destruct (classify_entry e) as [r| |i]; try reflexivity. apply call_http_kind.
Qed.

End Facts.

(* a registry, handlers and messages for the Examples of Props/C01.v and Props/C02.v and for the witness C02_sub_refuted *)
Definition ex_reg (m : bytes) : option mkind :=
  if bytes_eqb m b#"sub" then Some KSub else if bytes_eqb m b#"boom" then Some KBlocking else if bytes_eqb m b#"echo" then Some KSync else None.
Definition ex_h (m : bytes) (p : option bytes) : hres :=
  if bytes_eqb m b#"sub" then HOk b#"7" else if bytes_eqb m b#"boom" then HPanic else HOk (match p with Some x => x | None => b#"null" end).
Definition ex_cfg : scfg := {| sc_max_response := 10485760; sc_batch := BUnlimited |}.

Definition ex_sub_call : bytes := b#"{""jsonrpc"":""2.0"",""id"":1,""method"":""sub""}".
Definition ex_sub_batch : bytes := b#"[{""jsonrpc"":""2.0"",""id"":1,""method"":""sub""}]".
Definition ex_sub_resp : bytes := b#"{""jsonrpc"":""2.0"",""id"":1,""result"":7}".
