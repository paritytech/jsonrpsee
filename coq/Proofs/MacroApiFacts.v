(* C17: facts about Model/MacroApi.v -- the code emitted by the rpc proc-macro, composed with the proved facts about
   the builders (BuilderFacts, C20), the wire types (WireFacts, C15), the registry (RegistryFacts, C13) and the params
   reader (ParamsFacts, C16). *)
From JV Require Import Base.Bytes Base.Dec Base.Utf8 Json.Json Json.JsonSer Json.JsonParse Json.JsonWf.
From JV Require Import Proofs.BytesFacts Proofs.Utf8Facts Proofs.LexFacts Proofs.JsonScan Proofs.JsonFacts.
From JV Require Model.Params Model.Builder Model.Wire Model.Registry.
From JV Require Proofs.ParamsFacts Proofs.BuilderFacts Proofs.WireFacts Proofs.RegistryFacts.
From JV Require Import Model.MacroApi.
Local Open Scope N_scope.
Local Arguments ser_str : simpl never.
#[local] Arguments N.add : simpl never.
#[local] Arguments N.sub : simpl never.
#[local] Arguments N.mul : simpl never.
#[local] Arguments N.ltb : simpl never.
#[local] Arguments N.leb : simpl never.
#[local] Arguments N.eqb : simpl never.

Lemma join_ser_elems x l : join [x2c] (map ser (x :: l)) ++ [x5d] = ser_elems (x :: l).
Proof.
  revert x. induction l as [|y l IH]; intro x.
  - reflexivity.
  - rewrite ser_elems_cons. cbn [map]. rewrite join_cons2. rewrite <- !app_assoc. cbn [app].
    f_equal. f_equal. apply (IH y).
Qed.

Lemma array_text js : js <> [] -> x5b :: join [x2c] (map ser js) ++ [x5d] = ser (JArr js).
Proof. destruct js as [|x l]; [congruence|]. intros _. rewrite ser_arr, join_ser_elems. reflexivity. Qed.

Definition member_piece (kv : bytes * json) : bytes := BuilderFacts.kv_piece (fst kv) (ser (snd kv)).

Lemma join_ser_members kv m : join [x2c] (map member_piece (kv :: m)) ++ [x7d] = ser_members (kv :: m).
Proof.
  revert kv. induction m as [|kv2 m IH]; intros [k v].
  - cbn [map join]. unfold member_piece, BuilderFacts.kv_piece. cbn [fst snd]. rewrite ser_members_one.
    rewrite <- !app_assoc. cbn [app]. reflexivity.
  - rewrite ser_members_cons. cbn [map]. rewrite join_cons2. unfold member_piece at 1, BuilderFacts.kv_piece. cbn [fst snd].
    rewrite <- !app_assoc. cbn [app]. do 4 f_equal. apply (IH kv2).
Qed.

Lemma object_text m : m <> [] -> x7b :: join [x2c] (map member_piece m) ++ [x7d] = ser (JObj m).
Proof. destruct m as [|kv m]; [congruence|]. intros _. rewrite ser_obj, join_ser_members. reflexivity. Qed.

Lemma raw_text_ser v : wf v = true -> raw_text (ser v) = Some (ser v).
Proof.
  intro W. unfold raw_text. pose proof (raw_value_ser v [] W eq_refl) as H. rewrite app_nil_r in H. rewrite H. reflexivity.
Qed.

Lemma build_positional js : js <> [] -> forallb wf js = true ->
  Builder.build (fst (Builder.inserts Builder.positional (map (fun j => Builder.SOk (ser j)) js))) = Builder.BSome (ser (JArr js)).
Proof.
  intros N W. unfold Builder.positional. rewrite BuilderFacts.inserts_empty. cbn [fst].
  assert (T : BuilderFacts.ok_texts (map (fun j => Builder.SOk (ser j)) js) = map ser js).
  { clear. induction js as [|j js IH]; [reflexivity|]. cbn [map BuilderFacts.ok_texts]. rewrite IH. reflexivity. }
  rewrite T, BuilderFacts.build_state by (destruct js; [congruence | discriminate]).
  rewrite (array_text js N), raw_text_ser by exact W. reflexivity.
Qed.

Lemma build_named m : m <> [] -> forallb (fun kv => utf8_valid (fst kv) && wf (snd kv)) m = true ->
  Builder.build (fst (Builder.inserts_named Builder.named (map (fun kv => (fst kv, Builder.SOk (ser (snd kv)))) m))) =
  Builder.BSome (ser (JObj m)).
Proof.
  intros N W. rewrite BuilderFacts.inserts_named_entries. unfold Builder.named. rewrite BuilderFacts.inserts_empty. cbn [fst].
  assert (T : BuilderFacts.ok_texts (map BuilderFacts.kv_entry (map (fun kv => (fst kv, Builder.SOk (ser (snd kv)))) m)) =
              map member_piece m).
  { clear. induction m as [|[k v] m IH]; [reflexivity|]. cbn [map BuilderFacts.kv_entry BuilderFacts.ok_texts fst snd]. rewrite IH. reflexivity. }
  rewrite T, BuilderFacts.build_state by (destruct m; [congruence | discriminate]).
  rewrite (object_text m N), raw_text_ser by exact W. reflexivity.
Qed.

Lemma is_object_of_parse s v : skip_ws s = s -> parse_text s = Some v ->
  Params.is_object (Some s) = match v with JObj _ => true | _ => false end.
Proof.
  intros Hw H. destruct (ParamsFacts.parse_text_kind s v Hw H) as (c & s1 & -> & _ & _ & B). exact B.
Qed.

Lemma is_object_new raw v : parse_text raw = Some v ->
  Params.is_object (Params.params_new (Some raw)) = match v with JObj _ => true | _ => false end.
Proof.
  intro H. cbn [Params.params_new]. apply is_object_of_parse; [apply ParamsFacts.trim_no_lead | apply ParamsFacts.new_keeps_json, H].
Qed.

Section NamesFacts.
Variable ty : Type.
Import Registry RegistryFacts.

Definition apply_op (ms : methods) (o : op) : methods :=
  match o with
  | Reg O r => fst (v_register ms r)
  | Alias O al e => fst (v_alias ms al e)
  | _ => ms
  end.
Definition apply_ops (ms : methods) (os : list op) : methods := fold_left apply_op os ms.

Definition on_zero (o : op) : Prop :=
  match o with Reg O _ | Alias O _ _ => True | _ => False end.

Lemma vexec_single os : forall ms, Forall on_zero os -> vexec [ms] os = [apply_ops ms os].
Proof.
  induction os as [|o os IH]; intros ms H; [reflexivity|]. inversion H as [|? ? Ho Hos]; subst.
  unfold vexec, apply_ops. cbn [fold_left]. fold (vexec (fst (vstep [ms] o)) os). fold (apply_ops (apply_op ms o) os).
  assert (E : fst (vstep [ms] o) = [apply_op ms o]).
  { destruct o as [m r|m al e| | | | | |]; try destruct Ho; destruct m as [|m]; try destruct Ho; cbn [vstep length apply_op].
    - change (0 <? 1)%nat with true. cbv iota. cbn [nth]. destruct (v_register ms r). reflexivity.
    - change (0 <? 1)%nat with true. cbv iota. cbn [nth]. destruct (v_alias ms al e). reflexivity. }
  rewrite E. apply IH, Hos.
Qed.

Lemma into_rpc_on_zero (a : api ty) : Forall on_zero (into_rpc_ops a).
Proof.
  unfold into_rpc_ops. repeat (apply Forall_app; split).
  - unfold mapi. generalize 0%nat. induction (a_methods a) as [|m l IH]; intro i; [constructor|].
    cbn [mapi_from]. constructor; [exact I | apply IH].
  - unfold mapi. generalize 0%nat. induction (a_subs a) as [|m l IH]; intro i; [constructor|].
    cbn [mapi_from]. constructor; [exact I | apply IH].
  - induction (a_methods a) as [|m l IH]; [constructor|]. cbn [flat_map]. apply Forall_app. split; [|exact IH].
    unfold method_alias_regs. induction (m_aliases m); constructor; [exact I | assumption].
  - induction (a_subs a) as [|m l IH]; [constructor|]. cbn [flat_map]. apply Forall_app. split; [|exact IH].
    unfold sub_alias_regs. apply Forall_app. split.
    + induction (s_aliases m); constructor; [exact I | assumption].
    + induction (s_unsub_aliases m); constructor; [exact I | assumption].
Qed.

Lemma registry_value (a : api ty) : registry a = apply_ops [] (into_rpc_ops a).
Proof.
  unfold registry. rewrite get_view. destruct (exec_refines init (into_rpc_ops a) wf_init) as [_ V]. rewrite V.
  change (view init) with [@nil (name * binding)]. rewrite vexec_single by apply into_rpc_on_zero. reflexivity.
Qed.

Inductive good_op (ms : methods) : op -> methods -> Prop :=
| good_method n h : good_op ms (Reg 0 (RMethod n h)) [(n, Bind h KSync)]
| good_async n h : good_op ms (Reg 0 (RAsync n h)) [(n, Bind h KAsync)]
| good_blocking n h : good_op ms (Reg 0 (RBlocking n h)) [(n, Bind h KBlocking)]
| good_sub raw sn un h : good_op ms (Reg 0 (RSub raw sn un h)) [(un, Bind h KUnsub); (sn, Bind h KSub)]
| good_alias al e b : lookup e ms = Some b -> good_op ms (Alias 0 al e) [(al, b)].

Lemma NoDup_app_inv {A} (l r : list A) : NoDup (l ++ r) -> NoDup l /\ NoDup r /\ forall x, In x r -> ~ In x l.
Proof.
  induction l as [|y l IH]; intro H; [repeat split; [constructor | exact H | tauto]|].
  cbn [app] in H. inversion H as [|? ? Hy H']; subst. destruct (IH H') as (Nl & Nr & D). repeat split.
  - constructor; [intro I; apply Hy, in_or_app; left; exact I | exact Nl].
  - exact Nr.
  - intros x Hr [->|Hl]; [apply Hy, in_or_app; right; exact Hr | exact (D x Hr Hl)].
Qed.

Lemma v_insert_fresh ms n b : ~ In n (map fst ms) -> fst (v_insert ms n b) = ms ++ [(n, b)].
Proof.
  intro H. apply lookup_none_iff in H. unfold v_insert. rewrite H. cbn [fst]. apply hm_insert_fresh, H.
Qed.

Lemma apply_good ms o es : good_op ms o es -> NoDup (map fst ms ++ map fst es) -> apply_op ms o = ms ++ es.
Proof.
  intros G ND. destruct G as [n h|n h|n h|raw sn un h|al e b Hl]; cbn [apply_op v_register map fst] in *.
  1-3: apply v_insert_fresh; apply (proj2 (proj2 (NoDup_app_inv _ _ ND)) n); left; reflexivity.
  - assert (Hun : ~ In un (map fst ms)) by (apply (proj2 (proj2 (NoDup_app_inv _ _ ND)) un); left; reflexivity).
    assert (Hsn : ~ In sn (map fst ms)) by (apply (proj2 (proj2 (NoDup_app_inv _ _ ND)) sn); right; left; reflexivity).
    assert (Hne : sn <> un).
    { apply NoDup_app_inv in ND as (_ & ND & _). inversion ND as [|? ? Hx _]; subst. intro E. apply Hx. left. exact E. }
    apply beq_false in Hne. rewrite Hne.
    apply lookup_none_iff in Hun, Hsn.
    rewrite (proj2 (contains_key_false sn ms) Hsn), (proj2 (contains_key_false un ms) Hun).
    unfold v_insert. rewrite lookup_hm_insert, Hne, Hsn. cbn [fst].
    rewrite (hm_insert_fresh un _ ms Hun). rewrite hm_insert_fresh.
    + rewrite <- app_assoc. reflexivity.
    + rewrite lookup_app, Hsn. cbn [lookup]. rewrite Hne. reflexivity.
  - assert (Hal : ~ In al (map fst ms)) by (apply (proj2 (proj2 (NoDup_app_inv _ _ ND)) al); left; reflexivity).
    apply lookup_none_iff in Hal. unfold v_alias.
    rewrite (proj2 (contains_key_false al ms) Hal), Hl. cbn [fst]. apply hm_insert_fresh, Hal.
Qed.

Inductive good_ops : methods -> list op -> methods -> Prop :=
| good_nil ms : good_ops ms [] []
| good_cons ms o es os ess : good_op ms o es -> good_ops (ms ++ es) os ess -> good_ops ms (o :: os) (es ++ ess).

Lemma apply_good_ops ms os ess : good_ops ms os ess -> NoDup (map fst ms ++ map fst ess) -> apply_ops ms os = ms ++ ess.
Proof.
  induction 1 as [ms|ms o es os ess Go _ IH]; intro ND; [rewrite app_nil_r; reflexivity|].
  unfold apply_ops. cbn [fold_left]. fold (apply_ops (apply_op ms o) os).
  rewrite map_app, app_assoc in ND.
  rewrite (apply_good ms o es Go) by (apply NoDup_app_inv in ND; apply ND).
  rewrite IH by (rewrite map_app; exact ND). rewrite <- app_assoc. reflexivity.
Qed.

Lemma good_ops_app ms o1 e1 o2 e2 : good_ops ms o1 e1 -> good_ops (ms ++ e1) o2 e2 -> good_ops ms (o1 ++ o2) (e1 ++ e2).
Proof.
  induction 1 as [ms|ms o es os ess Go _ IH]; intro H2; cbn [app].
  - rewrite app_nil_r in H2. exact H2.
  - rewrite <- app_assoc. constructor; [exact Go|]. apply IH. rewrite <- app_assoc. exact H2.
Qed.

Lemma good_methods (a : api ty) l : forall i ms, good_ops ms (mapi_from (method_reg a) i l) (mapi_from (method_entry a) i l).
Proof.
  induction l as [|m l IH]; intros i ms; [constructor|]. cbn [mapi_from].
  change (method_entry a i m :: mapi_from (method_entry a) (S i) l) with ([method_entry a i m] ++ mapi_from (method_entry a) (S i) l).
  constructor; [|apply IH].
  unfold method_reg, method_entry, method_binding. destruct (m_kind m); constructor.
Qed.

Lemma good_subs (a : api ty) l : forall j ms, good_ops ms (mapi_from (sub_reg a) j l) (concat (mapi_from (sub_entries a) j l)).
Proof.
  induction l as [|s l IH]; intros j ms; [constructor|]. cbn [mapi_from concat].
  constructor; [|apply IH]. unfold sub_reg, sub_entries, sub_binding, unsub_binding. constructor.
Qed.

Lemma lookup_keep n b ms es : lookup n ms = Some b -> lookup n (ms ++ es) = Some b.
Proof. intro H. rewrite lookup_app, H. reflexivity. Qed.

Lemma good_aliases tgt b als : forall ms, lookup tgt ms = Some b ->
  good_ops ms (map (fun al => Alias 0 al tgt) als) (map (fun al => (al, b)) als).
Proof.
  induction als as [|al als IH]; intros ms H; [constructor|]. cbn [map].
  change ((al, b) :: map (fun al0 => (al0, b)) als) with ([(al, b)] ++ map (fun al0 => (al0, b)) als).
  constructor; [constructor; exact H|]. apply IH, lookup_keep, H.
Qed.

Lemma good_method_aliases (a : api ty) l : forall i ms,
  (forall k m, nth_error l k = Some m -> lookup (rpc_identifier a (m_name m)) ms = Some (method_binding (i + k) m)) ->
  good_ops ms (flat_map (method_alias_regs a) l) (concat (mapi_from method_alias_entries i l)).
Proof.
  induction l as [|m l IH]; intros i ms H; [constructor|]. cbn [flat_map mapi_from concat].
  apply good_ops_app.
  - unfold method_alias_regs, method_alias_entries. apply good_aliases.
    specialize (H 0%nat m eq_refl). rewrite Nat.add_0_r in H. exact H.
  - apply IH. intros k m' Hk. apply lookup_keep. specialize (H (S k) m' Hk).
    replace (S i + k)%nat with (i + S k)%nat by lia. exact H.
Qed.

Lemma good_sub_aliases (a : api ty) l : forall j ms,
  (forall k s, nth_error l k = Some s ->
     lookup (rpc_identifier a (s_name s)) ms = Some (sub_binding a (j + k)) /\
     lookup (rpc_identifier a (unsub_name s)) ms = Some (unsub_binding a (j + k))) ->
  good_ops ms (flat_map (sub_alias_regs a) l) (concat (mapi_from (sub_alias_entries a) j l)).
Proof.
  induction l as [|s l IH]; intros j ms H; [constructor|]. cbn [flat_map mapi_from concat].
  apply good_ops_app.
  - unfold sub_alias_regs, sub_alias_entries. destruct (H 0%nat s eq_refl) as [H1 H2]. rewrite Nat.add_0_r in H1, H2.
    apply good_ops_app; [apply good_aliases, H1 | apply good_aliases, lookup_keep, H2].
  - apply IH. intros k s' Hk. destruct (H (S k) s' Hk) as [H1 H2].
    replace (S j + k)%nat with (j + S k)%nat by lia. split; apply lookup_keep; assumption.
Qed.

Lemma mapi_from_in {A B} (f : nat -> A -> B) l : forall i k x, nth_error l k = Some x -> In (f (i + k)%nat x) (mapi_from f i l).
Proof.
  induction l as [|y l IH]; intros i [|k] x H; try discriminate; cbn [mapi_from].
  - cbn in H. inv_some H. rewrite Nat.add_0_r. left. reflexivity.
  - right. replace (i + S k)%nat with (S i + k)%nat by lia. apply IH, H.
Qed.

Lemma in_concat_mapi {A B} (f : nat -> A -> list B) l : forall i k x y, nth_error l k = Some x -> In y (f (i + k)%nat x) ->
  In y (concat (mapi_from f i l)).
Proof.
  induction l as [|z l IH]; intros i [|k] x y H Hy; try discriminate; cbn [mapi_from concat]; apply in_or_app.
  - cbn in H. inv_some H. rewrite Nat.add_0_r in Hy. left. exact Hy.
  - right. replace (i + S k)%nat with (S i + k)%nat in Hy by lia. apply (IH (S i) k x y H Hy).
Qed.

Lemma registry_expected (a : api ty) : NoDup (registered_names a) -> registry a = expected_table a.
Proof.
  intro ND. rewrite registry_value. unfold registered_names in ND.
  change (expected_table a) with ([] ++ expected_table a). apply apply_good_ops; [|exact ND].
  unfold into_rpc_ops, expected_table, mapi in *.
  set (E1 := mapi_from (method_entry a) 0 (a_methods a)) in *.
  set (E2 := concat (mapi_from (sub_entries a) 0 (a_subs a))) in *.
  assert (ND12 : NoDup (map fst (E1 ++ E2))).
  { rewrite !map_app in ND. rewrite app_assoc in ND. apply NoDup_app_inv in ND as [ND _]. rewrite map_app. exact ND. }
  apply good_ops_app; [apply good_methods|]. cbn [app].
  apply good_ops_app; [apply good_subs|].
  apply good_ops_app.
  - apply good_method_aliases. intros k m Hk. cbn [Nat.add]. apply in_lookup_nodup; [exact ND12|].
    apply in_or_app. left. apply (mapi_from_in (method_entry a) _ 0 k m Hk).
  - apply good_sub_aliases. intros k s Hk. cbn [Nat.add].
    assert (In2 : forall e, In e (sub_entries a k s) -> lookup (fst e) ((E1 ++ E2) ++ concat (mapi_from method_alias_entries 0 (a_methods a))) = Some (snd e)).
    { intros [n b] He. apply lookup_keep, in_lookup_nodup; [exact ND12|]. apply in_or_app. right.
      apply (in_concat_mapi (sub_entries a) _ 0 k s _ Hk He). }
    split.
    + apply (In2 (_, _)). right. left. reflexivity.    (* the subscribe name *)
    + apply (In2 (_, _)). left. reflexivity.           (* the unsubscribe name *)
Qed.

Lemma names_resolve (a : api ty) : NoDup (registered_names a) ->
  (forall i m, nth_error (a_methods a) i = Some m ->
     resolve a (rpc_identifier a (m_name m)) = Some (method_binding i m) /\
     (forall al, In al (m_aliases m) -> resolve a al = Some (method_binding i m))) /\
  (forall j s, nth_error (a_subs a) j = Some s ->
     resolve a (rpc_identifier a (s_name s)) = Some (sub_binding a j) /\
     resolve a (rpc_identifier a (unsub_name s)) = Some (unsub_binding a j) /\
     (forall al, In al (s_aliases s) -> resolve a al = Some (sub_binding a j)) /\
     (forall al, In al (s_unsub_aliases s) -> resolve a al = Some (unsub_binding a j))) /\
  (forall n, ~ In n (registered_names a) -> resolve a n = None).
Proof.
  intro ND. unfold resolve. rewrite (registry_expected a ND).
  assert (L : forall n b, In (n, b) (expected_table a) -> lookup n (expected_table a) = Some b)
    by (intros n b; apply in_lookup_nodup; exact ND).
  unfold expected_table, mapi in L.
  repeat split.
  - apply L. apply in_or_app. left. apply (mapi_from_in (method_entry a) _ 0 i m H).
  - intros al Hal. apply L. apply in_or_app. right. apply in_or_app. right. apply in_or_app. left.
    apply (in_concat_mapi method_alias_entries _ 0 i m _ H). unfold method_alias_entries. cbn [Nat.add].
    apply in_map_iff. exists al. split; [reflexivity | exact Hal].
  - apply L. apply in_or_app. right. apply in_or_app. left.
    apply (in_concat_mapi (sub_entries a) _ 0 j s _ H). right. left. reflexivity.
  - apply L. apply in_or_app. right. apply in_or_app. left.
    apply (in_concat_mapi (sub_entries a) _ 0 j s _ H). left. reflexivity.
  - intros al Hal. apply L. do 3 (apply in_or_app; right).
    apply (in_concat_mapi (sub_alias_entries a) _ 0 j s _ H). unfold sub_alias_entries. cbn [Nat.add].
    apply in_or_app. left. apply in_map_iff. exists al. split; [reflexivity | exact Hal].
  - intros al Hal. apply L. do 3 (apply in_or_app; right).
    apply (in_concat_mapi (sub_alias_entries a) _ 0 j s _ H). unfold sub_alias_entries. cbn [Nat.add].
    apply in_or_app. right. apply in_map_iff. exists al. split; [reflexivity | exact Hal].
  - intros n Hn. apply lookup_none_iff. exact Hn.
Qed.

End NamesFacts.

Section Codec.
Variable ty : Type.
Variable val : Type.
Variable enc : ty -> val -> json.
Variable dec : ty -> json -> option val.

Notation arg_json := (arg_json ty val enc).
Notation arg_ok := (arg_ok ty val enc dec).
Notation args_ok := (args_ok ty val enc dec).
Notation args_json := (args_json ty val enc).
Notation args_members := (args_members ty val enc).
Notation typed := (typed ty val dec).
Notation collect := (collect ty val dec).
Notation client_params := (client_params ty val enc).
Notation server_decode := (server_decode ty val dec).
Notation decode_members := (decode_members ty val dec).
Notation presents := (presents ty val enc).
Notation read_op := (MacroApi.read_op ty).
Notation stub_request := (stub_request ty val enc).
Notation server_receive := (server_receive ty val dec).

Lemma arg_json_wf p a : arg_ok p a -> wf (arg_json p a) = true /\ (jdepth (arg_json p a) < 127)%nat.
Proof.
  destruct a as [v|]; cbn [MacroApi.arg_ok MacroApi.arg_json].
  - intros [(W & D & _) _]. split; assumption.
  - intros _. split; [reflexivity | cbn; lia].
Qed.

Lemma typed_arg_json p a : arg_ok p a -> typed p (arg_json p a) = Some a.
Proof.
  unfold MacroApi.typed. destruct a as [v|]; cbn [MacroApi.arg_ok MacroApi.arg_json].
  - intros [(_ & _ & R) N]. destruct (p_opt p).
    + specialize (N eq_refl). rewrite R. destruct (enc (p_ty p) v); try reflexivity. congruence.
    + rewrite R. reflexivity.
  - intros ->. reflexivity.
Qed.

Lemma args_ok_length ps args : args_ok ps args -> length args = length ps.
Proof. induction 1 as [|p a ps args _ _ IH]; [reflexivity | cbn [length]; rewrite IH; reflexivity]. Qed.

Lemma args_json_cons p ps a args : args_json (p :: ps) (a :: args) = arg_json p a :: args_json ps args.
Proof. reflexivity. Qed.

(* the 127 of val_ok is Builder.item_depth = depth_limit - 1: one level is left for the array / object around the
   arguments *)
Lemma array_parses ps args : args_ok ps args ->
  wf (JArr (args_json ps args)) = true /\ (jdepth (JArr (args_json ps args)) < depth_limit)%nat.
Proof.
  unfold depth_limit. induction 1 as [|p a ps args Ha _ [W D]]; [split; [reflexivity | cbn; lia]|].
  destruct (arg_json_wf p a Ha) as [W1 D1]. rewrite args_json_cons. rewrite jdepth_arr in *.
  cbn [wf forallb max_depth fold_right] in *. fold (max_depth (args_json ps args)). rewrite W1.
  split; [exact W | clear -D D1; lia].
Qed.

Theorem client_params_none k args : client_params k [] args = Builder.TOk None.
Proof. reflexivity. Qed.

Lemma client_params_array ps args : ps <> [] -> args_ok ps args ->
  client_params PArray ps args = Builder.TOk (Some (ser (JArr (args_json ps args)))).
Proof.
  intros N H. unfold MacroApi.client_params. destruct ps as [|p ps]; [congruence|].
  replace (map (fun pa => arg_text ty val enc (fst pa) (snd pa)) (combine (p :: ps) args))
    with (map (fun j => Builder.SOk (ser j)) (args_json (p :: ps) args))
    by (unfold MacroApi.args_json; rewrite map_map; reflexivity).
  unfold Builder.builder_to_rpc_params. rewrite build_positional; [reflexivity| |apply (array_parses _ _ H)].
  inversion H; subst. rewrite args_json_cons. discriminate.
Qed.

Definition names_utf8 (ps : list (param ty)) : Prop := Forall (fun p => utf8_valid (p_name p) = true) ps.

Lemma args_members_cons p ps a args :
  args_members (p :: ps) (a :: args) = (p_name p, arg_json p a) :: args_members ps args.
Proof. reflexivity. Qed.

Lemma object_parses ps args : names_utf8 ps -> args_ok ps args ->
  wf (JObj (args_members ps args)) = true /\ (jdepth (JObj (args_members ps args)) < depth_limit)%nat.
Proof.
  unfold depth_limit. intros U H. induction H as [|p a ps args Ha _ IH]; [split; [reflexivity | cbn; lia]|].
  inversion U as [|? ? Up U']; subst. destruct (IH U') as [W D]. destruct (arg_json_wf p a Ha) as [W1 D1].
  rewrite args_members_cons. rewrite jdepth_obj in *.
  cbn [wf forallb max_depth_m fold_right fst snd] in *. fold (max_depth_m (args_members ps args)). rewrite Up, W1.
  split; [exact W | clear -D D1; lia].
Qed.

Lemma client_params_map ps args : ps <> [] -> names_utf8 ps -> args_ok ps args ->
  client_params PMap ps args = Builder.TOk (Some (ser (JObj (args_members ps args)))).
Proof.
  intros N U H. unfold MacroApi.client_params. destruct ps as [|p ps]; [congruence|].
  replace (map (fun pa => (p_name (fst pa), arg_text ty val enc (fst pa) (snd pa))) (combine (p :: ps) args))
    with (map (fun kv => (fst kv, Builder.SOk (ser (snd kv)))) (args_members (p :: ps) args))
    by (unfold MacroApi.args_members; rewrite map_map; reflexivity).
  unfold Builder.builder_to_rpc_params. rewrite build_named; [reflexivity| |apply (object_parses _ _ U H)].
  inversion H; subst. rewrite args_members_cons. discriminate.
Qed.

Lemma server_decode_array ps raw vs : parse_text raw = Some (JArr vs) ->
  server_decode ps (Params.params_new (Some raw)) = collect ps (Params.spec (map read_op ps) vs).
Proof.
  intro H. unfold MacroApi.server_decode. destruct ps as [|p ps]; [reflexivity|].
  rewrite (is_object_new raw _ H). unfold decode_array. rewrite (ParamsFacts.typed_agrees raw vs _ H). reflexivity.
Qed.

Lemma decode_members_nil ms : decode_members [] ms = DOk [].
Proof.
  unfold MacroApi.decode_members. cbn [length repeat].
  replace (MacroApi.assign ty [] ms []) with (Some (@nil (option json))); [reflexivity|].
  induction ms as [|[k v] ms IH]; [reflexivity | exact IH].
Qed.

Lemma server_decode_object ps raw ms : parse_text raw = Some (JObj ms) ->
  server_decode ps (Params.params_new (Some raw)) = decode_members ps ms.
Proof.
  intro H. unfold MacroApi.server_decode. destruct ps as [|p ps]; [symmetry; apply decode_members_nil|].
  rewrite (is_object_new raw _ H). unfold decode_map. cbn [Params.params_new Params.params_text].
  rewrite (ParamsFacts.new_keeps_json raw _ H). reflexivity.
Qed.

Lemma server_decode_absent ps :
  server_decode ps (Params.params_new None) = collect ps (Params.spec (map read_op ps) []).
Proof.
  unfold MacroApi.server_decode. destruct ps as [|p ps]; [reflexivity|].
  cbn [Params.params_new Params.is_object]. unfold decode_array. rewrite ParamsFacts.read_seq_absent. reflexivity.
Qed.

Lemma spec_step_plain p v vs ops : p_opt p = false ->
  Params.spec (read_op p :: ops) (v :: vs) = Params.OVal (Params.VValue v) :: Params.spec ops vs.
Proof. intro E. unfold MacroApi.read_op. rewrite E. reflexivity. Qed.

Lemma spec_step_opt_null p vs ops : p_opt p = true ->
  Params.spec (read_op p :: ops) (JNull :: vs) = Params.OAbsent :: Params.spec ops vs.
Proof. intro E. unfold MacroApi.read_op. rewrite E. reflexivity. Qed.

Lemma spec_step_opt_val p v vs ops : p_opt p = true -> v <> JNull ->
  Params.spec (read_op p :: ops) (v :: vs) = Params.OVal (Params.VValue v) :: Params.spec ops vs.
Proof. intros E N. unfold MacroApi.read_op. rewrite E. destruct v; try reflexivity. congruence. Qed.

Lemma spec_step_end p ops : p_opt p = true ->
  Params.spec (read_op p :: ops) [] = Params.OAbsent :: Params.spec ops [].
Proof. intro E. unfold MacroApi.read_op. rewrite E. reflexivity. Qed.

Lemma collect_cons p a ps vs ops : arg_ok p a ->
  collect (p :: ps) (Params.spec (read_op p :: ops) (arg_json p a :: vs)) =
  match collect ps (Params.spec ops vs) with DOk l => DOk (a :: l) | DErr c => DErr c end.
Proof.
  intro Ha. pose proof (typed_arg_json p a Ha) as T.
  destruct (p_opt p) eqn:Eo.
  - destruct a as [v|].
    + destruct Ha as [_ Nn]. specialize (Nn Eo). cbn [MacroApi.arg_json] in *.
      rewrite (spec_step_opt_val p _ vs ops Eo Nn). cbn [MacroApi.collect]. rewrite T. reflexivity.
    + cbn [MacroApi.arg_json]. rewrite (spec_step_opt_null p vs ops Eo). reflexivity.
  - rewrite (spec_step_plain p _ vs ops Eo). cbn [MacroApi.collect]. rewrite T. reflexivity.
Qed.

Lemma collect_spec ps args extra : args_ok ps args ->
  collect ps (Params.spec (map read_op ps) (args_json ps args ++ extra)) = DOk args.
Proof.
  induction 1 as [|p a ps args Ha _ IH]; [reflexivity|].
  rewrite args_json_cons. cbn [map app]. rewrite (collect_cons p a ps _ _ Ha), IH. reflexivity.
Qed.

Lemma collect_exhausted pt : Forall (fun p => p_opt p = true) pt ->
  collect pt (Params.spec (map read_op pt) []) = DOk (repeat None (length pt)).
Proof.
  induction 1 as [|p pt Hp _ IH]; [reflexivity|]. cbn [map].
  rewrite (spec_step_end p _ Hp). cbn [MacroApi.collect length repeat]. rewrite IH. reflexivity.
Qed.

Lemma collect_spec_omitted pf af pt : args_ok pf af -> Forall (fun p => p_opt p = true) pt ->
  collect (pf ++ pt) (Params.spec (map read_op (pf ++ pt)) (args_json pf af)) = DOk (af ++ repeat None (length pt)).
Proof.
  intros H Hp. induction H as [|p a pf af Ha _ IH].
  - cbn [app]. apply collect_exhausted, Hp.
  - rewrite args_json_cons. cbn [map app]. rewrite (collect_cons p a _ _ _ Ha), IH. reflexivity.
Qed.

Notation assign := (@MacroApi.assign ty).
Notation finish := (MacroApi.finish ty val dec).
Notation finish_param := (MacroApi.finish_param ty val dec).
Notation owner_is := (@MacroApi.owner_is ty).
Notation owned := (@MacroApi.owned ty).

Lemma key_owner_lt (ps : list (param ty)) k i : key_owner ps k = Some i -> (i < length ps)%nat.
Proof.
  revert i. induction ps as [|p ps IH]; intros i H; [discriminate|]. cbn [key_owner] in H.
  destruct (has_key k p).
  - inv_some H. cbn [length]. lia.
  - destruct (key_owner ps k) as [j|]; [|discriminate]. inv_some H. specialize (IH j eq_refl). cbn [length]. lia.
Qed.

Lemma nth_set_nth_eq {A} i (x : A) l d : (i < length l)%nat -> nth i (set_nth i x l) d = x.
Proof. revert i. induction l as [|y l IH]; intros [|i] H; cbn in *; try lia; [reflexivity | apply IH; lia]. Qed.

Lemma nth_set_nth_neq {A} i j (x : A) l d : i <> j -> nth j (set_nth i x l) d = nth j l d.
Proof.
  revert i j. induction l as [|y l IH]; intros [|i] [|j] H; cbn; try reflexivity; try congruence.
  apply IH. congruence.
Qed.

Lemma length_set_nth {A} i (x : A) l : length (set_nth i x l) = length l.
Proof. revert i. induction l as [|y l IH]; intros [|i]; cbn; try reflexivity. rewrite IH. reflexivity. Qed.

Definition slot_of (ps : list (param ty)) (ms : list (bytes * json)) (i : nat) : option json :=
  match owned ps i ms with [] => None | v :: _ => Some v end.

Lemma owned_cons ps i k v ms : owned ps i ((k, v) :: ms) =
  match key_owner ps k with
  | Some j => if Nat.eqb i j then v :: owned ps i ms else owned ps i ms
  | None => owned ps i ms
  end.
Proof.
  unfold MacroApi.owned, MacroApi.owner_is. cbn [filter fst].
  destruct (key_owner ps k) as [j|]; [destruct (Nat.eqb i j)|]; reflexivity.
Qed.

(* the visit_map loop: every field receives the value of the one member it owns *)
Lemma assign_spec ps : forall ms slots,
  length slots = length ps ->
  (forall i, (length (owned ps i ms) <= 1)%nat /\ (nth i slots None <> None -> owned ps i ms = [])) ->
  exists res, assign ps ms slots = Some res /\ length res = length ps /\
    forall i, nth i res None = match nth i slots None with Some x => Some x | None => slot_of ps ms i end.
Proof.
  unfold slot_of. induction ms as [|[k v] ms IH]; intros slots L H.
  { exists slots. split; [reflexivity|]. split; [exact L|]. intro i. destruct (nth i slots None); reflexivity. }
  cbn [MacroApi.assign]. destruct (key_owner ps k) as [o|] eqn:Eo.
  - (* field o owns the member: nothing else in ms is its, and its slot is still empty *)
    destruct (H o) as [Hl Hf]. rewrite owned_cons, Eo, Nat.eqb_refl in Hl, Hf.
    assert (Hrest : owned ps o ms = []) by (destruct (owned ps o ms); [reflexivity | cbn [length] in Hl; lia]).
    destruct (nth o slots None) as [x|] eqn:Es; [specialize (Hf ltac:(discriminate)); discriminate Hf|].
    assert (Hne : forall j, j <> o -> Nat.eqb j o = false) by (intros j; apply Nat.eqb_neq).
    destruct (IH (set_nth o (Some v) slots)) as (res & R1 & R2 & R3).
    + rewrite length_set_nth. exact L.
    + intro j. destruct (Nat.eq_dec j o) as [->|Hj]; [rewrite Hrest; split; [cbn; lia | reflexivity]|].
      destruct (H j) as [Hl' Hf']. rewrite owned_cons, Eo, (Hne j Hj) in Hl', Hf'.
      rewrite (nth_set_nth_neq o j) by congruence. split; assumption.
    + exists res. split; [exact R1|]. split; [exact R2|]. intro j. rewrite R3, owned_cons, Eo.
      destruct (Nat.eq_dec j o) as [->|Hj].
      * rewrite nth_set_nth_eq, Es, Nat.eqb_refl by (rewrite L; exact (key_owner_lt ps k o Eo)). reflexivity.
      * rewrite (nth_set_nth_neq o j), (Hne j Hj) by congruence. reflexivity.
  - destruct (IH slots L) as (res & R1 & R2 & R3).
    + intro j. destruct (H j) as [Hl Hf]. rewrite owned_cons, Eo in Hl, Hf. split; assumption.
    + exists res. split; [exact R1|]. split; [exact R2|]. intro j. rewrite R3, owned_cons, Eo. reflexivity.
Qed.

Lemma finish_nth ps : forall slots args,
  length slots = length ps -> length args = length ps ->
  (forall i p, nth_error ps i = Some p -> finish_param p (nth i slots None) = Some (nth i args None)) ->
  finish ps slots = DOk args.
Proof.
  induction ps as [|p ps IH]; intros slots args Ls La H.
  - destruct args; [reflexivity | discriminate].
  - destruct slots as [|s slots]; [discriminate|]. destruct args as [|a args]; [discriminate|].
    cbn [MacroApi.finish hd tl]. pose proof (H 0%nat p eq_refl) as H0. cbn [nth] in H0. rewrite H0.
    rewrite (IH slots args); [reflexivity | cbn in Ls; lia | cbn in La; lia |].
    intros i q Hq. apply (H (S i) q Hq).
Qed.

Lemma owned_out_of_range ps i ms : nth_error ps i = None -> owned ps i ms = [].
Proof.
  intro Ep. apply nth_error_None in Ep. induction ms as [|[k v] ms IH]; [reflexivity|]. rewrite owned_cons.
  destruct (key_owner ps k) as [j|] eqn:Ej; [|exact IH]. pose proof (key_owner_lt ps k j Ej).
  replace (Nat.eqb i j) with false by (symmetry; apply Nat.eqb_neq; lia). exact IH.
Qed.

Lemma Forall2_nth_error {A B} (P : A -> B -> Prop) l l' : Forall2 P l l' ->
  forall i x, nth_error l i = Some x -> exists y, nth_error l' i = Some y /\ P x y.
Proof.
  induction 1 as [|x0 y0 l l' H0 _ IH]; intros [|i] x E; try discriminate; [|exact (IH i x E)].
  injection E as <-. exists y0. split; [reflexivity | exact H0].
Qed.

Lemma decode_members_presents ps args ms : args_ok ps args -> presents ps args ms ->
  decode_members ps ms = DOk args.
Proof.
  intros Hok Hp. unfold MacroApi.decode_members.
  assert (Hone : forall i, (length (owned ps i ms) <= 1)%nat).
  { intro i. destruct (nth_error ps i) as [p|] eqn:Ep; [|rewrite (owned_out_of_range ps i ms Ep); cbn; lia].
    destruct (Forall2_nth_error _ _ _ Hok i p Ep) as (a & Ea & _). specialize (Hp i p a Ep Ea).
    destruct a; [rewrite Hp; cbn; lia|]. destruct Hp as [-> | ->]; cbn; lia. }
  destruct (assign_spec ps ms (repeat None (length ps))) as (res & R1 & R2 & R3).
  - apply repeat_length.
  - intro i. split; [apply Hone|]. rewrite nth_repeat. congruence.
  - rewrite R1. apply finish_nth; [exact R2 | apply (args_ok_length _ _ Hok)|].
    intros i p Ep. rewrite R3, nth_repeat.
    destruct (Forall2_nth_error _ _ _ Hok i p Ep) as (a & Ea & Ha). rewrite (nth_error_nth _ _ None Ea).
    specialize (Hp i p a Ep Ea). unfold slot_of. destruct a as [v|].
    + rewrite Hp. apply (typed_arg_json p (Some v) Ha).
    + cbn [MacroApi.arg_ok] in Ha.
      destruct Hp as [-> | ->]; cbn [MacroApi.finish_param]; [|unfold MacroApi.typed]; rewrite Ha; reflexivity.
Qed.

Lemma has_key_name (p : param ty) : has_key (p_name p) p = true.
Proof. unfold has_key, keys_of. cbn [existsb]. rewrite bytes_eqb_refl. reflexivity. Qed.

Lemma has_key_in k (p : param ty) : has_key k p = true <-> In k (keys_of p).
Proof.
  unfold has_key. rewrite existsb_exists. split.
  - intros (x & Hx & E). apply bytes_eqb_eq in E. subst. exact Hx.
  - intro H. exists k. split; [exact H | apply bytes_eqb_refl].
Qed.

Lemma distinct_not_earlier (pre : list (param ty)) p post q :
  params_distinct (pre ++ p :: post) = true -> In q pre -> has_key (p_name p) q = false.
Proof.
  induction pre as [|q0 pre IH]; intros D Hin; [destruct Hin|].
  cbn [app params_distinct] in D. apply andb_true_iff in D as [D0 D1].
  destruct Hin as [->|Hin]; [|apply IH; assumption].
  destruct (has_key (p_name p) q) eqn:E; [|reflexivity]. exfalso.
  apply has_key_in in E. rewrite forallb_forall in D0. specialize (D0 _ E).
  rewrite forallb_forall in D0. specialize (D0 p). rewrite has_key_name in D0.
  assert (Hp : In p (pre ++ p :: post)) by (apply in_or_app; right; left; reflexivity).
  specialize (D0 Hp). discriminate D0.
Qed.

Lemma key_owner_app_skip (pre : list (param ty)) rest k :
  (forall q, In q pre -> has_key k q = false) ->
  key_owner (pre ++ rest) k = match key_owner rest k with Some i => Some (length pre + i)%nat | None => None end.
Proof.
  induction pre as [|q pre IH]; intro H; cbn [app length].
  - destruct (key_owner rest k); reflexivity.
  - cbn [key_owner]. rewrite (H q (or_introl eq_refl)). rewrite IH by (intros q' Hq'; apply H; right; exact Hq').
    destruct (key_owner rest k); reflexivity.
Qed.

Lemma key_owner_own (pre : list (param ty)) p post :
  params_distinct (pre ++ p :: post) = true -> key_owner (pre ++ p :: post) (p_name p) = Some (length pre).
Proof.
  intro D. rewrite key_owner_app_skip by (intros q Hq; apply (distinct_not_earlier pre p post q D Hq)).
  cbn [key_owner]. rewrite has_key_name. f_equal. lia.
Qed.

Lemma owned_canonical (rest : list (param ty)) : forall pre arest i,
  params_distinct (pre ++ rest) = true -> length arest = length rest ->
  owned (pre ++ rest) i (args_members rest arest) =
    if (i <? length pre)%nat then []
    else match nth_error rest (i - length pre), nth_error arest (i - length pre) with
         | Some p, Some a => [arg_json p a]
         | _, _ => []
         end.
Proof.
  induction rest as [|p rest IH]; intros pre arest i D L.
  - destruct arest; [|discriminate]. unfold MacroApi.owned, MacroApi.args_members. cbn [combine map filter].
    destruct (i <? length pre)%nat; [reflexivity|]. destruct (i - length pre)%nat; reflexivity.
  - destruct arest as [|a arest]; [discriminate|]. rewrite args_members_cons.
    unfold MacroApi.owned. cbn [filter]. unfold MacroApi.owner_is at 1. cbn [fst].
    rewrite (key_owner_own pre p rest D).
    assert (D' : params_distinct ((pre ++ [p]) ++ rest) = true) by (rewrite <- app_assoc; exact D).
    assert (L' : length arest = length rest) by (cbn in L; lia).
    pose proof (IH (pre ++ [p]) arest i D' L') as Hi. rewrite <- app_assoc in Hi. cbn [app] in Hi.
    unfold MacroApi.owned in Hi. rewrite app_length in Hi. cbn [length] in Hi.
    destruct (Nat.eqb i (length pre)) eqn:Ei.
    + apply Nat.eqb_eq in Ei. subst i. cbn [map snd]. rewrite Hi.
      replace (length pre <? length pre + 1)%nat with true by (symmetry; apply Nat.ltb_lt; lia).
      replace (length pre <? length pre)%nat with false by (symmetry; apply Nat.ltb_ge; lia).
      rewrite Nat.sub_diag. reflexivity.
    + apply Nat.eqb_neq in Ei. rewrite Hi.
      destruct (i <? length pre)%nat eqn:E1.
      * apply Nat.ltb_lt in E1. replace (i <? length pre + 1)%nat with true by (symmetry; apply Nat.ltb_lt; lia). reflexivity.
      * apply Nat.ltb_ge in E1. replace (i <? length pre + 1)%nat with false by (symmetry; apply Nat.ltb_ge; lia).
        replace (i - length pre)%nat with (S (i - (length pre + 1)))%nat by lia. reflexivity.
Qed.

Lemma canonical_presents ps args : params_distinct ps = true -> args_ok ps args ->
  presents ps args (args_members ps args).
Proof.
  intros D H i p a Ep Ea. pose proof (owned_canonical ps [] args i D (args_ok_length _ _ H)) as E.
  cbn [app length] in E. rewrite Nat.sub_0_r in E. change (i <? 0)%nat with false in E. cbv iota in E.
  rewrite Ep, Ea in E. rewrite E. destruct a; [reflexivity | right].
  reflexivity.
Qed.

(* what the stub encodes, the generated server closure decodes to the same tuple; the text is a payload the wire
   layer carries unchanged *)
Lemma stub_params_decode k ps args :
  args_ok ps args -> (k = PMap -> params_distinct ps = true /\ names_utf8 ps) ->
  exists p, client_params k ps args = Builder.TOk p /\ server_decode ps (Params.params_new p) = DOk args /\
            match p with Some t => WireFacts.raw_payload t /\ WireFacts.nonnull t | None => True end.
Proof.
  intros H Hk. destruct ps as [|p0 ps0] eqn:Eps.
  { inversion H; subst. exists None. repeat split. }
  rewrite <- Eps in *. assert (N : ps <> []) by (rewrite Eps; discriminate). destruct k.
  - destruct (array_parses ps args H) as [W D].
    exists (Some (ser (JArr (args_json ps args)))). split; [apply client_params_array; assumption|]. split.
    + rewrite (server_decode_array ps _ (args_json ps args) (parse_text_ser _ W D)).
      rewrite <- (app_nil_r (args_json ps args)). apply collect_spec, H.
    + split; [apply WireFacts.raw_payload_ser, W | reflexivity].
  - destruct (Hk eq_refl) as [Dk U]. destruct (object_parses ps args U H) as [W D].
    exists (Some (ser (JObj (args_members ps args)))). split; [apply client_params_map; assumption|]. split.
    + rewrite (server_decode_object ps _ (args_members ps args) (parse_text_ser _ W D)).
      apply decode_members_presents; [exact H | apply canonical_presents; assumption].
    + split; [apply WireFacts.raw_payload_ser, W | reflexivity].
Qed.

Lemma positional_any_text ps args raw extra : args_ok ps args ->
  parse_text raw = Some (JArr (args_json ps args ++ extra)) ->
  server_decode ps (Params.params_new (Some raw)) = DOk args.
Proof. intros H P. rewrite (server_decode_array ps raw _ P). apply collect_spec, H. Qed.

Lemma request_reaches (a : api ty) (id : Wire.id) name k ps args b :
  WireFacts.wf_id id -> utf8_valid name = true ->
  args_ok ps args -> (k = PMap -> params_distinct ps = true /\ names_utf8 ps) ->
  resolve a name = Some b -> params_of a b = Some ps ->
  exists text, stub_request id name k ps args = Some text /\ server_receive a text = RCall b args.
Proof.
  intros Wi Un H Hk Hr Hp. destruct (stub_params_decode k ps args H Hk) as (p & Hc & Hd & Hw).
  unfold MacroApi.stub_request. rewrite Hc. eexists. split; [reflexivity|].
  unfold MacroApi.server_receive. rewrite WireFacts.request_roundtrip; cbn [Wire.rq_id Wire.rq_method Wire.rq_params]; try assumption.
  rewrite Hr, Hp, Hd. reflexivity.
Qed.

Lemma params_of_method (a : api ty) i m : nth_error (a_methods a) i = Some m ->
  params_of a (method_binding i m) = Some (m_params m).
Proof.
  intro H. unfold params_of, method_binding, nth_method, method_tag. cbn [Registry.b_kind Registry.b_tag].
  rewrite Nat2N.id, H. destruct (m_kind m); reflexivity.
Qed.

Lemma params_of_sub (a : api ty) j s : nth_error (a_subs a) j = Some s ->
  params_of a (sub_binding a j) = Some (s_params s).
Proof.
  intro H. unfold params_of, sub_binding, nth_sub, sub_tag. cbn [Registry.b_kind Registry.b_tag].
  rewrite Nat2N.id. replace (length (a_methods a) + j <? length (a_methods a))%nat with false by (symmetry; apply Nat.ltb_ge; lia).
  replace (length (a_methods a) + j - length (a_methods a))%nat with j by lia. rewrite H. reflexivity.
Qed.

End Codec.

Fixpoint distinctb (l : list bytes) : bool :=
  match l with [] => true | x :: r => negb (existsb (bytes_eqb x) r) && distinctb r end.

Lemma distinctb_nodup l : distinctb l = true -> NoDup l.
Proof.
  induction l as [|x r IH]; intro H; [constructor|]. cbn [distinctb] in H. apply andb_true_iff in H as [H1 H2].
  constructor; [|apply IH, H2]. intro Hin. apply negb_true_iff in H1.
  assert (E : existsb (bytes_eqb x) r = true) by (apply existsb_exists; exists x; split; [exact Hin | apply bytes_eqb_refl]).
  congruence.
Qed.
