(* Facts about the bounded sink queue (Model/SinkQueue.v), for ALL histories: induction over the list of operations
   from any state that satisfies the invariant; `init c` satisfies it.
   The invariant ties the model's `held` (messages handed back) to the handler's own book-keeping `g` (slot -> the
   payload it produced for that message), which is computed from the trace alone (SinkQueue.gstep):
       a held message is  Complete (item x)               -- came back out of the channel layer, already wrapped
                     or   NeedsData (payload x)           -- came back from the is_closed() check, only once closed
   and in both cases sub_message_to_json turns it into `item x`, the notification of payload x, exactly once. *)
From JV Require Import Base.Bytes Base.Dec Base.Utf8 Json.Json Json.JsonSer Json.JsonWf Model.Wire Model.SinkQueue.
From JV Require Import Proofs.WireFacts.
Local Arguments N.eqb : simpl never.
Local Arguments ser_sub_notif : simpl never.
Local Arguments print_N : simpl never.

Lemma afind_in_snd {A} k (l : list (N * A)) v : afind k l = Some v -> In v (map snd l).
Proof.
  induction l as [|[k' v'] t IH]; cbn; [discriminate|].
  destruct (N.eqb k k'); intro H; [inversion H; auto | right; auto].
Qed.

Lemma aremove_in {A} k (l : list (N * A)) e : In e (aremove k l) -> In e l.
Proof.
  induction l as [|[k' v'] t IH]; cbn; [tauto|].
  destruct (N.eqb k k'); cbn; intuition.
Qed.

Lemma aremove_in_snd {A} k (l : list (N * A)) v : In v (map snd (aremove k l)) -> In v (map snd l).
Proof. intro H. apply in_map_iff in H. destruct H as [e [<- He]]. exact (in_map snd _ _ (aremove_in k l e He)). Qed.

Lemma aput_in_snd {A} k (x : A) l v : In v (map snd (aput k x l)) -> v = x \/ In v (map snd l).
Proof. cbn. intros [H | H]; [left; auto | right; eapply aremove_in_snd; eauto]. Qed.

Lemma Forall2_in_l {A B} (R : A -> B -> Prop) l1 l2 a : Forall2 R l1 l2 -> In a l1 -> exists b, In b l2 /\ R a b.
Proof.
  induction 1 as [|x y l1 l2 HR HF IH]; cbn; [tauto|].
  intros [-> | Hin]; [exists y; auto|].
  destruct (IH Hin) as [b [Hb HRb]]. exists b; auto.
Qed.

Section Facts.
Variables (sid : subid) (me : bytes).

Notation item := (SinkQueue.item sid me).
Notation to_json := (SinkQueue.to_json sid me).
Notation step := (SinkQueue.step sid me).
Notation run := (SinkQueue.run sid me).

Lemma to_json_complete m : to_json (Complete (to_json m)) = to_json m.
Proof. reflexivity. Qed.

Definition hrel (c : bool) (m : smsg) (x : N) : Prop :=
  m = Complete (item x) \/ (c = true /\ m = NeedsData (payload x)).

Lemma hrel_to_json c m x : hrel c m x -> to_json m = item x.
Proof. intros [-> | [_ ->]]; reflexivity. Qed.

Lemma hrel_mono c c' m x : (c = true -> c' = true) -> hrel c m x -> hrel c' m x.
Proof. intros Hc [H | [H1 H2]]; [left; auto | right; auto]. Qed.

Definition erel (c : bool) (a : N * smsg) (b : N * N) : Prop := fst a = fst b /\ hrel c (snd a) (snd b).
Definition arel (c : bool) (h : list (N * smsg)) (g : list (N * N)) : Prop := Forall2 (erel c) h g.

Lemma arel_mono c c' h g : (c = true -> c' = true) -> arel c h g -> arel c' h g.
Proof.
  intros Hc H. induction H as [|a b h g [Hk Hr] HF IH]; constructor; auto.
  split; auto. eapply hrel_mono; eauto.
Qed.

Lemma arel_remove c k h g : arel c h g -> arel c (aremove k h) (aremove k g).
Proof.
  induction 1 as [|[k1 m] [k2 x] h g [Hk Hr] HF IH]; cbn; [constructor|].
  cbn in Hk; subst k2. destruct (N.eqb k k1); auto. constructor; auto. split; auto.
Qed.

Lemma arel_put c k m x h g : hrel c m x -> arel c h g -> arel c (aput k m h) (aput k x g).
Proof.
  intros Hr H. constructor; [split; auto|]. apply arel_remove; auto.
Qed.

Lemma arel_find c k h g : arel c h g ->
  match afind k h, afind k g with
  | Some m, Some x => hrel c m x
  | None, None => True
  | _, _ => False
  end.
Proof.
  induction 1 as [|[k1 m] [k2 x] h g [Hk Hr] HF IH]; cbn; auto.
  cbn in Hk; subst k2. destruct (N.eqb k k1); auto.
Qed.

(* what one operation, or a history, does to a sink s whose held messages are booked in g:
   s' = the sink afterwards, out = frames the receiver took, g' = the book afterwards, oks = payloads reported Ok *)
Record Post (s s' : sq) (out : list bytes) (g' : list (N * N)) (oks : list N) : Prop := mkPost {
  p_held : arel (closed s') (held s') g';
  p_fifo : out ++ q s' = q s ++ map item oks;
  p_cap : cap s' = cap s;
  p_closed : closed s = true -> closed s' = true;
  p_len : length (q s) <= cap s -> length (q s') <= cap s
}.

Lemma Post_refl s g : arel (closed s) (held s) g -> Post s s [] g [].
Proof. intro Ha. constructor; auto. cbn. rewrite app_nil_r. reflexivity. Qed.

Lemma Post_trans s s1 s2 o1 o2 g1 g2 k1 k2 :
  Post s s1 o1 g1 k1 -> Post s1 s2 o2 g2 k2 -> Post s s2 (o1 ++ o2) g2 (k1 ++ k2).
Proof.
  intros [_ Q1 C1 L1 N1] [A2 Q2 C2 L2 N2]. constructor.
  - exact A2.
  - rewrite <- app_assoc, Q2, app_assoc, Q1, map_app, app_assoc. reflexivity.
  - rewrite C2. exact C1.
  - intro H. exact (L2 (L1 H)).
  - intro H. rewrite <- C1. apply N2. rewrite C1. exact (N1 H).
Qed.

Lemma Post_src s0 s s' out g' oks :
  q s0 = q s -> cap s0 = cap s -> closed s0 = closed s -> Post s0 s' out g' oks -> Post s s' out g' oks.
Proof. intros Eq Ec El [A Q C L N]. rewrite Eq, Ec, El in *. constructor; assumption. Qed.

Lemma failed_not_ok r : failed r = true -> r <> ROk.
Proof. destruct r; cbn; congruence. Qed.

Lemma gstep_send_ok p k x g : gstep g (OSend p k x) ROk = (g, [x]).
Proof. reflexivity. Qed.
Lemma gstep_send_failed p k x g r : failed r = true -> gstep g (OSend p k x) r = (aput k x g, []).
Proof. destruct r; cbn; congruence. Qed.
Lemma gstep_resend p k x g r : afind k g = Some x -> gstep g (OResend p k) r = gstep (aremove k g) (OSend p k x) r.
Proof. intro H. cbn. rewrite H. reflexivity. Qed.

(* one call of the sink with a message m that stands for payload x: a held one, or the fresh one; what is handed back
   goes to slot k, booked as a send of x *)
Lemma sink_send_post p s m x k g :
  arel (closed s) (held s) g -> hrel (closed s) m x \/ m = fresh x ->
  let sr := settle k (sink_send p sid me s m) in
  let gl := gstep g (OSend p k x) (snd sr) in
  Post s (fst sr) (out_frames (snd sr)) (fst gl) (snd gl).
Proof.
  intros Ha Hm.
  assert (Hj : to_json m = item x) by (destruct Hm as [Hm | ->]; [exact (hrel_to_json _ _ _ Hm) | reflexivity]).
  unfold sink_send. destruct (closed s) eqn:Hc.
  - (* refused by is_closed(): handed back as it was given *)
    constructor; cbn; rewrite ?Hc, ?app_nil_r; auto.
    apply arel_put; [|exact Ha]. destruct Hm as [Hm | ->]; [exact Hm | right; auto].
  - rewrite Hj. destruct (room s) eqn:Hroom.
    + constructor; cbn; rewrite ?Hc; auto. intros _. unfold room in Hroom. apply Nat.ltb_lt in Hroom. rewrite app_length. cbn. lia.
    + (* no room: what comes back out of the channel is the wrapped text *)
      destruct p; constructor; cbn; rewrite ?Hc, ?app_nil_r; auto; apply arel_put; auto; left; reflexivity.
Qed.

Lemma sink_step_inv s g o : arel (closed s) (held s) g ->
  let sr := step s o in
  let gl := gstep g o (snd sr) in
  Post s (fst sr) (out_frames (snd sr)) (fst gl) (snd gl).
Proof.
  intro Ha. destruct o as [p k x | p k | |]; cbn [SinkQueue.step].
  - exact (sink_send_post p s (fresh x) x k g Ha (or_intror eq_refl)).
  - (* the held message is sent from the sink with slot k emptied, the book emptied likewise *)
    pose proof (arel_find (closed s) k (held s) g Ha) as Hf.
    destruct (afind k (held s)) as [m|]; destruct (afind k g) as [x|] eqn:Hg; try contradiction.
    + cbv zeta. rewrite (gstep_resend p k x g _ Hg). set (s0 := mkSq (cap s) (q s) (closed s) (aremove k (held s))).
      apply (Post_src s0); try reflexivity.
      exact (sink_send_post p s0 m x k (aremove k g) (arel_remove _ k _ _ Ha) (or_introl Hf)).
    + cbn [gstep snd]. rewrite Hg. apply Post_refl, Ha.
  - destruct (q s) as [|f q'] eqn:Hq.
    + assert (E : out_frames (if closed s then REnd else REmpty) = []) by (destruct (closed s); reflexivity).
      cbn [fst snd gstep]. rewrite E. apply Post_refl, Ha.
    + constructor; cbn; rewrite ?Hq, ?app_nil_r; auto. cbn. lia.
  - constructor; cbn; rewrite ?app_nil_r; auto. eapply arel_mono; [|exact Ha]. auto.
Qed.

Lemma sink_run_inv ops : forall s g, arel (closed s) (held s) g ->
  let r := run s ops in
  let gl := glog g (snd r) in
  Post s (fst r) (received (snd r)) (fst gl) (snd gl).
Proof.
  induction ops as [|o ops IH]; intros s g Ha; [apply Post_refl, Ha|].
  pose proof (sink_step_inv s g o Ha) as P1. exact (Post_trans _ _ _ _ _ _ _ _ _ P1 (IH _ _ (p_held _ _ _ _ _ P1))).
Qed.

Lemma sink_run_init c ops :
  let r := run (init c) ops in Post (init c) (fst r) (received (snd r)) (fst (glog [] (snd r))) (oklog (snd r)).
Proof. apply sink_run_inv. constructor. Qed.

Lemma run_ops ops : forall s, map fst (snd (run s ops)) = ops.
Proof. induction ops as [|o ops IH]; intro s; cbn; [reflexivity | rewrite IH; reflexivity]. Qed.

Lemma sink_run_app a : forall s b, run s (a ++ b) = (fst (run (fst (run s a)) b), snd (run s a) ++ snd (run (fst (run s a)) b)).
Proof.
  induction a as [|o a IH]; intros s b; cbn.
  - destruct (run s b); reflexivity.
  - rewrite IH. reflexivity.
Qed.

(* everything the handler's book and the Ok-log mention was produced by a fresh send of the history *)
Lemma gstep_send_produced g p k x r y :
  In y (snd (gstep g (OSend p k x) r)) \/ In y (map snd (fst (gstep g (OSend p k x) r))) -> In y (map snd g) \/ y = x.
Proof.
  destruct (failed r) eqn:F.
  - rewrite (gstep_send_failed p k x g r F). intros [[] | H]. apply aput_in_snd in H. tauto.
  - destruct r; try discriminate F; cbn; intuition auto.
Qed.

Lemma gstep_produced g o r y :
  In y (snd (gstep g o r)) \/ In y (map snd (fst (gstep g o r))) -> In y (map snd g) \/ In y (produced [o]).
Proof.
  destruct o as [p k x | p k | |]; try (cbn; tauto).
  - intro H. apply gstep_send_produced in H. cbn. intuition auto.
  - destruct (afind k g) as [x|] eqn:Hg; [|cbn; rewrite Hg; cbn; tauto].
    rewrite (gstep_resend p k x g r Hg). intro H. apply gstep_send_produced in H. left.
    destruct H as [H | ->]; [exact (aremove_in_snd _ _ _ H) | exact (afind_in_snd _ _ _ Hg)].
Qed.

Lemma produced_cons o ops : produced (o :: ops) = produced [o] ++ produced ops.
Proof. unfold produced. cbn. rewrite app_nil_r. reflexivity. Qed.

Lemma glog_produced tr : forall g y,
  In y (snd (glog g tr)) \/ In y (map snd (fst (glog g tr))) -> In y (map snd g) \/ In y (produced (map fst tr)).
Proof.
  induction tr as [|[o r] tr IH]; intros g y; cbn [glog map fst snd]; [cbn; tauto|].
  cbv zeta. cbn [fst snd]. rewrite produced_cons, !in_app_iff.
  pose proof (IH (fst (gstep g o r)) y). pose proof (gstep_produced g o r y). tauto.
Qed.

Lemma run_produced c ops y :
  In y (oklog (snd (run (init c) ops))) \/ In y (map snd (fst (glog [] (snd (run (init c) ops))))) -> In y (produced ops).
Proof. intro H. apply glog_produced in H. rewrite run_ops in H. destruct H as [[] | H]. exact H. Qed.

Lemma sent_produced c ops f :
  let r := run (init c) ops in
  In f (received (snd r) ++ q (fst r)) -> exists x, In x (produced ops) /\ f = item x.
Proof.
  intros r Hf. unfold r in Hf. rewrite (p_fifo _ _ _ _ _ (sink_run_init c ops)) in Hf.
  apply in_map_iff in Hf. destruct Hf as [x [<- Hx]]. exists x. split; [|reflexivity].
  apply (run_produced c). left. exact Hx.
Qed.

Lemma held_produced c ops k m :
  let r := run (init c) ops in
  In (k, m) (held (fst r)) -> exists x, In x (produced ops) /\ hrel (closed (fst r)) m x.
Proof.
  intros r Hin. destruct (Forall2_in_l _ _ _ _ (p_held _ _ _ _ _ (sink_run_init c ops)) Hin) as [[k' x] [Hg [_ Hr]]].
  exists x. split; [|exact Hr]. apply (run_produced c). right. exact (in_map snd _ _ Hg).
Qed.

Lemma send_not_ok p s m k :
  let sr := settle k (sink_send p sid me s m) in
  snd sr <> ROk -> q (fst sr) = q s /\ closed (fst sr) = closed s /\ cap (fst sr) = cap s.
Proof.
  unfold sink_send. destruct (closed s) eqn:Hc; [cbn; auto|]. destruct (room s); [cbn; congruence|]. destruct p; cbn; auto.
Qed.

Lemma failed_send_changes_only_held s o :
  is_send o = true -> snd (step s o) <> ROk ->
  q (fst (step s o)) = q s /\ closed (fst (step s o)) = closed s /\ cap (fst (step s o)) = cap s.
Proof.
  destruct o as [p k x | p k | |]; cbn [is_send SinkQueue.step]; try discriminate; intros _.
  - apply send_not_ok.
  - destruct (afind k (held s)) as [m|]; [|cbn; auto].
    exact (send_not_ok p (mkSq (cap s) (q s) (closed s) (aremove k (held s))) m k).
Qed.

Lemma bounded :
  (forall c ops, length (q (fst (run (init c) ops))) <= c)
  /\ (forall s o, is_send o = true -> snd (step s o) <> ROk ->
        q (fst (step s o)) = q s /\ closed (fst (step s o)) = closed s /\ cap (fst (step s o)) = cap s).
Proof.
  split; [|exact failed_send_changes_only_held].
  intros c ops. apply (p_len _ _ _ _ _ (sink_run_init c ops)). cbn. lia.
Qed.

Lemma closed_step s o : closed s = true ->
  snd (step s o) <> ROk /\ out_frames (snd (step s o)) ++ q (fst (step s o)) = q s /\ closed (fst (step s o)) = true.
Proof.
  intro Hc. destruct o as [p k x | p k | |]; cbn [SinkQueue.step].
  - unfold sink_send. rewrite Hc. cbn. repeat split; auto; congruence.
  - destruct (afind k (held s)); [|cbn; repeat split; auto; congruence].
    unfold sink_send. cbn [closed]. rewrite Hc. cbn. repeat split; auto; congruence.
  - destruct (q s) eqn:Hq; [rewrite Hc; cbn; rewrite ?Hq; repeat split; auto; congruence | cbn; repeat split; auto; congruence].
  - cbn. repeat split; auto; congruence.
Qed.

Lemma closed_run ops : forall s, closed s = true ->
  (forall o, ~ In (o, ROk) (snd (run s ops))) /\ q s = received (snd (run s ops)) ++ q (fst (run s ops))
  /\ closed (fst (run s ops)) = true.
Proof.
  induction ops as [|o ops IH]; intros s Hc; cbn [SinkQueue.run]; cbv zeta; cbn [fst snd].
  - cbn. auto.
  - destruct (closed_step s o Hc) as (Hr & Hq & Hc1). destruct (IH _ Hc1) as (Hno & Hq2 & Hc2).
    split; [|split; auto].
    + intros o' [H | H]; [inversion H; congruence | exact (Hno o' H)].
    + unfold received in *. cbn [flat_map snd]. rewrite <- app_assoc, <- Hq2. auto.
Qed.

(* the handler's payload: a u64 printed in decimal is one complete JSON value *)
Lemma payload_raw x : (x <= u64_max)%N -> raw_payload (payload x).
Proof.
  intro Hx. change (payload x) with (ser (JNum (NPos x))). apply raw_payload_ser.
  cbn [wf wf_num]. apply N.leb_le, Hx.
Qed.

(* any id the IdProvider can return (a u64 or a Rust string, whatever characters it holds) and the notification
   method come back out of the notification text exactly (WireFacts.sub_notif_roundtrip) *)
Lemma item_parses x : wf_subid sid -> utf8_valid me = true -> (x <= u64_max)%N ->
  parse_sub_notif k_result (item x) = Some (me, sid, payload x).
Proof.
  intros Ws Um Hx. unfold SinkQueue.item, wrap.
  exact (sub_notif_roundtrip me sid false (payload x) Um Ws (payload_raw x Hx)).
Qed.

End Facts.
