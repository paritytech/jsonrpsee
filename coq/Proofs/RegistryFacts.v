(* C13 -- facts about Model/Registry.v.
   Layers: association lists as hash maps; the Arc heap and make_mut; a value-level semantics `vstep` on
   `list methods` that the heap-level `step` refines through `view`; the abstract finite-map specification
   (names -> handler) that `vstep` satisfies in turn.  The theorems of Props/C13.v are these facts read at a state
   reached from `init`, where the heap is well formed and names are unique (`registry_reach_inv`). *)
From Coq Require Import List NArith Bool Lia Arith PeanoNat Permutation.
From JV Require Import Base.Bytes Model.Registry.
Import ListNotations.

Lemma beq_false a b : bytes_eqb a b = false <-> a <> b.
Proof.
  split; intro H.
  - intro E. apply bytes_eqb_eq in E. congruence.
  - destruct (bytes_eqb a b) eqn:E; [apply bytes_eqb_eq in E; contradiction | reflexivity].
Qed.

Ltac beq a b :=
  let E := fresh "E" in
  destruct (bytes_eqb a b) eqn:E; [apply bytes_eqb_eq in E | apply beq_false in E].

Notation keys ms := (map fst ms) (only parsing).

Lemma lookup_none_iff n ms : lookup n ms = None <-> ~ In n (keys ms).
Proof.
  induction ms as [|[k v] r IH]; cbn; [tauto|].
  beq n k.
  - split; [discriminate | intro H; exfalso; apply H; left; congruence].
  - rewrite IH. split; intro H; [intros [H1|H1]; [congruence | tauto] | tauto].
Qed.

Lemma lookup_some_in n b ms : lookup n ms = Some b -> In (n, b) ms.
Proof.
  induction ms as [|[k v] r IH]; cbn; [discriminate|].
  beq n k; intro H; [inversion H; subst; left; reflexivity | right; apply IH, H].
Qed.

Lemma in_lookup_nodup n b ms : NoDup (keys ms) -> In (n, b) ms -> lookup n ms = Some b.
Proof.
  induction ms as [|[k v] r IH]; cbn; intros ND H; [tauto|].
  inversion ND as [|? ? Hk ND']; subst.
  destruct H as [H|H].
  - inversion H; subst. rewrite bytes_eqb_refl. reflexivity.
  - beq n k; [subst; exfalso; apply Hk; apply (in_map fst) in H; exact H | apply IH; assumption].
Qed.

Lemma contains_key_true n ms : contains_key n ms = true <-> lookup n ms <> None.
Proof. unfold contains_key. destruct (lookup n ms); split; congruence. Qed.

Lemma contains_key_false n ms : contains_key n ms = false <-> lookup n ms = None.
Proof. unfold contains_key. destruct (lookup n ms); split; congruence. Qed.

Lemma lookup_app n a b : lookup n (a ++ b) = match lookup n a with Some x => Some x | None => lookup n b end.
Proof.
  induction a as [|[k v] r IH]; cbn; [reflexivity|].
  beq n k; [reflexivity | exact IH].
Qed.

Lemma lookup_hm_insert k n b ms : lookup k (hm_insert n b ms) = if bytes_eqb k n then Some b else lookup k ms.
Proof.
  induction ms as [|[k0 v] r IH]; cbn.
  - beq k n; reflexivity.
  - beq n k0; cbn.
    + subst k0. beq k n; reflexivity.
    + rewrite IH. beq k k0; [subst; beq k0 n; [congruence | reflexivity] | reflexivity].
Qed.

Lemma hm_insert_fresh n b ms : lookup n ms = None -> hm_insert n b ms = ms ++ [(n, b)].
Proof.
  induction ms as [|[k v] r IH]; cbn; [reflexivity|].
  beq n k; [discriminate | intro H; rewrite IH by exact H; reflexivity].
Qed.

Lemma keys_hm_insert n b ms : keys (hm_insert n b ms) = if contains_key n ms then keys ms else keys ms ++ [n].
Proof.
  unfold contains_key. induction ms as [|[k v] r IH]; cbn; [reflexivity|].
  beq n k; cbn; [reflexivity|].
  rewrite IH. destruct (lookup n r); reflexivity.
Qed.

Lemma nodup_hm_insert n b ms : NoDup (keys ms) -> NoDup (keys (hm_insert n b ms)).
Proof.
  intro ND. rewrite keys_hm_insert. destruct (contains_key n ms) eqn:E; [exact ND|].
  apply contains_key_false, lookup_none_iff in E.
  apply Permutation_NoDup with (l := n :: keys ms); [apply Permutation_cons_append | constructor; assumption].
Qed.

Lemma lookup_hm_remove k n ms : lookup k (hm_remove n ms) = if bytes_eqb k n then None else lookup k ms.
Proof.
  induction ms as [|[k0 v] r IH]; cbn.
  - destruct (bytes_eqb k n); reflexivity.
  - beq n k0; cbn.
    + subst k0. rewrite IH. beq k n; reflexivity.
    + rewrite IH. beq k k0; [subst; beq k0 n; [congruence | reflexivity] | reflexivity].
Qed.

Lemma keys_hm_remove_incl n ms k : In k (keys (hm_remove n ms)) -> In k (keys ms).
Proof.
  induction ms as [|[k0 v] r IH]; cbn; [tauto|].
  beq n k0; cbn; [tauto | intros [H|H]; [left; exact H | right; apply IH, H]].
Qed.

Lemma nodup_hm_remove n ms : NoDup (keys ms) -> NoDup (keys (hm_remove n ms)).
Proof.
  induction ms as [|[k v] r IH]; cbn; intro ND; [constructor|].
  inversion ND as [|? ? Hk ND']; subst.
  beq n k; cbn; [apply IH, ND'|].
  constructor; [intro H; apply Hk, (keys_hm_remove_incl n), H | apply IH, ND'].
Qed.

Lemma hm_remove_absent n ms : lookup n ms = None -> hm_remove n ms = ms.
Proof.
  induction ms as [|[k v] r IH]; cbn; [reflexivity|].
  beq n k; [discriminate | intro H; rewrite IH by exact H; reflexivity].
Qed.

Lemma first_clash_none ms names : first_clash ms names = None <-> (forall n, In n names -> lookup n ms = None).
Proof.
  induction names as [|n r IH]; cbn; [tauto|].
  destruct (contains_key n ms) eqn:E.
  - apply contains_key_true in E. split; [discriminate | intro H; exfalso; apply E, H; left; reflexivity].
  - apply contains_key_false in E. rewrite IH. split; intros H k; [intros [<-|Hk]; auto | intro Hk; apply H; right; exact Hk].
Qed.

Lemma first_clash_some ms names n : first_clash ms names = Some n -> In n names /\ lookup n ms <> None.
Proof.
  induction names as [|k r IH]; cbn; [discriminate|].
  destruct (contains_key k ms) eqn:E.
  - intro H; inversion H; subst. split; [left; reflexivity | apply contains_key_true, E].
  - intro H. destruct (IH H). split; [right|]; assumption.
Qed.

Lemma hm_extend_disjoint other : forall ms,
  (forall n, In n (keys other) -> lookup n ms = None) -> NoDup (keys other) -> hm_extend ms other = ms ++ other.
Proof.
  unfold hm_extend. induction other as [|[k v] r IH]; intros ms Hd ND; cbn.
  - rewrite app_nil_r. reflexivity.
  - inversion ND as [|? ? Hk ND']; subst.
    rewrite hm_insert_fresh by (apply Hd; left; reflexivity).
    rewrite IH; [rewrite <- app_assoc; reflexivity | | exact ND'].
    intros n Hn. rewrite lookup_app, Hd by (right; exact Hn). cbn.
    beq n k; [subst; contradiction | reflexivity].
Qed.

Lemma nodup_hm_extend other : forall ms, NoDup (keys ms) -> NoDup (keys (hm_extend ms other)).
Proof.
  unfold hm_extend. induction other as [|[k v] r IH]; intros ms ND; cbn; [exact ND|].
  apply IH, nodup_hm_insert, ND.
Qed.

Lemma lookup_hm_extend k other : forall ms,
  lookup k (hm_extend ms other) = match lookup k (rev other) with Some b => Some b | None => lookup k ms end.
Proof.
  unfold hm_extend. induction other as [|[k0 v] r IH]; intro ms; cbn; [reflexivity|].
  rewrite IH, lookup_app, lookup_hm_insert. cbn.
  destruct (lookup k (rev r)); [reflexivity|]. beq k k0; reflexivity.
Qed.

Lemma lookup_rev_nodup k ms : NoDup (keys ms) -> lookup k (rev ms) = lookup k ms.
Proof.
  intro ND. destruct (lookup k ms) eqn:E.
  - apply in_lookup_nodup.
    + rewrite map_rev. apply NoDup_rev, ND.
    + apply in_rev. rewrite rev_involutive. apply lookup_some_in, E.
  - apply lookup_none_iff. apply lookup_none_iff in E. rewrite map_rev, <- in_rev. exact E.
Qed.

Lemma ins_sorted_perm e l : Permutation (ins_sorted e l) (e :: l).
Proof.
  induction l as [|x r IH]; cbn; [reflexivity|].
  destruct (bytes_leb (fst e) (fst x)); [reflexivity|].
  rewrite IH. apply perm_swap.
Qed.

Lemma sort_methods_perm ms : Permutation (sort_methods ms) ms.
Proof.
  induction ms as [|e r IH]; cbn; [reflexivity|].
  rewrite ins_sorted_perm, IH. reflexivity.
Qed.

Definition wf_heap (s : state) : Prop := Forall (fun c => c < length (heap s)) (mods s).

Lemma length_upd {A} i (f : A -> A) l : length (upd i f l) = length l.
Proof. revert i; induction l as [|x r IH]; intros [|i]; cbn; auto. Qed.

Lemma nth_upd_eq {A} i (f : A -> A) l d : i < length l -> nth i (upd i f l) d = f (nth i l d).
Proof. revert i; induction l as [|x r IH]; intros [|i]; cbn; intro H; try lia; auto. apply IH; lia. Qed.

Lemma nth_upd_neq {A} i k (f : A -> A) l d : k <> i -> nth k (upd i f l) d = nth k l d.
Proof. revert i k; induction l as [|x r IH]; intros [|i] [|k]; cbn; intro H; try congruence; auto. Qed.

Lemma upd_upd_const {A} i (x y : A) l : upd i (fun _ => y) (upd i (fun _ => x) l) = upd i (fun _ => y) l.
Proof. revert i; induction l as [|z r IH]; intros [|i]; cbn; auto. rewrite IH; reflexivity. Qed.

Lemma upd_same {A} i (x : A) l d : nth i l d = x -> i < length l -> upd i (fun _ => x) l = l.
Proof.
  revert i; induction l as [|z r IH]; intros [|i]; cbn; intros H L; try lia; try congruence.
  rewrite IH; [reflexivity | exact H | lia].
Qed.

Lemma upd_fun {A} i (f : A -> A) l d : upd i (fun _ => f (nth i l d)) l = upd i f l.
Proof. revert i; induction l as [|y r IH]; intros [|i]; cbn; auto. f_equal. apply IH. Qed.

Lemma upd_out {A} i (f : A -> A) l : length l <= i -> upd i f l = l.
Proof. revert i; induction l as [|z r IH]; intros [|i]; cbn; intro H; try lia; auto. rewrite IH; [reflexivity | lia]. Qed.

Lemma nth_view s k : k < nmods s -> nth k (view s) [] = cell s (cell_of s k).
Proof.
  intro H. unfold view, cell_of.
  rewrite (nth_indep _ [] (cell s 0)) by (rewrite map_length; exact H).
  apply map_nth.
Qed.

Lemma length_view s : length (view s) = nmods s.
Proof. apply map_length. Qed.

Lemma get_view s m : get s m = nth m (view s) [].
Proof.
  unfold get. destruct (Nat.ltb_spec m (nmods s)) as [H|H].
  - symmetry. apply nth_view, H.
  - symmetry. apply nth_overflow. rewrite length_view. exact H.
Qed.

Lemma wf_cell_of s k : wf_heap s -> k < nmods s -> cell_of s k < length (heap s).
Proof.
  unfold wf_heap, cell_of, nmods. intros W H. rewrite Forall_forall in W. apply W, nth_In, H.
Qed.

Lemma count_ge1 c l i : i < length l -> nth i l 0 = c -> 1 <= count c l.
Proof.
  revert i; induction l as [|x r IH]; intros [|i]; cbn; intros L H; try lia.
  - subst. rewrite Nat.eqb_refl. lia.
  - assert (1 <= count c r) by (apply (IH i); [lia | exact H]). destruct (x =? c); lia.
Qed.

Lemma count_one_unique c l : count c l = 1 -> forall i j, i < length l -> j < length l ->
  nth i l 0 = c -> nth j l 0 = c -> i = j.
Proof.
  induction l as [|x r IH]; cbn; intros C i j Li Lj Hi Hj; [lia|].
  assert (forall k, S k < S (length r) -> nth k r 0 = c -> 1 <= count c r) as Tail
    by (intros k Lk Hk; apply (count_ge1 c r k); [lia | exact Hk]).
  destruct (Nat.eqb_spec x c) as [E|E].
  - (* the head is the one occurrence: an index into the tail would be a second *)
    destruct i as [|i], j as [|j]; [reflexivity | specialize (Tail j Lj Hj) | specialize (Tail i Li Hi) ..]; lia.
  - destruct i as [|i], j as [|j]; try congruence.
    f_equal. apply IH; auto; lia.
Qed.

(* Arc::make_mut.  Strong count 1: the handle is kept, and by `count_one_unique` module m is the only index of its
   cell.  Otherwise the contents are copied into a fresh cell at the end of the heap and m alone is re-pointed to it.
   Either way every module shows what it showed, and m now holds its cell alone. *)
Lemma make_mut_spec s m tmp : wf_heap s -> m < nmods s ->
  let s1 := fst (make_mut s m tmp) in
  let c := snd (make_mut s m tmp) in
  wf_heap s1 /\ view s1 = view s /\ c < length (heap s1) /\ cell_of s1 m = c /\
  (forall k, k < nmods s -> k <> m -> cell_of s1 k <> c).
Proof.
  intros W Hm. unfold make_mut.
  destruct (Nat.eqb_spec (refcount s tmp (cell_of s m)) 1) as [R|R]; cbn [fst snd].
  - repeat split; auto.
    + apply wf_cell_of; assumption.
    + intros k Hk Hne E. apply Hne.
      assert (count (cell_of s m) (mods s) = 1) as C.
      { unfold refcount in R.
        assert (1 <= count (cell_of s m) (mods s)) by (apply (count_ge1 _ _ m); [exact Hm | reflexivity]). lia. }
      apply (count_one_unique _ _ C); auto.
  - assert (length (upd m (fun _ => length (heap s)) (mods s)) = length (mods s)) as L by apply length_upd.
    repeat split.
    + unfold wf_heap; cbn. rewrite app_length; cbn. apply Forall_forall. intros x Hx.
      apply (In_nth _ _ 0) in Hx. destruct Hx as [k [Hk <-]]. rewrite L in Hk.
      destruct (Nat.eq_dec k m) as [->|Hne].
      * rewrite nth_upd_eq by exact Hm. lia.
      * rewrite nth_upd_neq by exact Hne. pose proof (wf_cell_of s k W Hk). unfold cell_of in *. lia.
    + apply (nth_ext _ _ [] []).
      * rewrite !length_view. unfold nmods; cbn. exact L.
      * intros k Hk. rewrite length_view in Hk. unfold nmods in Hk; cbn in Hk. rewrite L in Hk.
        rewrite nth_view by (unfold nmods; cbn; lia). rewrite nth_view by exact Hk.
        unfold cell, cell_of; cbn.
        destruct (Nat.eq_dec k m) as [->|Hne].
        -- rewrite nth_upd_eq by exact Hm. rewrite app_nth2, Nat.sub_diag by lia. reflexivity.
        -- rewrite nth_upd_neq by exact Hne. rewrite app_nth1; [reflexivity|].
           apply (wf_cell_of s k W Hk).
    + cbn. rewrite app_length; cbn; lia.
    + unfold cell_of; cbn. apply nth_upd_eq, Hm.
    + intros k Hk Hne. unfold cell_of; cbn. rewrite nth_upd_neq by exact Hne.
      pose proof (wf_cell_of s k W Hk). unfold cell_of in *. lia.
Qed.

Lemma set_cell_spec s m c v : wf_heap s -> m < nmods s -> c < length (heap s) -> cell_of s m = c ->
  (forall k, k < nmods s -> k <> m -> cell_of s k <> c) ->
  wf_heap (set_cell s c v) /\ view (set_cell s c v) = upd m (fun _ => v) (view s).
Proof.
  intros W Hm Hc E Hoth. split.
  - unfold wf_heap, set_cell; cbn. rewrite length_upd. exact W.
  - apply (nth_ext _ _ [] []).
    + rewrite length_upd, !length_view. reflexivity.
    + intros k Hk. rewrite length_view in Hk. assert (k < nmods s) as Hk' by exact Hk.
      rewrite nth_view by exact Hk.
      unfold cell, set_cell, cell_of; cbn.
      destruct (Nat.eq_dec k m) as [->|Hne].
      * rewrite (nth_upd_eq m _ (view s)) by (rewrite length_view; exact Hm).
        unfold cell_of in E. rewrite E. apply nth_upd_eq, Hc.
      * rewrite (nth_upd_neq m k _ (view s)) by exact Hne. rewrite nth_view by exact Hk'.
        apply nth_upd_neq. apply (Hoth k Hk' Hne).
Qed.

Definition module_set (s : state) (m : nat) (s' : state) (ms : methods) : Prop :=
  wf_heap s' /\ view s' = upd m (fun _ => ms) (view s).

Lemma module_set_same s m : wf_heap s -> m < nmods s -> module_set s m s (get s m).
Proof.
  intros W Hm. split; [exact W|]. symmetry.
  apply (upd_same _ _ _ []); [symmetry; apply get_view | rewrite length_view; exact Hm].
Qed.

Lemma module_set_get s m s' ms : m < nmods s -> module_set s m s' ms -> nmods s' = nmods s /\ get s' m = ms.
Proof.
  intros Hm [_ V]. split.
  - rewrite <- !length_view, V. apply length_upd.
  - rewrite get_view, V. apply nth_upd_eq. rewrite length_view. exact Hm.
Qed.

Lemma mutate_spec s m tmp s1 c : wf_heap s -> m < nmods s -> make_mut s m tmp = (s1, c) ->
  cell s1 c = get s m /\ module_set s m s1 (get s m) /\ forall v, module_set s m (set_cell s1 c v) v.
Proof.
  intros W Hm E.
  destruct (make_mut_spec s m tmp W Hm) as (W1 & V1 & Hc & Ec & Hoth). rewrite E in *. cbn [fst snd] in *.
  assert (nmods s1 = nmods s) as N by (rewrite <- !length_view, V1; reflexivity).
  repeat split.
  - rewrite get_view, <- V1, nth_view, Ec by (rewrite N; exact Hm). reflexivity.
  - exact W1.
  - rewrite V1. exact (proj2 (module_set_same s m W Hm)).
  - apply (set_cell_spec s1 m c v); rewrite ?N; assumption.
  - rewrite <- V1. apply (set_cell_spec s1 m c v); rewrite ?N; assumption.
Qed.

Definition v_insert (ms : methods) (n : name) (b : binding) : methods * option rerr :=
  match lookup n ms with
  | Some _ => (ms, Some (AlreadyRegistered n))
  | None => (hm_insert n b ms, None)
  end.

Definition v_register (ms : methods) (r : reg) : methods * option rerr :=
  match r with
  | RMethod n h => v_insert ms n (Bind h KSync)
  | RAsync n h => v_insert ms n (Bind h KAsync)
  | RBlocking n h => v_insert ms n (Bind h KBlocking)
  | RSub _ sn un h =>
    if bytes_eqb sn un then (ms, Some (SubscriptionNameConflict sn)) else
    if contains_key sn ms then (ms, Some (AlreadyRegistered sn)) else
    if contains_key un ms then (ms, Some (AlreadyRegistered un)) else
    v_insert (hm_insert un (Bind h KUnsub) ms) sn (Bind h KSub)
  end.

Definition v_alias (ms : methods) (a e : name) : methods * option rerr :=
  if contains_key a ms then (ms, Some (AlreadyRegistered a)) else
  match lookup e ms with
  | None => (ms, Some (MethodNotFound e))
  | Some b => (hm_insert a b ms, None)
  end.

Definition v_merge (ms other : methods) : methods * option rerr :=
  match first_clash ms (map fst other) with
  | Some n => (ms, Some (AlreadyRegistered n))
  | None => (hm_extend ms other, None)
  end.

Fixpoint v_build (ms : methods) (rs : list reg) : methods * list (option rerr) :=
  match rs with
  | [] => (ms, [])
  | r :: rs' =>
    let (ms1, e) := v_register ms r in
    let (ms2, es) := v_build ms1 rs' in (ms2, e :: es)
  end.

Definition vstep (v : list methods) (o : op) : list methods * obs :=
  let N := length v in
  match o with
  | Reg m r =>
    if (m <? N) then let (ms, e) := v_register (nth m v []) r in (upd m (fun _ => ms) v, ORes e) else (v, OBad)
  | Alias m a e =>
    if (m <? N) then let (ms, r) := v_alias (nth m v []) a e in (upd m (fun _ => ms) v, ORes r) else (v, OBad)
  | MergeMod m j =>
    if (m <? N) && (j <? N) then
      let (ms, r) := v_merge (nth m v []) (nth j v []) in (upd m (fun _ => ms) v, ORes r)
    else (v, OBad)
  | MergeNew m rs =>
    if (m <? N) then
      let (other, es) := v_build [] rs in
      let (ms, r) := v_merge (nth m v []) other in (upd m (fun _ => ms) v, OMergeNew es r)
    else (v, OBad)
  | Remove m n =>
    if (m <? N) then (upd m (fun _ => hm_remove n (nth m v [])) v, ORemoved (lookup n (nth m v []))) else (v, OBad)
  | Clone m => if (m <? N) then (v ++ [nth m v []], OHandle N) else (v, OBad)
  | New => (v ++ [[]], OHandle N)
  | Call m n => if (m <? N) then (v, OCall (lookup n (nth m v []))) else (v, OBad)
  end.

Definition vexec (v : list methods) (os : list op) : list methods := fold_left (fun v o => fst (vstep v o)) os v.

Definition refines_on {R} (s : state) (m : nat) (res : state * R) (vres : methods * R) : Prop :=
  module_set s m (fst res) (fst vres) /\ snd res = snd vres.

Lemma refines_same {R} s m (e : R) : wf_heap s -> m < nmods s -> refines_on s m (s, e) (get s m, e).
Proof. intros W Hm. split; [apply module_set_same; assumption | reflexivity]. Qed.

Lemma verify_and_insert_refines s m n b : wf_heap s -> m < nmods s ->
  refines_on s m (verify_and_insert s m n b) (v_insert (get s m) n b).
Proof.
  intros W Hm. unfold verify_and_insert, v_insert.
  destruct (make_mut s m None) as [s1 c] eqn:E. destruct (mutate_spec _ _ _ _ _ W Hm E) as (-> & U1 & Uset).
  destruct (lookup n (get s m)).
  - split; [exact U1 | reflexivity].
  - split; [apply Uset | reflexivity].
Qed.

Lemma mut_insert_sets s m n b : wf_heap s -> m < nmods s ->
  module_set s m (mut_insert s m n b) (hm_insert n b (get s m)).
Proof.
  intros W Hm. unfold mut_insert.
  destruct (make_mut s m None) as [s1 c] eqn:E. destruct (mutate_spec _ _ _ _ _ W Hm E) as (-> & _ & Uset).
  apply Uset.
Qed.

Lemma verify_method_name_spec s m n :
  verify_method_name s m n = if contains_key n (get s m) then Some (AlreadyRegistered n) else None.
Proof. reflexivity. Qed.

Lemma register_refines s m r : wf_heap s -> m < nmods s ->
  refines_on s m (register s m r) (v_register (get s m) r).
Proof.
  intros W Hm. destruct r as [n h|n h|n h|raw sn un h]; cbn [register v_register];
    try (apply verify_and_insert_refines; assumption).
  unfold verify_method_name.
  destruct (bytes_eqb sn un); [apply refines_same; assumption|].
  destruct (contains_key sn (get s m)); [apply refines_same; assumption|].
  destruct (contains_key un (get s m)); [apply refines_same; assumption|].
  (* two stores into module m: the second sees the first *)
  pose proof (mut_insert_sets s m un (Bind h KUnsub) W Hm) as U1.
  destruct (module_set_get _ _ _ _ Hm U1) as [N1 G1].
  destruct (verify_and_insert_refines (mut_insert s m un (Bind h KUnsub)) m sn (Bind h KSub) (proj1 U1)) as [U2 R2];
    [rewrite N1; exact Hm|].
  rewrite G1 in U2, R2. split; [|exact R2].
  split; [exact (proj1 U2) | rewrite (proj2 U2), (proj2 U1); apply upd_upd_const].
Qed.

Lemma alias_refines s m a e : wf_heap s -> m < nmods s ->
  refines_on s m (register_alias s m a e) (v_alias (get s m) a e).
Proof.
  intros W Hm. unfold register_alias, v_alias, verify_method_name.
  destruct (contains_key a (get s m)); [apply refines_same; assumption|].
  destruct (lookup e (get s m)) as [b|]; [|apply refines_same; assumption].
  split; [apply mut_insert_sets; assumption | reflexivity].
Qed.

Lemma merge_refines s m other tmp : wf_heap s -> m < nmods s ->
  refines_on s m (merge s m other tmp) (v_merge (get s m) other).
Proof.
  intros W Hm. unfold merge, v_merge.
  destruct (first_clash (get s m) (map fst other)); [apply refines_same; assumption|].
  destruct (make_mut s m tmp) as [s1 c] eqn:E. destruct (mutate_spec _ _ _ _ _ W Hm E) as (-> & _ & Uset).
  split; [apply Uset | reflexivity].
Qed.

Lemma remove_refines s m n : wf_heap s -> m < nmods s ->
  refines_on s m (remove_method s m n) (hm_remove n (get s m), lookup n (get s m)).
Proof.
  intros W Hm. unfold remove_method.
  destruct (make_mut s m None) as [s1 c] eqn:E. destruct (mutate_spec _ _ _ _ _ W Hm E) as (-> & _ & Uset).
  split; [apply Uset | reflexivity].
Qed.

Lemma wf_init : wf_heap init.
Proof. unfold wf_heap, init; cbn. constructor; [lia | constructor]. Qed.

Lemma build_from_refines rs : forall s, wf_heap s -> nmods s = 1 ->
  let r := build_from s rs in
  wf_heap (fst r) /\ nmods (fst r) = 1 /\ get (fst r) 0 = fst (v_build (get s 0) rs) /\ snd r = snd (v_build (get s 0) rs).
Proof.
  induction rs as [|r rs IH]; intros s W N; cbn.
  - auto.
  - assert (0 < nmods s) as H0 by lia.
    destruct (register_refines s 0 r W H0) as (U1 & R1).
    destruct (register s 0 r) as [s1 e]. destruct (v_register (get s 0) r) as [ms1 e']. cbn [fst snd] in *. subst e'.
    destruct (module_set_get _ _ _ _ H0 U1) as [N1 G1].
    specialize (IH s1 (proj1 U1) (eq_trans N1 N)). cbn zeta in IH. rewrite G1 in IH.
    destruct (build_from s1 rs) as [s2 es]. destruct (v_build ms1 rs) as [ms2 es']. cbn [fst snd] in *.
    destruct IH as (W2 & N2 & G2 & E2). subst. auto.
Qed.

Lemma build_refines rs : build rs = v_build [] rs.
Proof.
  unfold build. pose proof (build_from_refines rs init wf_init eq_refl) as H. cbn zeta in H.
  destruct (build_from init rs) as [s es]. cbn [fst snd] in H. destruct H as (_ & _ & G & E).
  change (get init 0) with (@nil (name * binding)) in *.
  destruct (v_build [] rs) as [ms es']. cbn [fst snd] in *. subst. reflexivity.
Qed.

Lemma clone_module_spec s m : wf_heap s -> m < nmods s ->
  wf_heap (clone_module s m) /\ view (clone_module s m) = view s ++ [get s m].
Proof.
  intros W Hm. split.
  - apply Forall_app. split; [exact W|]. constructor; [exact (wf_cell_of s m W Hm) | constructor].
  - unfold view, clone_module; cbn [heap mods]. rewrite map_app. cbn [map].
    rewrite get_view, nth_view by exact Hm. reflexivity.
Qed.

Lemma new_module_spec s : wf_heap s -> wf_heap (new_module s) /\ view (new_module s) = view s ++ [[]].
Proof.
  intro W. unfold wf_heap in W. rewrite Forall_forall in W. split.
  - unfold wf_heap, new_module; cbn [heap mods]. rewrite app_length. apply Forall_app. split.
    + apply Forall_forall. intros c Hc. specialize (W c Hc). lia.
    + constructor; [cbn; lia | constructor].
  - unfold view, new_module; cbn [heap mods]. rewrite map_app. f_equal.
    + apply map_ext_in. intros c Hc. apply app_nth1, W, Hc.
    + cbn [map]. unfold cell; cbn [heap]. rewrite app_nth2, Nat.sub_diag by lia. reflexivity.
Qed.

(* `step` and `vstep` on an op that works on one module: the result r of the module-level function, tagged by k *)
Lemma refines_step {R} s m (res : state * R) (vres : methods * R) (k : R -> obs) : refines_on s m res vres ->
  let r := (let (s1, e) := res in (s1, k e)) in
  let vr := (let (ms, e) := vres in (upd m (fun _ => ms) (view s), k e)) in
  wf_heap (fst r) /\ view (fst r) = fst vr /\ snd r = snd vr.
Proof. destruct res, vres. intros [[W V] E]. cbn in *. subst. auto. Qed.

Lemma step_refines s o : wf_heap s ->
  wf_heap (fst (step s o)) /\ view (fst (step s o)) = fst (vstep (view s) o) /\ snd (step s o) = snd (vstep (view s) o).
Proof.
  intro W. unfold step, vstep, valid. rewrite length_view.
  destruct o as [m r|m a e|m j|m rs|m n|m| |m n];
    try (destruct (Nat.ltb_spec m (nmods s)) as [Hm|Hm]; [|cbn; auto]).
  - rewrite <- get_view. exact (refines_step s m _ _ ORes (register_refines s m r W Hm)).
  - rewrite <- get_view. exact (refines_step s m _ _ ORes (alias_refines s m a e W Hm)).
  - destruct (j <? nmods s); [|cbn; auto]. rewrite <- !get_view.
    exact (refines_step s m _ _ ORes (merge_refines s m (get s j) (Some (cell_of s j)) W Hm)).
  - rewrite build_refines, <- get_view. destruct (v_build [] rs) as [other es].
    exact (refines_step s m _ _ (OMergeNew es) (merge_refines s m other None W Hm)).
  - rewrite <- get_view. exact (refines_step s m _ _ ORemoved (remove_refines s m n W Hm)).
  - cbn [fst snd]. rewrite <- get_view. split; [|split; [|reflexivity]]; apply clone_module_spec; assumption.
  - cbn [fst snd]. split; [|split; [|reflexivity]]; apply new_module_spec, W.
  - cbn [fst snd]. rewrite <- get_view. auto.
Qed.

Lemma exec_snoc s os o : exec s (os ++ [o]) = fst (step (exec s os) o).
Proof. unfold exec. rewrite fold_left_app. reflexivity. Qed.
Lemma vexec_snoc v os o : vexec v (os ++ [o]) = fst (vstep (vexec v os) o).
Proof. unfold vexec. rewrite fold_left_app. reflexivity. Qed.
Lemma exec_app s os1 os2 : exec s (os1 ++ os2) = exec (exec s os1) os2.
Proof. unfold exec. apply fold_left_app. Qed.

Lemma exec_refines s os : wf_heap s -> wf_heap (exec s os) /\ view (exec s os) = vexec (view s) os.
Proof.
  intro W. induction os as [|o os IH] using rev_ind; [auto|].
  rewrite exec_snoc, vexec_snoc. destruct IH as [W1 V1].
  destruct (step_refines (exec s os) o W1) as (W2 & V2 & _). rewrite <- V1. auto.
Qed.

Definition nodup_all (v : list methods) : Prop := Forall (fun ms => NoDup (keys ms)) v.

Lemma Forall_upd {A} (P : A -> Prop) i x l : Forall P l -> P x -> Forall P (upd i (fun _ => x) l).
Proof. revert i; induction l as [|y r IH]; intros [|i] H Hx; cbn; auto; inversion H; subst; constructor; auto. Qed.

Lemma nodup_nth v m : nodup_all v -> NoDup (keys (nth m v [])).
Proof. intro H. revert m. induction H as [|ms v Hms _ IH]; intros [|m]; cbn; auto; constructor. Qed.

(* `vstep` on an op that works on one module has the form `let (ms, e) := p in (upd m (fun _ => ms) v, k e)` *)
Lemma fst_let {A B C D} (p : A * B) (f : A -> C) (g : B -> D) : fst (let (a, b) := p in (f a, g b)) = f (fst p).
Proof. destruct p; reflexivity. Qed.

Lemma snd_let {A B C D} (p : A * B) (f : A -> C) (g : B -> D) : snd (let (a, b) := p in (f a, g b)) = g (snd p).
Proof. destruct p; reflexivity. Qed.

Lemma v_insert_nodup ms n b : NoDup (keys ms) -> NoDup (keys (fst (v_insert ms n b))).
Proof. unfold v_insert. destruct (lookup n ms); cbn; auto using nodup_hm_insert. Qed.

Lemma v_register_nodup ms r : NoDup (keys ms) -> NoDup (keys (fst (v_register ms r))).
Proof.
  intro ND. destruct r as [n h|n h|n h|raw sn un h]; cbn [v_register]; try (apply v_insert_nodup, ND).
  destruct (bytes_eqb sn un); [exact ND|].
  destruct (contains_key sn ms); [exact ND|].
  destruct (contains_key un ms); [exact ND|].
  apply v_insert_nodup, nodup_hm_insert, ND.
Qed.

Lemma v_build_nodup rs : forall ms, NoDup (keys ms) -> NoDup (keys (fst (v_build ms rs))).
Proof.
  induction rs as [|r rs IH]; intros ms ND; cbn; [exact ND|].
  pose proof (v_register_nodup ms r ND) as H1. destruct (v_register ms r) as [ms1 e]. cbn in H1.
  specialize (IH ms1 H1). destruct (v_build ms1 rs) as [ms2 es]. exact IH.
Qed.

Lemma v_alias_nodup ms a e : NoDup (keys ms) -> NoDup (keys (fst (v_alias ms a e))).
Proof.
  intro ND. unfold v_alias. destruct (contains_key a ms); [exact ND|].
  destruct (lookup e ms); cbn; auto using nodup_hm_insert.
Qed.

Lemma v_merge_nodup ms other : NoDup (keys ms) -> NoDup (keys (fst (v_merge ms other))).
Proof. intro ND. unfold v_merge. destruct (first_clash ms (map fst other)); cbn; auto using nodup_hm_extend. Qed.

Lemma vstep_nodup v o : nodup_all v -> nodup_all (fst (vstep v o)).
Proof.
  intro H. pose proof (fun m => nodup_nth v m H) as Hn. unfold nodup_all in *.
  destruct o as [m r|m a e|m j|m rs|m n|m| |m n]; cbn [vstep];
    try (destruct (m <? length v); [|exact H]).
  - rewrite fst_let. apply Forall_upd; [exact H | apply v_register_nodup, Hn].
  - rewrite fst_let. apply Forall_upd; [exact H | apply v_alias_nodup, Hn].
  - destruct (j <? length v); [|exact H]. cbn [andb]. rewrite fst_let.
    apply Forall_upd; [exact H | apply v_merge_nodup, Hn].
  - destruct (v_build [] rs) as [other es]. rewrite fst_let. apply Forall_upd; [exact H | apply v_merge_nodup, Hn].
  - cbn [fst]. apply Forall_upd; [exact H | apply nodup_hm_remove, Hn].
  - cbn [fst]. apply Forall_app. split; [exact H | constructor; [apply Hn | constructor]].
  - cbn [fst]. apply Forall_app. split; [exact H | repeat constructor].
  - exact H.
Qed.

Lemma vexec_nodup v os : nodup_all v -> nodup_all (vexec v os).
Proof.
  intro H. induction os as [|o os IH] using rev_ind; [exact H|].
  rewrite vexec_snoc. apply vstep_nodup, IH.
Qed.

Definition added_reg (r : reg) : methods :=
  match r with
  | RMethod n h => [(n, Bind h KSync)]
  | RAsync n h => [(n, Bind h KAsync)]
  | RBlocking n h => [(n, Bind h KBlocking)]
  | RSub _ sn un h => [(un, Bind h KUnsub); (sn, Bind h KSub)]
  end.

(* the entries an op names, read off the op and the modules as they are before it *)
Definition added (v : list methods) (o : op) : methods :=
  match o with
  | Reg _ r => added_reg r
  | Alias m a e => match lookup e (nth m v []) with Some b => [(a, b)] | None => [] end
  | MergeMod _ j => nth j v []
  | MergeNew _ rs => fst (v_build [] rs)
  | _ => []
  end.

Definition writes (o : op) : option nat :=
  match o with
  | Reg m _ | Alias m _ _ | MergeMod m _ | MergeNew m _ | Remove m _ => Some m
  | Clone _ | New | Call _ _ => None
  end.

Definition is_registration (o : op) : Prop :=
  match o with Reg _ _ | Alias _ _ _ | MergeMod _ _ | MergeNew _ _ => True | _ => False end.

Definition succeeded (ob : obs) : Prop :=
  match ob with ORes None | OMergeNew _ None => True | _ => False end.
Definition failed (ob : obs) : Prop :=
  match ob with ORes (Some _) | OMergeNew _ (Some _) => True | _ => False end.

Definition appends_new (ms ad ms' : methods) : Prop :=
  ms' = ms ++ ad /\ (forall n, In n (keys ad) -> lookup n ms = None) /\ NoDup (keys ad).

Lemma appends_new_one ms n b : lookup n ms = None -> appends_new ms [(n, b)] (hm_insert n b ms).
Proof.
  intro E. split; [apply hm_insert_fresh, E|].
  split; [intros k [<-|[]]; exact E | constructor; [intros [] | constructor]].
Qed.

Lemma v_insert_ok ms n b : snd (v_insert ms n b) = None -> appends_new ms [(n, b)] (fst (v_insert ms n b)).
Proof.
  unfold v_insert. destruct (lookup n ms) eqn:E; cbn [fst snd]; [discriminate|]. intros _. apply appends_new_one, E.
Qed.

Lemma v_insert_err ms n b e : snd (v_insert ms n b) = Some e ->
  fst (v_insert ms n b) = ms /\ e = AlreadyRegistered n /\ lookup n ms <> None.
Proof.
  unfold v_insert. destruct (lookup n ms) eqn:E; cbn; [|discriminate]. intro H; inversion H. repeat split; congruence.
Qed.

Lemma v_register_ok ms r : snd (v_register ms r) = None -> appends_new ms (added_reg r) (fst (v_register ms r)).
Proof.
  destruct r as [n h|n h|n h|raw sn un h]; cbn [v_register added_reg]; try apply v_insert_ok.
  beq sn un; [cbn; discriminate|].
  destruct (contains_key sn ms) eqn:Cs; [cbn; discriminate|].
  destruct (contains_key un ms) eqn:Cu; [cbn; discriminate|].
  apply contains_key_false in Cs, Cu.
  intro H. destruct (v_insert_ok _ _ _ H) as (-> & _ & _). rewrite (hm_insert_fresh _ _ _ Cu), <- app_assoc.
  split; [reflexivity|]. split.
  - intros k [<-|[<-|[]]]; assumption.
  - constructor; [cbn; intros [Eq|[]]; congruence | constructor; [cbn; tauto | constructor]].
Qed.

Lemma v_register_err ms r e : snd (v_register ms r) = Some e -> fst (v_register ms r) = ms.
Proof.
  destruct r as [n h|n h|n h|raw sn un h]; cbn [v_register];
    try (intro H; apply v_insert_err in H; tauto).
  beq sn un; [reflexivity|].
  destruct (contains_key sn ms) eqn:Cs; [reflexivity|].
  destruct (contains_key un ms) eqn:Cu; [reflexivity|].
  apply contains_key_false in Cs. unfold v_insert. rewrite lookup_hm_insert.
  beq sn un; [contradiction|]. rewrite Cs. cbn. discriminate.
Qed.

Lemma v_alias_ok ms a e : snd (v_alias ms a e) = None ->
  exists b, lookup e ms = Some b /\ appends_new ms [(a, b)] (fst (v_alias ms a e)).
Proof.
  unfold v_alias. destruct (contains_key a ms) eqn:Ca; [cbn; discriminate|].
  apply contains_key_false in Ca. destruct (lookup e ms) as [b|]; cbn [fst snd]; [|discriminate].
  intros _. exists b. split; [reflexivity | apply appends_new_one, Ca].
Qed.

Lemma v_alias_err ms a e er : snd (v_alias ms a e) = Some er -> fst (v_alias ms a e) = ms.
Proof.
  unfold v_alias. destruct (contains_key a ms); [reflexivity|]. destruct (lookup e ms); cbn; [discriminate | reflexivity].
Qed.

Lemma v_merge_ok ms other : NoDup (keys other) -> snd (v_merge ms other) = None ->
  appends_new ms other (fst (v_merge ms other)).
Proof.
  intro ND. unfold v_merge. destruct (first_clash ms (map fst other)) eqn:F; cbn; [discriminate|]. intros _.
  pose proof (proj1 (first_clash_none _ _) F) as Hd. split; [apply hm_extend_disjoint; assumption | split; assumption].
Qed.

Lemma v_merge_err ms other e : snd (v_merge ms other) = Some e ->
  fst (v_merge ms other) = ms /\ exists n, e = AlreadyRegistered n /\ In n (keys other) /\ lookup n ms <> None.
Proof.
  unfold v_merge. destruct (first_clash ms (map fst other)) as [n|] eqn:F; cbn; [|discriminate].
  intro H; inversion H; subst. split; [reflexivity|]. exists n. apply first_clash_some in F. tauto.
Qed.

Lemma succeeded_result ob : succeeded ob -> match ob with ORes e | OMergeNew _ e => e = None | _ => False end.
Proof. destruct ob as [[er|]|es [er|]| | | |]; cbn; intro H; try contradiction; reflexivity. Qed.

Lemma failed_result ob :
  failed ob -> match ob with ORes e | OMergeNew _ e => exists er, e = Some er | _ => False end.
Proof. destruct ob as [[er|]|es [er|]| | | |]; cbn; intro H; try contradiction; exists er; reflexivity. Qed.

Lemma appends_new_upd v m ad ms' : appends_new (nth m v []) ad ms' ->
  upd m (fun _ => ms') v = upd m (fun ms => ms ++ ad) v /\
  (forall n, In n (keys ad) -> lookup n (nth m v []) = None) /\ NoDup (keys ad).
Proof. intros (-> & H). split; [apply (upd_fun m (fun ms => ms ++ ad)) | exact H]. Qed.

Lemma vstep_success v o : nodup_all v -> is_registration o -> succeeded (snd (vstep v o)) ->
  exists m, writes o = Some m /\ m < length v /\
    fst (vstep v o) = upd m (fun ms => ms ++ added v o) v /\
    (forall n, In n (keys (added v o)) -> lookup n (nth m v []) = None) /\ NoDup (keys (added v o)).
Proof.
  intros ND Hreg. pose proof (fun m => nodup_nth v m ND) as Hn.
  destruct o as [m r|m a e|m j|m rs|m n|m| |m n]; try contradiction; cbn [vstep writes added];
    (destruct (Nat.ltb_spec m (length v)) as [Hm|Hm]; [|cbn; contradiction]).
  - rewrite snd_let. intros S%succeeded_result. exists m. rewrite fst_let.
    split; [reflexivity|]. split; [exact Hm|]. apply appends_new_upd, v_register_ok, S.
  - rewrite snd_let. intros S%succeeded_result. exists m. rewrite fst_let.
    destruct (v_alias_ok _ _ _ S) as (b & -> & A).
    split; [reflexivity|]. split; [exact Hm|]. apply appends_new_upd, A.
  - destruct (j <? length v); [|cbn; contradiction]. cbn [andb].
    rewrite snd_let. intros S%succeeded_result. exists m. rewrite fst_let.
    split; [reflexivity|]. split; [exact Hm|]. apply appends_new_upd, v_merge_ok, S. apply Hn.
  - pose proof (v_build_nodup rs [] (NoDup_nil _)) as NB.
    destruct (v_build [] rs) as [other es]. cbn [fst] in *.
    rewrite snd_let. intros S%succeeded_result. exists m. rewrite fst_let.
    split; [reflexivity|]. split; [exact Hm|]. apply appends_new_upd, v_merge_ok, S. exact NB.
Qed.

Lemma vstep_failure v o : failed (snd (vstep v o)) -> fst (vstep v o) = v.
Proof.
  assert (forall m, m < length v -> upd m (fun _ => nth m v []) v = v) as Same
    by (intros m Hm; apply (upd_same _ _ _ []); auto).
  destruct o as [m r|m a e|m j|m rs|m n|m| |m n]; cbn [vstep];
    try (destruct (Nat.ltb_spec m (length v)) as [Hm|Hm]; [|cbn; contradiction]); try (cbn; contradiction).
  - rewrite fst_let, snd_let. intros [er F]%failed_result. rewrite (v_register_err _ _ _ F). apply Same, Hm.
  - rewrite fst_let, snd_let. intros [er F]%failed_result. rewrite (v_alias_err _ _ _ _ F). apply Same, Hm.
  - destruct (j <? length v); [|cbn; contradiction]. cbn [andb]. rewrite fst_let, snd_let. intros [er F]%failed_result.
    rewrite (proj1 (v_merge_err _ _ _ F)). apply Same, Hm.
  - destruct (v_build [] rs) as [other es]. rewrite fst_let, snd_let. intros [er F]%failed_result.
    rewrite (proj1 (v_merge_err _ _ _ F)). apply Same, Hm.
Qed.

Definition bind_of (v : list methods) : nat -> name -> option binding := fun m n => lookup n (nth m v []).

Lemma bind_of_valid v m n b : bind_of v m n = Some b -> m < length v.
Proof.
  unfold bind_of. intro H. destruct (Nat.lt_ge_cases m (length v)) as [L|L]; [exact L|].
  rewrite nth_overflow in H by exact L. discriminate.
Qed.

Lemma vstep_shape v o :
  fst (vstep v o) = v \/
  (exists m ms, writes o = Some m /\ fst (vstep v o) = upd m (fun _ => ms) v) \/
  (writes o = None /\ exists ms, fst (vstep v o) = v ++ [ms]).
Proof.
  destruct o as [m r|m a e|m j|m rs|m n|m| |m n]; cbn [vstep writes];
    try (destruct (m <? length v); [|left; reflexivity]).
  - right; left. exists m. rewrite fst_let. eauto.
  - right; left. exists m. rewrite fst_let. eauto.
  - destruct (j <? length v); [|left; reflexivity]. right; left. exists m. cbn [andb]. rewrite fst_let. eauto.
  - destruct (v_build [] rs) as [other es]. right; left. exists m. rewrite fst_let. eauto.
  - right; left. exists m. cbn [fst]. eauto.
  - right; right. cbn [fst]. eauto.
  - right; right. cbn [fst]. eauto.
  - left; reflexivity.
Qed.

Lemma vstep_length v o : length v <= length (fst (vstep v o)).
Proof.
  destruct (vstep_shape v o) as [->|[(m & ms & _ & ->)|(_ & ms & ->)]];
    rewrite ?length_upd, ?app_length; lia.
Qed.

Lemma vstep_frame v o k : writes o <> Some k -> k < length v -> nth k (fst (vstep v o)) [] = nth k v [].
Proof.
  intros Hw Hk. destruct (vstep_shape v o) as [->|[(m & ms & Hm & ->)|(_ & ms & ->)]].
  - reflexivity.
  - apply nth_upd_neq. congruence.
  - apply app_nth1, Hk.
Qed.

Lemma vstep_outcome v o : is_registration o ->
  succeeded (snd (vstep v o)) \/ failed (snd (vstep v o)) \/ (snd (vstep v o) = OBad /\ fst (vstep v o) = v).
Proof.
  assert (forall e : option rerr, (succeeded (ORes e) \/ failed (ORes e)) /\
                                  forall es, succeeded (OMergeNew es e) \/ failed (OMergeNew es e)) as Res
    by (intros [er|]; cbn; auto).
  destruct o as [m r|m a e|m j|m rs|m n|m| |m n]; cbn [is_registration]; try contradiction; intros _; cbn [vstep];
    (destruct (m <? length v); [|right; right; split; reflexivity]).
  - rewrite snd_let. apply or_assoc. left. apply Res.
  - rewrite snd_let. apply or_assoc. left. apply Res.
  - destruct (j <? length v); [|right; right; split; reflexivity]. cbn [andb].
    rewrite snd_let. apply or_assoc. left. apply Res.
  - destruct (v_build [] rs) as [other es]. rewrite snd_let. apply or_assoc. left. apply Res.
Qed.

Lemma vstep_stable v o m n b : nodup_all v -> bind_of v m n = Some b -> o <> Remove m n ->
  bind_of (fst (vstep v o)) m n = Some b.
Proof.
  intros ND Hb Hne. pose proof (bind_of_valid _ _ _ _ Hb) as Hm.
  assert ({writes o = Some m} + {writes o <> Some m}) as [Hw|Hw] by (decide equality; apply Nat.eq_dec).
  2: { unfold bind_of in *. rewrite vstep_frame; assumption. }
  assert (is_registration o \/ exists n', o = Remove m n') as [Hreg|[n' ->]].
  { destruct o; cbn in Hw |- *; try discriminate; inversion Hw; subst; eauto. }
  - (* a registration either adds at the end of module m or leaves everything as it was *)
    destruct (vstep_outcome v o Hreg) as [S|[F|[_ E]]].
    + destruct (vstep_success v o ND Hreg S) as (m' & Hw' & _ & E & _). rewrite Hw in Hw'. inversion Hw'; subst m'.
      unfold bind_of in *. rewrite E, nth_upd_eq by exact Hm. rewrite lookup_app, Hb. reflexivity.
    + rewrite (vstep_failure v o F). exact Hb.
    + rewrite E. exact Hb.
  - cbn [vstep]. destruct (Nat.ltb_spec m (length v)); [|lia]. cbn [fst].
    unfold bind_of in *. rewrite nth_upd_eq by exact Hm. rewrite lookup_hm_remove.
    beq n n'; [congruence | exact Hb].
Qed.

Lemma vexec_length os : forall v, length v <= length (vexec v os).
Proof.
  induction os as [|o os IH]; intro v; cbn; [lia|].
  etransitivity; [apply (vstep_length v o) | apply IH].
Qed.

Lemma vexec_frame os : forall v k, k < length v -> Forall (fun o => writes o <> Some k) os ->
  nth k (vexec v os) [] = nth k v [].
Proof.
  induction os as [|o os IH]; intros v k Hk F; cbn; [reflexivity|].
  inversion F as [|? ? Ho F']; subst.
  change (nth k (vexec (fst (vstep v o)) os) [] = nth k v []).
  rewrite IH; [apply vstep_frame; assumption | | exact F'].
  pose proof (vstep_length v o). lia.
Qed.

(* The abstract specification: finite maps name -> handler.
   A module is a function name -> option binding; the registry is a number of modules N and a function from module
   index to such a map.  This restates the property text and does not mention lists, heaps or sharing. *)
Definition amap := name -> option binding.
Definition bmap := nat -> amap.

Definition a_set (f : amap) (n : name) (v : option binding) : amap := fun k => if bytes_eqb k n then v else f k.

Definition a_insert (f : amap) (n : name) (b : binding) : amap * option rerr :=
  match f n with
  | Some _ => (f, Some (AlreadyRegistered n))
  | None => (a_set f n (Some b), None)
  end.

Definition a_register (f : amap) (r : reg) : amap * option rerr :=
  match r with
  | RMethod n h => a_insert f n (Bind h KSync)
  | RAsync n h => a_insert f n (Bind h KAsync)
  | RBlocking n h => a_insert f n (Bind h KBlocking)
  | RSub _ sn un h =>
    if bytes_eqb sn un then (f, Some (SubscriptionNameConflict sn)) else
    match f sn with
    | Some _ => (f, Some (AlreadyRegistered sn))
    | None =>
      match f un with
      | Some _ => (f, Some (AlreadyRegistered un))
      | None => (a_set (a_set f un (Some (Bind h KUnsub))) sn (Some (Bind h KSub)), None)
      end
    end
  end.

Definition a_alias (f : amap) (a e : name) : amap * option rerr :=
  match f a with
  | Some _ => (f, Some (AlreadyRegistered a))
  | None =>
    match f e with
    | None => (f, Some (MethodNotFound e))
    | Some b => (a_set f a (Some b), None)
    end
  end.

Fixpoint a_build (f : amap) (rs : list reg) : amap * list (option rerr) :=
  match rs with
  | [] => (f, [])
  | r :: rs' =>
    let (f1, e) := a_register f r in
    let (f2, es) := a_build f1 rs' in (f2, e :: es)
  end.

(* which of the shared names a failing merge reports is left open *)
Definition a_merge_spec (f g f' : amap) (e : option rerr) : Prop :=
  (exists n, e = Some (AlreadyRegistered n) /\ f n <> None /\ g n <> None /\ forall k, f' k = f k)
  \/ (e = None /\ (forall n, f n = None \/ g n = None)
      /\ forall k, f' k = match g k with Some b => Some b | None => f k end).

Definition only_changes (B B' : bmap) (m : nat) (f' : amap) : Prop :=
  (forall k, B' m k = f' k) /\ forall m', m' <> m -> forall k, B' m' k = B m' k.
Definition same (B B' : bmap) : Prop := forall m k, B' m k = B m k.

Definition spec_step (N : nat) (B : bmap) (o : op) (N' : nat) (B' : bmap) (ob : obs) : Prop :=
  match o with
  | Reg m r =>
    if (m <? N) then N' = N /\ ob = ORes (snd (a_register (B m) r)) /\ only_changes B B' m (fst (a_register (B m) r))
    else N' = N /\ ob = OBad /\ same B B'
  | Alias m a e =>
    if (m <? N) then N' = N /\ ob = ORes (snd (a_alias (B m) a e)) /\ only_changes B B' m (fst (a_alias (B m) a e))
    else N' = N /\ ob = OBad /\ same B B'
  | MergeMod m j =>
    if (m <? N) && (j <? N) then
      N' = N /\ exists e, ob = ORes e /\ a_merge_spec (B m) (B j) (B' m) e /\ forall m', m' <> m -> forall k, B' m' k = B m' k
    else N' = N /\ ob = OBad /\ same B B'
  | MergeNew m rs =>
    if (m <? N) then
      N' = N /\ exists e, ob = OMergeNew (snd (a_build (fun _ => None) rs)) e
        /\ a_merge_spec (B m) (fst (a_build (fun _ => None) rs)) (B' m) e
        /\ forall m', m' <> m -> forall k, B' m' k = B m' k
    else N' = N /\ ob = OBad /\ same B B'
  | Remove m n =>
    if (m <? N) then N' = N /\ ob = ORemoved (B m n) /\ only_changes B B' m (a_set (B m) n None)
    else N' = N /\ ob = OBad /\ same B B'
  | Clone m =>
    if (m <? N) then N' = S N /\ ob = OHandle N /\ only_changes B B' N (B m)
    else N' = N /\ ob = OBad /\ same B B'
  | New => N' = S N /\ ob = OHandle N /\ only_changes B B' N (fun _ => None)
  | Call m n =>
    if (m <? N) then N' = N /\ ob = OCall (B m n) /\ same B B'
    else N' = N /\ ob = OBad /\ same B B'
  end.

Definition amap_of (f : amap) (ms : methods) : Prop := forall k, f k = lookup k ms.

Lemma a_insert_agrees f ms n b : amap_of f ms ->
  amap_of (fst (a_insert f n b)) (fst (v_insert ms n b)) /\ snd (a_insert f n b) = snd (v_insert ms n b).
Proof.
  intro A. unfold a_insert, v_insert. rewrite (A n). destruct (lookup n ms); cbn; split; auto.
  intro k. unfold a_set. rewrite lookup_hm_insert, (A k). reflexivity.
Qed.

Lemma a_register_agrees f ms r : amap_of f ms ->
  amap_of (fst (a_register f r)) (fst (v_register ms r)) /\ snd (a_register f r) = snd (v_register ms r).
Proof.
  intro A. destruct r as [n h|n h|n h|raw sn un h]; cbn [a_register v_register]; try (apply a_insert_agrees, A).
  beq sn un; [cbn; auto|].
  unfold contains_key. rewrite (A sn), (A un).
  destruct (lookup sn ms) eqn:Ls; [cbn; auto|].
  destruct (lookup un ms) eqn:Lu; [cbn; auto|].
  unfold v_insert. rewrite lookup_hm_insert. beq sn un; [contradiction|]. rewrite Ls. cbn. split; auto.
  intro k. unfold a_set. rewrite !lookup_hm_insert, (A k). reflexivity.
Qed.

Lemma a_alias_agrees f ms a e : amap_of f ms ->
  amap_of (fst (a_alias f a e)) (fst (v_alias ms a e)) /\ snd (a_alias f a e) = snd (v_alias ms a e).
Proof.
  intro A. unfold a_alias, v_alias, contains_key. rewrite (A a), (A e).
  destruct (lookup a ms); [cbn; auto|]. destruct (lookup e ms); cbn; split; auto.
  intro k. unfold a_set. rewrite lookup_hm_insert, (A k). reflexivity.
Qed.

Lemma a_build_agrees rs : forall f ms, amap_of f ms ->
  amap_of (fst (a_build f rs)) (fst (v_build ms rs)) /\ snd (a_build f rs) = snd (v_build ms rs).
Proof.
  induction rs as [|r rs IH]; intros f ms A; cbn; [auto|].
  destruct (a_register_agrees f ms r A) as [A1 E1].
  destruct (a_register f r) as [f1 e1]. destruct (v_register ms r) as [ms1 e1']. cbn [fst snd] in *. subst e1'.
  destruct (IH f1 ms1 A1) as [A2 E2].
  destruct (a_build f1 rs) as [f2 es]. destruct (v_build ms1 rs) as [ms2 es']. cbn [fst snd] in *. subst. auto.
Qed.

Lemma a_merge_agrees f g f' ms other :
  amap_of f ms -> amap_of g other -> amap_of f' (fst (v_merge ms other)) -> NoDup (keys other) ->
  a_merge_spec f g f' (snd (v_merge ms other)).
Proof.
  intros Af Ag Af' ND. unfold a_merge_spec.
  assert (forall n b, lookup n other = Some b -> In n (keys other)) as Hkey
    by (intros n b Lo; apply lookup_some_in in Lo; apply (in_map fst) in Lo; exact Lo).
  destruct (snd (v_merge ms other)) as [e|] eqn:S.
  - left. destruct (v_merge_err _ _ _ S) as (E & n & -> & Hin & Hms). exists n. rewrite (Af n), (Ag n). repeat split; auto.
    + intro Hn. apply lookup_none_iff in Hn. contradiction.
    + intro k. rewrite (Af' k), (Af k), E. reflexivity.
  - right. destruct (v_merge_ok _ _ ND S) as (E & Hd & _). repeat split; auto.
    + intro n. rewrite (Af n), (Ag n). destruct (lookup n other) eqn:Lo; [left; eapply Hd, Hkey, Lo | right; reflexivity].
    + intro k. rewrite (Af' k), (Af k), (Ag k), E, lookup_app.
      destruct (lookup k other) eqn:Lo; [rewrite (Hd k (Hkey _ _ Lo)); reflexivity | destruct (lookup k ms); reflexivity].
Qed.

Lemma bind_upd_same v m x : m < length v -> amap_of (bind_of (upd m (fun _ => x) v) m) x.
Proof. intros Hm k. unfold bind_of. rewrite nth_upd_eq by exact Hm. reflexivity. Qed.

Lemma bind_upd_other v m x m' : m' <> m -> forall k, bind_of (upd m (fun _ => x) v) m' k = bind_of v m' k.
Proof. intros Hne k. unfold bind_of. rewrite nth_upd_neq by exact Hne. reflexivity. Qed.

Lemma only_changes_upd v m ms f : m < length v -> amap_of f ms ->
  only_changes (bind_of v) (bind_of (upd m (fun _ => ms) v)) m f.
Proof.
  intros Hm A. split; [|intros m' Hne; apply bind_upd_other, Hne].
  intro k. rewrite (bind_upd_same v m ms Hm k). symmetry. apply A.
Qed.

Lemma only_changes_app v x f : amap_of f x -> only_changes (bind_of v) (bind_of (v ++ [x])) (length v) f.
Proof.
  intro A. unfold bind_of. split.
  - intro k. rewrite app_nth2, Nat.sub_diag by lia. symmetry. apply A.
  - intros m' Hne k. destruct (Nat.lt_ge_cases m' (length v)) as [L|L].
    + rewrite app_nth1 by exact L. reflexivity.
    + rewrite !nth_overflow; [reflexivity | exact L | rewrite app_length; cbn; lia].
Qed.

Lemma vstep_spec v o : nodup_all v ->
  spec_step (length v) (bind_of v) o (length (fst (vstep v o))) (bind_of (fst (vstep v o))) (snd (vstep v o)).
Proof.
  intro ND. pose proof (fun m => nodup_nth v m ND) as Hn.
  assert (forall m, amap_of (bind_of v m) (nth m v [])) as Ag by (intros m k; reflexivity).
  assert (same (bind_of v) (bind_of v)) as Same by (intros m k; reflexivity).
  destruct o as [m r|m a e|m j|m rs|m n|m| |m n]; cbn [vstep spec_step];
    try (destruct (Nat.ltb_spec m (length v)) as [Hm|Hm]; [|cbn; auto]).
  - destruct (a_register_agrees _ _ r (Ag m)) as [A1 E1]. rewrite fst_let, snd_let, length_upd, E1.
    split; [reflexivity|]. split; [reflexivity|]. apply only_changes_upd; assumption.
  - destruct (a_alias_agrees _ _ a e (Ag m)) as [A1 E1]. rewrite fst_let, snd_let, length_upd, E1.
    split; [reflexivity|]. split; [reflexivity|]. apply only_changes_upd; assumption.
  - destruct (j <? length v); [|cbn; auto]. cbn [andb]. rewrite fst_let, snd_let, length_upd.
    split; [reflexivity|]. eexists. split; [reflexivity|]. split; [|intros m' Hne; apply bind_upd_other, Hne].
    apply a_merge_agrees; [apply Ag | apply Ag | apply bind_upd_same, Hm | apply Hn].
  - destruct (a_build_agrees rs (fun _ => None) [] (fun k => eq_refl)) as [A1 E1].
    pose proof (v_build_nodup rs [] (NoDup_nil _)) as NB.
    destruct (v_build [] rs) as [other es]. cbn [fst snd] in *. rewrite fst_let, snd_let, length_upd, E1.
    split; [reflexivity|]. eexists. split; [reflexivity|]. split; [|intros m' Hne; apply bind_upd_other, Hne].
    apply a_merge_agrees; [apply Ag | exact A1 | apply bind_upd_same, Hm | exact NB].
  - cbn [fst snd]. rewrite length_upd. split; [reflexivity|]. split; [reflexivity|].
    apply only_changes_upd; [exact Hm|]. intro k. unfold a_set. rewrite lookup_hm_remove. reflexivity.
  - cbn [fst snd]. rewrite app_length, Nat.add_1_r. split; [reflexivity|]. split; [reflexivity|].
    apply only_changes_app, Ag.
  - cbn [fst snd]. rewrite app_length, Nat.add_1_r. split; [reflexivity|]. split; [reflexivity|].
    apply only_changes_app. intro k. reflexivity.
  - cbn [fst snd]. auto.
Qed.

Definition bind (s : state) : bmap := bind_of (view s).

Lemma step_call s m n : step s (Call m n) = (s, if (m <? nmods s) then OCall (bind s m n) else OBad).
Proof.
  unfold step, valid. destruct (m <? nmods s); [|reflexivity].
  unfold bind, bind_of. rewrite <- get_view. reflexivity.
Qed.

Lemma step_clone s m : wf_heap s -> m < nmods s ->
  nmods (fst (step s (Clone m))) = S (nmods s) /\
  get (fst (step s (Clone m))) (nmods s) = get s m /\ get (fst (step s (Clone m))) m = get s m.
Proof.
  intros W Hm. set (s1 := fst (step s (Clone m))).
  assert (view s1 = view s ++ [get s m]) as V.
  { unfold s1, step, valid. rewrite (proj2 (Nat.ltb_lt _ _) Hm). apply clone_module_spec; assumption. }
  pose proof (length_view s) as L. repeat split.
  - rewrite <- length_view, V, app_length, L. cbn. lia.
  - rewrite get_view, V, app_nth2, L, Nat.sub_diag by lia. reflexivity.
  - rewrite (get_view s1), V, app_nth1 by lia. symmetry. apply get_view.
Qed.

Lemma registry_reach_inv os : wf_heap (exec init os) /\ nodup_all (view (exec init os)).
Proof.
  destruct (exec_refines init os wf_init) as [W V]. split; [exact W|].
  rewrite V. apply vexec_nodup. repeat constructor.
Qed.

(* the operations whose checks all come before the first mut_callbacks(): a failure leaves even the heap untouched *)
Definition checks_first (o : op) : Prop :=
  match o with
  | Reg _ (RSub _ _ _ _) | Alias _ _ _ | MergeMod _ _ | MergeNew _ _ => True
  | _ => False
  end.

Lemma step_failure_heap s o : wf_heap s -> checks_first o -> failed (snd (step s o)) -> fst (step s o) = s.
Proof.
  intros W C. destruct o as [m r|m a e|m j|m rs|m n|m| |m n]; cbn [checks_first] in C; try contradiction; unfold step, valid.
  - destruct r as [n h|n h|n h|raw sn un h]; try contradiction.
    destruct (Nat.ltb_spec m (nmods s)) as [Hm|Hm]; [|cbn; contradiction].
    destruct (register_refines s m (RSub raw sn un h) W Hm) as (_ & R). revert R.
    cbn [register v_register]. unfold verify_method_name.
    beq sn un; [cbn; auto|].
    destruct (contains_key sn (get s m)) eqn:Cs; [cbn; auto|].
    destruct (contains_key un (get s m)) eqn:Cu; [cbn; auto|].
    (* past the three checks the second insertion cannot fail *)
    unfold v_insert. rewrite lookup_hm_insert. beq sn un; [contradiction|].
    apply contains_key_false in Cs. rewrite Cs. cbn [snd].
    destruct (verify_and_insert (mut_insert s m un (Bind h KUnsub)) m sn (Bind h KSub)) as [s1 e1]. cbn.
    intros ->. cbn. contradiction.
  - destruct (m <? nmods s); [|cbn; contradiction].
    unfold register_alias, verify_method_name. destruct (contains_key a (get s m)); [cbn; auto|].
    destruct (lookup e (get s m)); cbn; [contradiction | auto].
  - destruct ((m <? nmods s) && (j <? nmods s)); [|cbn; contradiction].
    unfold merge. destruct (first_clash (get s m) (map fst (get s j))); [cbn; auto|].
    destruct (make_mut s m (Some (cell_of s j))); cbn; contradiction.
  - destruct (m <? nmods s); [|cbn; contradiction].
    destruct (build rs) as [other es]. unfold merge. destruct (first_clash (get s m) (map fst other)); [cbn; auto|].
    destruct (make_mut s m None); cbn; contradiction.
Qed.

Lemma dispatch : forall os m n, let s := exec init os in
  step s (Call m n) = (s, if (m <? nmods s) then OCall (bind s m n) else OBad).
Proof.
  intros os m n s. apply step_call.
Qed.

Lemma exec_frame s os k : wf_heap s ->
  k < nmods s -> Forall (fun o => writes o <> Some k) os -> get (exec s os) k = get s k.
Proof.
  intros W Hk F. destruct (exec_refines s os W) as [_ V]. rewrite !get_view, V.
  apply vexec_frame; [rewrite length_view; exact Hk | exact F].
Qed.

Lemma frame : forall os os2 k, let s := exec init os in
  k < nmods s -> Forall (fun o => writes o <> Some k) os2 -> get (exec s os2) k = get s k.
Proof. intros os os2 k s. apply exec_frame, registry_reach_inv. Qed.

Lemma trace_from_snoc os : forall s o,
  trace_from s (os ++ [o]) = trace_from s os ++ [(snd (step (exec s os) o), dump (exec s (os ++ [o])))].
Proof.
  induction os as [|o1 os IH]; intros s o; cbn [app trace_from].
  - cbn. destruct (step s o); reflexivity.
  - change (exec s (o1 :: os)) with (exec (fst (step s o1)) os).
    change (exec s (o1 :: os ++ [o])) with (exec (fst (step s o1)) (os ++ [o])).
    destruct (step s o1) as [s1 ob1]. cbn [fst app]. f_equal. apply IH.
Qed.

(* a witness history for the non-vacuity Examples of Props/C13.v *)
Definition na : name := b#"a".
Definition nb : name := b#"b".
Definition nc : name := b#"c".

Definition demo : list op :=
  [ Reg 0 (RMethod na 1);            (* ok *)
    Reg 0 (RAsync na 2);             (* a taken *)
    Reg 0 (RSub false nb nb 3);      (* subscribe = unsubscribe *)
    Reg 0 (RSub false nb na 4);      (* unsubscribe name taken *)
    Alias 0 nc nb;                   (* alias of a missing name *)
    Clone 0;                         (* module 1 *)
    Reg 0 (RSub true nb nc 5);       (* ok on module 0 only *)
    MergeMod 1 0;                    (* shares a *)
    Remove 0 na;
    MergeMod 0 1;                    (* now disjoint: ok *)
    Call 0 na; Call 1 nb; Call 0 nc ].
