(* C06: the cap is per CONNECTION -- the lemmas behind C06_cap_is_per_connection (its statement is explained in Props/C06.v):
   whether a subscribe call on connection c is admitted is a function of c's own record (`decision_by_own_count`), and a block
   of events of other connections leaves that record alone (`foreign_core` per event, `foreign_block_record` per block),
   hence also c's live count (`count_live_by_record`). *)
From Coq Require Import List NArith ZArith Bool Arith Lia.
From JV Require Import Model.AcceptSteps Gen.AcceptOrderGen Model.TableOps Gen.TableOpsGen Model.SubBook Proofs.SubBookFacts.
Import ListNotations.
#[local] Arguments N.add : simpl never.
#[local] Arguments N.eqb : simpl never.

(* the connection an event belongs to, in the state in which it runs; ServerStop is global *)
Definition act_conn (s : st) (a : act) : option nat :=
  match a with
  | SubscribeCall c _ | UnsubscribeCall c _ _ | WriterStep c | ConnDrop c => Some c
  | ServerStop => None
  | Accept1 h | Accept2 h | Reject h _ | AbandonCall h _ | DropPending h | CloneSink h _ _ | DropSink h _
  | SendCheck h _ _ | SendEnqueue h _ | IsClosed h _ | HandlerReturn h _ | CloseNotify h =>
      match nth_error (subs s) h with Some b => Some (s_conn b) | None => None end
  end.

(* an event of another connection (or of no connection at all: a handle that does not exist); never the global stop *)
Definition foreign_to (c : nat) (s : st) (a : act) : Prop := a <> ServerStop /\ act_conn s a <> Some c.

Fixpoint foreign_block (c : nat) (s : st) (l : list act) : Prop :=
  match l with
  | [] => True
  | a :: l' => foreign_to c s a /\ foreign_block c (fst (step s a)) l'
  end.

(* the subscribe call reached the handler *)
Definition admitted (o : list obs) : bool := match o with OHandler _ _ _ :: _ => true | _ => false end.

(* what the decision looks at: the connection's own record and the stop flag *)
Definition admits (s : st) (c : nat) : bool :=
  match nth_error (conns s) c with
  | Some cn => c_open cn && negb (stopped s) && negb (Nat.eqb (c_permits cn) 0)
  | None => false
  end.

Lemma settle_not_handler : forall s, admitted (snd (settle s)) = false.
Proof.
  intro s. destruct (snd (settle s)) as [|ob l] eqn:E; [reflexivity|].
  assert (H : In ob (snd (settle s))) by (rewrite E; left; reflexivity).
  apply settle_obs_shape in H. destruct H as [[c [f ->]] | [c ->]]; reflexivity.
Qed.

Lemma admitted_admits : forall s c req, admitted (snd (step s (SubscribeCall c req))) = admits s c.
Proof.
  intros s c req. rewrite step_snd. unfold admits. cbn [step_core step_core_g].
  destruct (nth_error (conns s) c) as [cn|]; [|cbn [snd app]; apply settle_not_handler].
  destruct (c_open cn && negb (stopped s)); [|cbn [snd app]; apply settle_not_handler].
  destruct (c_permits cn); reflexivity.
Qed.

Lemma decision_by_own_count : forall caps base meth tr c cn req,
  let s := fst (reach caps base meth tr) in
  nth_error (conns s) c = Some cn -> c_open cn = true -> stopped s = false ->
  (admitted (snd (step s (SubscribeCall c req))) = true <-> count_live s c < c_cap cn) /\
  (admitted (snd (step s (SubscribeCall c req))) = false <-> snd (step s (SubscribeCall c req)) = [ORefused c req]).
Proof.
  intros caps base meth tr c cn req s Hc Ho Hst.
  destruct (cap_respected caps base meth tr c cn Hc) as [E _]. fold s in E.
  rewrite (step_subscribe s c cn req Hc Ho Hst).
  destruct (c_permits cn); cbn [snd admitted]; split; split; intro H; try discriminate; try reflexivity; lia.
Qed.

Lemma apply_conn_other : forall s h b fs fc t c, s_conn b <> c ->
  nth_error (conns (apply s h b fs fc t)) c = nth_error (conns s) c /\ stopped (apply s h b fs fc t) = stopped s.
Proof. intros. split; [cbn [apply conns]; apply nth_error_upd_other; congruence | reflexivity]. Qed.

Lemma upd_conn_other : forall s d f c, d <> c ->
  nth_error (conns (upd_conn s d f)) c = nth_error (conns s) c /\ stopped (upd_conn s d f) = stopped s.
Proof. intros. split; [cbn [upd_conn set_conns conns]; apply nth_error_upd_other; congruence | reflexivity]. Qed.

(* A leaf of step_core_g is the state itself, `apply` on the event's own subscription, or `upd_conn` on the event's own
   connection; `Hd` (in the context) says that connection is not c. *)
Ltac other_leaf :=
  first [ split; reflexivity
        | apply apply_conn_other; assumption
        | apply upd_conn_other; assumption ].

Lemma foreign_core : forall ops old ct s a c, a <> ServerStop -> act_conn s a <> Some c ->
  nth_error (conns (fst (step_core_g ops old ct s a))) c = nth_error (conns s) c /\
  stopped (fst (step_core_g ops old ct s a)) = stopped s.
Proof.
  intros ops old ct s a c Hns Hf.
  destruct a; cbn [act_conn] in Hf; cbn [step_core_g];
    try (destruct (nth_error (subs s) h) as [b|] eqn:Hb; [|split; reflexivity];
         assert (Hd : s_conn b <> c) by congruence).
  - (* SubscribeCall *)
    assert (Hd : c0 <> c) by congruence.
    destruct (nth_error (conns s) c0) as [cn|]; [|split; reflexivity].
    destruct (c_open cn && negb (stopped s)); [|split; reflexivity].
    destruct (c_permits cn); cbn [fst]; [unfold push; apply upd_conn_other; assumption|].
    exact (upd_conn_other (set_subs s (subs s ++ [new_sub s c0 req])) c0 (c_set_permits n) c Hd).
  - (* Accept1 *)
    destruct (holds_pending (s_state b)); [|split; reflexivity].
    destruct (ar_ok _); cbn [fst]; other_leaf.
  - (* Accept2 *)
    destruct (s_state b); cbn [fst]; other_leaf.
  - (* Reject *)
    destruct (holds_pending (s_state b)); cbn [fst]; other_leaf.
  - (* AbandonCall *)
    destruct (s_state b); cbn [fst]; try other_leaf. destruct keep; cbn [fst]; other_leaf.
  - (* DropPending *)
    destruct (s_state b); cbn [fst]; other_leaf.
  - (* CloneSink *)
    destruct (memN src (s_sinks b) && negb (memN k (s_sinks b))); cbn [fst]; other_leaf.
  - (* DropSink *)
    destruct (memN k (s_sinks b) && negb (memN k (map fst (s_inflight b)))); cbn [fst]; [|other_leaf].
    destruct old; [unfold drop_sink_old; other_leaf|].
    unfold when_performed. destruct ct; [destruct (blocking (at_guard_drop ops))|];
      unfold drop_sink, drop_sink_skipped; other_leaf.
  - (* SendCheck *)
    destruct (memN k (s_sinks b) && negb (memN k (map fst (s_inflight b)))); cbn [fst]; [|other_leaf].
    destruct (sink_closed s b); cbn [fst]; other_leaf.
  - (* SendEnqueue *)
    destruct (inflight_of k (s_inflight b)); cbn [fst]; other_leaf.
  - (* IsClosed *)
    destruct (memN k (s_sinks b)); cbn [fst]; other_leaf.
  - (* HandlerReturn *)
    destruct (s_returned b); cbn [fst]; [other_leaf|].
    destruct (s_state b); cbn [fst]; other_leaf.
  - (* CloseNotify *)
    destruct (s_ret b); cbn [fst]; other_leaf.
  - (* UnsubscribeCall *)
    assert (Hd : c0 <> c) by congruence.
    destruct (nth_error (conns s) c0) as [cn|]; [|split; reflexivity].
    destruct (c_open cn && negb (stopped s)); [|split; reflexivity].
    destruct (when_performed ct (at_unsubscribe ops) true false); cbn [fst].
    + match goal with |- context [upd_conn ?s2 c0 ?f] => destruct (upd_conn_other s2 c0 f c Hd) as [E1 E2] end.
      split; [exact E1 | exact E2].
    + apply upd_conn_other; assumption.
  - (* WriterStep *)
    assert (Hd : c0 <> c) by congruence.
    destruct (nth_error (conns s) c0) as [cn|]; [|split; reflexivity].
    destruct (c_open cn); [|split; reflexivity].
    destruct (c_queue cn); cbn [fst]; [split; reflexivity | apply upd_conn_other; assumption].
  - (* ConnDrop *)
    assert (Hd : c0 <> c) by congruence.
    destruct (nth_error (conns s) c0) as [cn|]; [|split; reflexivity].
    destruct (c_open cn); cbn [fst]; [apply upd_conn_other; assumption | split; reflexivity].
  - (* ServerStop *)
    contradiction.
Qed.

Lemma foreign_step : forall s a c, stopped s = false -> foreign_to c s a ->
  nth_error (conns (fst (step s a))) c = nth_error (conns s) c /\ stopped (fst (step s a)) = false.
Proof.
  intros s a c Hst [Hns Hf]. rewrite step_fst.
  destruct (foreign_core table_ops_gen false false s a c Hns Hf) as [E1 E2]. fold (step_core false s a) in E1, E2.
  rewrite Hst in E2. unfold settle. rewrite E2. cbn [fst]. split; assumption.
Qed.

Lemma count_live_by_record : forall s s' c, Inv s -> Inv s' ->
  nth_error (conns s') c = nth_error (conns s) c -> count_live s' c = count_live s c.
Proof.
  intros s s' c I I' E. rewrite (count_live_on s c I), (count_live_on s' c I').
  destruct (nth_error (conns s) c) as [cn|] eqn:Hc.
  - pose proof (inv_count s I _ _ Hc). pose proof (inv_count s' I' _ _ E). lia.
  - (* no such connection: no subscription names it *)
    assert (G : forall x, Inv x -> nth_error (conns x) c = None -> count_on x c = 0).
    { intros x Ix Hn. unfold count_on. apply length_zero_iff_nil.
      destruct (filter (holds_on c) (subs x)) as [|b l] eqn:F; [reflexivity|].
      assert (Hin : In b (filter (holds_on c) (subs x))) by (rewrite F; left; reflexivity).
      apply filter_In in Hin. destruct Hin as [Hin Hh]. apply In_nth_error in Hin. destruct Hin as [h Hb].
      pose proof (ok_conn (inv_sub x Ix _ _ Hb)) as Hlt. unfold holds_on in Hh. apply andb_true_iff in Hh. destruct Hh as [Hh _].
      apply Nat.eqb_eq in Hh. apply nth_error_None in Hn. lia. }
    rewrite (G s I Hc), (G s' I' E). reflexivity.
Qed.

Lemma foreign_block_record : forall caps base meth mid tr c,
  stopped (fst (reach caps base meth tr)) = false -> foreign_block c (fst (reach caps base meth tr)) mid ->
  nth_error (conns (fst (reach caps base meth (tr ++ mid)))) c = nth_error (conns (fst (reach caps base meth tr))) c /\
  stopped (fst (reach caps base meth (tr ++ mid))) = false.
Proof.
  intros caps base meth mid. induction mid as [|a mid IH]; intros tr c Hst Hb.
  - rewrite app_nil_r. split; [reflexivity | assumption].
  - cbn [foreign_block] in Hb. destruct Hb as [Ha Hb].
    destruct (foreign_step _ a c Hst Ha) as [E1 E2].
    replace (tr ++ a :: mid) with ((tr ++ [a]) ++ mid) by (rewrite <- app_assoc; reflexivity).
    assert (Es : fst (reach caps base meth (tr ++ [a])) = fst (step (fst (reach caps base meth tr)) a)) by (rewrite reach_snoc; reflexivity).
    destruct (IH (tr ++ [a]) c) as [F1 F2]; [rewrite Es; assumption | rewrite Es; assumption |].
    split; [rewrite F1, Es; exact E1 | exact F2].
Qed.
