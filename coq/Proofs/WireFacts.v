(* Round trips of the jsonrpsee wire types (Model/Wire.v) through their serialisers and parsers.  Payloads (params /
   result / data) are raw JSON texts.  The theorems about emitted responses and about what the response parser accepts
   are proved in Props/C15.v from the lemmas here.

   Every struct is handled the same way.  Its serialisation is an object assembled from (key, value text) pairs
   (`ser_X_eq`); the member scanner gives these pairs back (`object_members_ser`), as the array splitter gives back the
   elements of an assembled array (`array_elems_ser`); the map reader on the pairs the library writes is the positional
   reader on the value texts (`*_seq`, by computation on the keys); and the positional reader reads the serialised
   fields back (`seq_*_fields`).  The map-form and the sequence-form round trips are these four put together. *)
From JV Require Import Base.Bytes Base.Dec Base.Utf8 Json.Json Json.JsonSer Json.JsonParse Json.JsonWf Model.Wire.
From JV Require Import Proofs.JsonFacts.
Local Open Scope N_scope.
#[local] Arguments N.add : simpl never.
#[local] Arguments N.sub : simpl never.
#[local] Arguments N.mul : simpl never.
#[local] Arguments N.ltb : simpl never.
#[local] Arguments N.leb : simpl never.
#[local] Arguments N.eqb : simpl never.

(* Id::Number is a u64, Id::Str a Rust string *)
Definition wf_id (i : id) : Prop :=
  match i with IdNum n => n <= u64_max | IdStr s => utf8_valid s = true | IdNull => True end.
Definition wf_subid (i : subid) : Prop :=
  match i with SubNum n => n <= u64_max | SubStr s => utf8_valid s = true end.

(* a raw JSON text as Box<RawValue> holds it: one complete value, a Rust str, no leading whitespace *)
Definition raw_payload (t : bytes) : Prop := raw_ok t /\ utf8_valid t = true /\ skip_ws t = t.
(* Option<RawValue>: the text `null` reads back as None *)
Definition nonnull (t : bytes) : Prop := is_null_span t = false.

(* what the member scanner needs of a value text (no UTF-8 requirement) *)
Definition span_ok (t : bytes) : Prop := raw_ok t /\ skip_ws t = t.

Lemma raw_payload_span t : raw_payload t -> span_ok t.
Proof. intros (R & _ & W). split; assumption. Qed.

Lemma raw_payload_utf8 t : raw_payload t -> utf8_valid t = true.
Proof. intros (_ & U & _). exact U. Qed.

Lemma span_ok_ser v : wf v = true -> span_ok (ser v).
Proof. intro W. split; [apply raw_ok_ser, W | apply skip_ws_ser, W]. Qed.

Lemma raw_payload_ser v : wf v = true -> raw_payload (ser v).
Proof. intro W. split; [apply raw_ok_ser, W | split; [apply ser_utf8, W | apply skip_ws_ser, W]]. Qed.

Lemma span_ok_follow t X : span_ok t -> ok_follow X = true ->
  skip_ws (t ++ X) = t ++ X /\ forall f, (length t <= f)%nat -> skip_value f (t ++ X) = Some (t, X).
Proof.
  intros [R W] HX. destruct (raw_ok_trim t X R HX) as [E1 E2]. rewrite W in E1, E2. split; assumption.
Qed.

Fixpoint ser_mems (ms : members) : bytes :=
  match ms with
  | [] => [x7d]
  | (k, v) :: ms' => ser_str k ++ x3a :: v ++ match ms' with [] => [x7d] | _ :: _ => x2c :: ser_mems ms' end
  end.
Definition ser_object (ms : members) : bytes := x7b :: ser_mems ms.

Definition mem_ok (kv : bytes * bytes) : Prop := utf8_valid (fst kv) = true /\ span_ok (snd kv).

Lemma members_loop_S f s : members_loop (S f) s =
    match skip_ws s with
    | q :: s1 =>
      if beqb q x22 then
        match scan_str_valid s1 with
        | Some (k, r0) =>
          match skip_ws r0 with
          | col :: r1 =>
            if beqb col x3a then
              let r1' := skip_ws r1 in
              match skip_value (S (length r1')) r1' with
              | Some (span, r) =>
                match skip_ws r with
                | c :: r2 =>
                  if beqb c x2c then
                    match members_loop f r2 with Some (ms, r3) => Some ((k, span) :: ms, r3) | None => None end
                  else if beqb c x7d then Some ([(k, span)], r2)
                  else None
                | [] => None
                end
              | None => None
              end
            else None
          | [] => None
          end
        | None => None
        end
      else None
    | [] => None
    end.
Proof. reflexivity. Qed.

Lemma members_loop_member f k v c rest :
  utf8_valid k = true -> span_ok v -> ok_follow (c :: rest) = true -> is_json_ws c = false ->
  members_loop (S f) (ser_str k ++ x3a :: v ++ c :: rest) =
    if beqb c x2c then match members_loop f rest with Some (ms, r) => Some ((k, v) :: ms, r) | None => None end
    else if beqb c x7d then Some ([(k, v)], rest)
    else None.
Proof.
  intros Uk Sv Hc Wc. rewrite members_loop_S, ser_str_app, (skip_ws_cons_nws x22) by reflexivity.
  cbv beta iota. rewrite (beqb_refl x22), (scan_str_valid_escape k _ Uk), (skip_ws_cons_nws x3a) by reflexivity.
  cbv beta iota zeta. rewrite (beqb_refl x3a).
  destruct (span_ok_follow v (c :: rest) Sv Hc) as [E1 E2].
  rewrite E1, E2 by (rewrite app_length; lia).
  rewrite (skip_ws_cons_nws c) by exact Wc. reflexivity.
Qed.

Lemma ser_mems_cons k v ms :
  ser_mems ((k, v) :: ms) = ser_str k ++ x3a :: v ++ match ms with [] => [x7d] | _ :: _ => x2c :: ser_mems ms end.
Proof. reflexivity. Qed.

Lemma ser_mems_cons_app k v ms rest :
  ser_mems ((k, v) :: ms) ++ rest =
  ser_str k ++ x3a :: v ++ match ms with [] => x7d :: rest | _ :: _ => x2c :: ser_mems ms ++ rest end.
Proof. rewrite ser_mems_cons, <- app_assoc. cbn [app]. rewrite <- app_assoc. destruct ms; reflexivity. Qed.

Lemma members_loop_ser ms : ms <> [] -> Forall mem_ok ms ->
  forall rest f, (length ms <= f)%nat -> members_loop f (ser_mems ms ++ rest) = Some (ms, rest).
Proof.
  intros Hne HF. induction HF as [|[k v] ms [Uk Sv] HF IH]; [congruence|]. intros rest [|f] Hf; [cbn in Hf; lia|].
  rewrite ser_mems_cons_app. destruct ms as [|kv ms]; rewrite members_loop_member by (assumption || reflexivity).
  - reflexivity.
  - rewrite IH; [reflexivity | discriminate | cbn [length] in Hf |- *; lia].
Qed.

Lemma ser_mems_head k v ms : exists tl, ser_mems ((k, v) :: ms) = x22 :: tl.
Proof. eexists. cbn [ser_mems]. unfold ser_str. cbn [app]. reflexivity. Qed.

Lemma ser_mems_length ms : (length ms <= length (ser_mems ms))%nat.
Proof.
  induction ms as [|[k v] ms IH]; [cbn; lia|].
  rewrite ser_mems_cons, !app_length. cbn [length]. rewrite app_length. destruct ms; cbn [length] in *; lia.
Qed.

Theorem object_members_ser ms : Forall mem_ok ms -> object_members (ser_object ms) = Some ms.
Proof.
  intro HF. destruct ms as [|[k v] ms]; [reflexivity|].
  unfold object_members, ser_object. rewrite (skip_ws_cons_nws x7b) by reflexivity.
  cbv beta iota. rewrite (beqb_refl x7b).
  destruct (ser_mems_head k v ms) as [tl E].
  rewrite E at 1. rewrite (skip_ws_cons_nws x22) by reflexivity. cbv beta iota.
  change (beqb x22 x7d) with false. cbv beta iota.
  rewrite <- (app_nil_r (ser_mems ((k, v) :: ms))) at 2.
  (* fuel: object_members gives the length of the text, the scanner uses one unit per member, and a member takes
     at least one byte *)
  rewrite (members_loop_ser _ (fun H => nil_cons (eq_sym H)) HF [] _
             (le_S _ _ (ser_mems_length ((k, v) :: ms)))).
  reflexivity.
Qed.

Lemma ws_prefix_cons_nws c s : is_json_ws c = false -> ws_prefix (c :: s) = [].
Proof. intro H. unfold ws_prefix. cbn [take_while]. rewrite H. reflexivity. Qed.

Lemma skip_members_member f k v c rest :
  span_ok v -> (length v <= f)%nat -> ok_follow (c :: rest) = true -> is_json_ws c = false ->
  skip_members (S f) (ser_str k ++ x3a :: v ++ c :: rest) =
    if beqb c x2c then
      match skip_members f rest with Some (t, r) => Some (ser_str k ++ x3a :: v ++ c :: t, r) | None => None end
    else if beqb c x7d then Some (ser_str k ++ x3a :: v ++ [c], rest)
    else None.
Proof.
  intros Sv Hf Hc Wc.
  rewrite skip_members_S, ser_str_app, (skip_ws_cons_nws x22), (ws_prefix_cons_nws x22) by reflexivity.
  cbv beta iota. rewrite (beqb_refl x22), skip_str_escape, (skip_ws_cons_nws x3a), (ws_prefix_cons_nws x3a) by reflexivity.
  cbv beta iota. rewrite (beqb_refl x3a).
  destruct (span_ok_follow v (c :: rest) Sv Hc) as [_ E2]. rewrite E2 by exact Hf.
  rewrite (skip_ws_cons_nws c), (ws_prefix_cons_nws c) by exact Wc. cbv beta iota zeta.
  destruct (beqb c x2c); [destruct (skip_members f rest) as [[t r]|] | destruct (beqb c x7d)]; try reflexivity;
    f_equal; f_equal; unfold ser_str; list_solve.
Qed.

(* the lenient scanner does not look into the keys: the value texts alone decide *)
Lemma skip_members_ser ms : ms <> [] -> Forall (fun kv => span_ok (snd kv)) ms ->
  forall rest f, (length (ser_mems ms) <= f)%nat ->
    skip_members f (ser_mems ms ++ rest) = Some (ser_mems ms, rest).
Proof.
  intros Hne HF. induction HF as [|[k v] ms Sv HF IH]; [congruence|]. intros rest f Hf. cbn [snd] in Sv.
  rewrite ser_mems_cons_app. rewrite ser_mems_cons in Hf |- *.
  destruct f as [|f]; [unfold ser_str in Hf; cbn in Hf; lia|].
  destruct ms as [|kv ms]; rewrite skip_members_member by (assumption || reflexivity || len_solve).
  - reflexivity.
  - rewrite IH; [reflexivity | discriminate | len_solve].
Qed.

Theorem raw_ok_object ms : Forall (fun kv => span_ok (snd kv)) ms -> raw_ok (ser_object ms).
Proof.
  intro HF. destruct ms as [|[k v] ms].
  - change (ser_object []) with (ser (JObj [])). apply raw_ok_ser. reflexivity.
  - intros rest _. unfold ser_object. cbn [app].
    rewrite (skip_value_object _ _ (ser_mems ((k, v) :: ms) ++ rest)) by reflexivity.
    destruct (ser_mems_head k v ms) as [tl E]. rewrite E at 1. cbn [app].
    rewrite (skip_ws_cons_nws x22) by reflexivity. change (beqb x22 x7d) with false. cbv iota.
    rewrite skip_members_ser; [reflexivity | discriminate | exact HF | cbn [length]; rewrite app_length; lia].
Qed.

Lemma mem_ok_span ms : Forall mem_ok ms -> Forall (fun kv => span_ok (snd kv)) ms.
Proof. apply Forall_impl. intros kv [_ S]. exact S. Qed.

Corollary span_ok_object ms : Forall mem_ok ms -> span_ok (ser_object ms).
Proof. intro HF. split; [apply raw_ok_object, mem_ok_span, HF | reflexivity]. Qed.

Definition mem_utf8 (kv : bytes * bytes) : Prop := utf8_valid (fst kv) = true /\ utf8_valid (snd kv) = true.

Lemma ser_mems_utf8 ms : Forall mem_utf8 ms -> utf8_valid (ser_mems ms) = true.
Proof.
  induction 1 as [|[k v] ms [Uk Uv] HF IH]; [reflexivity|].
  rewrite ser_mems_cons.
  apply utf8_valid_app; [apply ser_str_utf8, Uk|]. rewrite utf8_valid_ascii_cons by reflexivity.
  apply utf8_valid_app; [exact Uv|]. destruct ms; [reflexivity|].
  rewrite utf8_valid_ascii_cons by reflexivity. exact IH.
Qed.

Theorem raw_payload_object ms : Forall mem_ok ms -> Forall mem_utf8 ms -> raw_payload (ser_object ms).
Proof.
  intros H1 H2. split; [apply raw_ok_object, mem_ok_span, H1 | split; [|reflexivity]].
  unfold ser_object. rewrite utf8_valid_ascii_cons by reflexivity. apply ser_mems_utf8, H2.
Qed.

Lemma object_members_head t m : object_members t = Some m -> exists s1, skip_ws t = x7b :: s1.
Proof.
  unfold object_members. destruct (skip_ws t) as [|c s1]; [discriminate|].
  destruct (beqb c x7b) eqn:E; [|discriminate]. apply beqb_true in E. subst c. intros _. exists s1. reflexivity.
Qed.

Lemma array_elems_head t els : array_elems t = Some els -> exists s1, skip_ws t = x5b :: s1.
Proof.
  unfold array_elems, array_elems_fuel. destruct (skip_ws t) as [|c s1]; [discriminate|].
  destruct (beqb c x5b) eqn:E; [|discriminate]. apply beqb_true in E. subst c. intros _. exists s1. reflexivity.
Qed.

Lemma array_not_object t els : array_elems t = Some els -> object_members t = None.
Proof.
  intro H. destruct (array_elems_head t els H) as [s1 E]. unfold object_members. rewrite E. reflexivity.
Qed.

(* the dispatch on the first byte selects the one reader that can accept the text at all *)
Lemma de_struct_eq {A : Type} (f : members -> option A) g t :
  de_struct f g t =
  match object_members t with
  | Some m => f m
  | None => match array_elems t with Some els => g els | None => None end
  end.
Proof.
  destruct (array_elems t) as [els|] eqn:Ea.
  - rewrite (array_not_object t els Ea). unfold de_struct. destruct (array_elems_head t els Ea) as [s1 ->].
    rewrite Ea. reflexivity.
  - unfold de_struct. rewrite Ea. destruct (object_members t) as [m|] eqn:Eo.
    + destruct (object_members_head t m Eo) as [s1 ->]. reflexivity.
    + destruct (skip_ws t) as [|c s1]; [reflexivity|]. destruct (beqb c x7b), (beqb c x5b); reflexivity.
Qed.

Lemma de_struct_object {A : Type} (f : members -> option A) g t m : object_members t = Some m -> de_struct f g t = f m.
Proof. intro H. rewrite de_struct_eq, H. reflexivity. Qed.

Lemma de_struct_array {A : Type} (f : members -> option A) g t els : array_elems t = Some els -> de_struct f g t = g els.
Proof. intro H. rewrite de_struct_eq, (array_not_object t els H), H. reflexivity. Qed.

Lemma de_struct_none {A : Type} (f : members -> option A) g t :
  object_members t = None -> array_elems t = None -> de_struct f g t = None.
Proof. intros H1 H2. rewrite de_struct_eq, H1, H2. reflexivity. Qed.

(* a visitor without visit_seq (the hand-written Response visitor) is just the map reader *)
Lemma de_struct_map_only {A : Type} (f : members -> option A) t :
  de_struct f (fun _ => None) t = match object_members t with Some m => f m | None => None end.
Proof. rewrite de_struct_eq. destruct (object_members t); [reflexivity|]. destruct (array_elems t); reflexivity. Qed.

Lemma de_struct_ser_object {A : Type} (f : members -> option A) g ms :
  Forall mem_ok ms -> de_struct f g (ser_object ms) = f ms.
Proof. intro HF. apply de_struct_object, object_members_ser, HF. Qed.

Definition ser_array (ts : list bytes) : bytes := x5b :: join [x2c] ts ++ [x5d].

Lemma join_length_ge (rs : list bytes) :
  (forall r, In r rs -> (1 <= length r)%nat) -> (length rs <= length (join [x2c] rs))%nat.
Proof.
  induction rs as [|r rs IH]; intro H; [cbn; lia|]. destruct rs as [|r2 rs].
  - cbn [join length]. apply H. left. reflexivity.
  - rewrite join_cons2, !app_length. cbn [length].
    pose proof (H r (or_introl eq_refl)). assert (length (r2 :: rs) <= length (join [x2c] (r2 :: rs)))%nat.
    { apply IH. intros r' Hr'. apply H. right. exact Hr'. }
    cbn [length] in *. lia.
Qed.

Lemma span_ok_raw_ok ts : Forall span_ok ts -> Forall raw_ok ts.
Proof. apply Forall_impl. intros r [R _]. exact R. Qed.

(* array_elems is JsonFacts' split_elems, which skip_array_join is about *)
Theorem array_elems_ser ts : ts <> [] -> Forall span_ok ts -> array_elems (ser_array ts) = Some ts.
Proof.
  intros Hne HF. pose proof (span_ok_raw_ok ts HF) as HR.
  change (split_elems (S (length (ser_array ts))) (ser_array ts) = Some ts). unfold ser_array.
  rewrite (proj2 (skip_array_join ts Hne HR)).
  - f_equal. clear Hne HR. induction HF as [|r rs [_ W] _ IH]; [reflexivity|]. cbn [map]. rewrite W, IH. reflexivity.
  - cbn [length]. rewrite app_length. cbn [length].
    assert (length ts <= length (join [x2c] ts))%nat; [|lia].
    apply join_length_ge. intros r Hr. rewrite Forall_forall in HR. apply raw_ok_nonempty, HR, Hr.
Qed.

Lemma de_struct_ser_array {A : Type} (f : members -> option A) g ts :
  ts <> [] -> Forall span_ok ts -> de_struct f g (ser_array ts) = g ts.
Proof. intros Hne HF. apply de_struct_array, array_elems_ser; assumption. Qed.

Lemma span_ok_array ts : ts <> [] -> Forall span_ok ts -> span_ok (ser_array ts).
Proof. intros Hne HF. split; [|reflexivity]. apply raw_ok_array; [exact Hne | apply span_ok_raw_ok, HF]. Qed.

Lemma depth0 v : jdepth v = 0%nat -> (jdepth v < depth_limit)%nat.
Proof. intro H. rewrite H. unfold depth_limit. lia. Qed.

Lemma wf_json_of_id i : wf_id i -> wf (json_of_id i) = true.
Proof.
  destruct i as [|n|s]; cbn [wf_id json_of_id wf wf_num]; intro H;
    [reflexivity | apply N.leb_le, H | exact H].
Qed.
Lemma wf_json_of_subid i : wf_subid i -> wf (json_of_subid i) = true.
Proof.
  destruct i as [n|s]; cbn [wf_subid json_of_subid wf wf_num]; intro H; [apply N.leb_le, H | exact H].
Qed.

Theorem id_roundtrip i : wf_id i -> parse_id (ser_id i) = Some i.
Proof.
  intro W. unfold parse_id, ser_id.
  rewrite parse_text_ser by (apply wf_json_of_id, W || (apply depth0; destruct i; reflexivity)).
  destruct i; reflexivity.
Qed.

Theorem subid_roundtrip i : wf_subid i -> parse_subid (ser_subid i) = Some i.
Proof.
  intro W. unfold parse_subid, ser_subid.
  rewrite parse_text_ser by (apply wf_json_of_subid, W || (apply depth0; destruct i; reflexivity)).
  destruct i; reflexivity.
Qed.

Lemma span_ok_id i : wf_id i -> span_ok (ser_id i).
Proof. intro W. apply span_ok_ser, wf_json_of_id, W. Qed.
Lemma span_ok_subid i : wf_subid i -> span_ok (ser_subid i).
Proof. intro W. apply span_ok_ser, wf_json_of_subid, W. Qed.
Lemma utf8_id i : wf_id i -> utf8_valid (ser_id i) = true.
Proof. intro W. apply ser_utf8, wf_json_of_id, W. Qed.
Lemma utf8_subid i : wf_subid i -> utf8_valid (ser_subid i) = true.
Proof. intro W. apply ser_utf8, wf_json_of_subid, W. Qed.

Lemma span_ok_str s : utf8_valid s = true -> span_ok (ser_str s).
Proof. intro U. apply (span_ok_ser (JStr s)). exact U. Qed.

Lemma as_str_ser s : utf8_valid s = true -> as_str (ser_str s) = Some s.
Proof.
  intro U. unfold as_str. change (ser_str s) with (ser (JStr s)).
  rewrite parse_text_ser; [reflexivity | exact U | apply depth0; reflexivity].
Qed.

Lemma is_two_two : is_two (ser_str v_two) = true.
Proof. vm_compute. reflexivity. Qed.
Lemma two_not_null : is_null_span (ser_str v_two) = false.
Proof. vm_compute. reflexivity. Qed.
Lemma span_ok_two : span_ok (ser_str v_two).
Proof. apply span_ok_str. reflexivity. Qed.
Lemma span_ok_null : span_ok b#"null".
Proof. apply (span_ok_ser JNull). reflexivity. Qed.

Lemma as_raw_payload p : raw_payload p -> as_raw p = Some p.
Proof. intro H. unfold as_raw. rewrite (raw_payload_utf8 p H). reflexivity. Qed.

Definition json_of_code (z : Z) : json :=
  match z with Z0 => JNum (NPos 0) | Zpos p => JNum (NPos (Npos p)) | Zneg p => JNum (NNeg (Npos p)) end.
Definition i32_range (z : Z) : Prop := (-2147483648 <= z < 2147483648)%Z.

Lemma print_Z_ser z : print_Z z = ser (json_of_code z).
Proof. destruct z; reflexivity. Qed.

Lemma wf_json_of_code z : i32_range z -> wf (json_of_code z) = true.
Proof.
  unfold i32_range. destruct z as [|p|p]; intro H; cbn [json_of_code wf wf_num].
  - reflexivity.
  - apply N.leb_le. unfold u64_max. lia.
  - apply andb_true_iff. split; [reflexivity | apply N.leb_le; unfold i64_min_abs; lia].
Qed.

Lemma i32_of_code z : i32_range z -> i32_of_json (json_of_code z) = Some z.
Proof.
  unfold i32_range. destruct z as [|p|p]; intro H; cbn [json_of_code i32_of_json].
  - reflexivity.
  - replace (N.pos p <=? 2147483647) with true by (symmetry; apply N.leb_le; lia). reflexivity.
  - replace (N.pos p <=? 2147483648) with true by (symmetry; apply N.leb_le; lia). reflexivity.
Qed.

Lemma parse_text_code z : i32_range z -> parse_text (print_Z z) = Some (json_of_code z).
Proof.
  intro H. rewrite print_Z_ser. apply parse_text_ser; [apply wf_json_of_code, H | apply depth0; destruct z; reflexivity].
Qed.
Lemma span_ok_code z : i32_range z -> span_ok (print_Z z).
Proof. intro H. rewrite print_Z_ser. apply span_ok_ser, wf_json_of_code, H. Qed.
Lemma utf8_code z : i32_range z -> utf8_valid (print_Z z) = true.
Proof. intro H. rewrite print_Z_ser. apply ser_utf8, wf_json_of_code, H. Qed.

(* Option<RawValue> fields: left out of the map form when None, `null` in the sequence form. *)

Definition wf_opt_payload (o : option bytes) : Prop :=
  match o with Some p => raw_payload p /\ nonnull p | None => True end.

Definition opt_member (k : bytes) (o : option bytes) : members :=
  match o with Some d => [(k, d)] | None => [] end.
Definition opt_text (o : option bytes) : bytes := match o with Some d => d | None => b#"null" end.

Lemma as_opt_raw_opt_text o : wf_opt_payload o -> as_opt_raw (opt_text o) = Some o.
Proof.
  destruct o as [d|]; [|reflexivity]. intros [H N]. unfold as_opt_raw, opt_text.
  unfold nonnull in N. rewrite N, (raw_payload_utf8 d H). reflexivity.
Qed.

Lemma span_ok_opt_text o : wf_opt_payload o -> span_ok (opt_text o).
Proof. destruct o as [d|]; [intros [H _]; apply raw_payload_span, H | intros _; exact span_ok_null]. Qed.

Lemma mem_ok_pair k v : utf8_valid k = true -> span_ok v -> mem_ok (k, v).
Proof. split; assumption. Qed.
Lemma mem_utf8_pair k v : utf8_valid k = true -> utf8_valid v = true -> mem_utf8 (k, v).
Proof. split; assumption. Qed.

Lemma opt_member_ok k o : utf8_valid k = true -> wf_opt_payload o -> Forall mem_ok (opt_member k o).
Proof.
  intros Uk H. destruct o as [p|]; constructor; [|constructor]. apply mem_ok_pair, raw_payload_span, H. exact Uk.
Qed.
Lemma opt_member_utf8 k o : utf8_valid k = true -> wf_opt_payload o -> Forall mem_utf8 (opt_member k o).
Proof.
  intros Uk H. destruct o as [p|]; constructor; [|constructor]. apply mem_utf8_pair, raw_payload_utf8, H. exact Uk.
Qed.

(* the side conditions of object_members_ser / array_elems_ser on the lists the serialisers write:
   every key is a UTF-8 constant, every value text one of the serialised scalars or a checked payload.
   A written-out list is split into its elements in one step, so that the search depth does not grow with its length. *)
Create HintDb wire.
#[export] Hint Extern 0 (Forall _ (_ :: _)) => repeat apply Forall_cons : wire.
#[export] Hint Resolve Forall_nil : wire.
#[export] Hint Resolve mem_ok_pair mem_utf8_pair opt_member_ok opt_member_utf8 raw_payload_span raw_payload_utf8
  span_ok_two span_ok_null span_ok_str span_ok_id span_ok_subid span_ok_code span_ok_opt_text span_ok_object span_ok_array
  utf8_id utf8_code ser_str_utf8 : wire.
#[export] Hint Extern 1 (utf8_valid _ = true) => reflexivity : wire.
#[export] Hint Extern 1 (_ :: _ <> []) => discriminate : wire.

Definition errobj_members (e : errobj) : members :=
  (k_code, print_Z (e_code e)) :: (k_message, ser_str (e_message e)) :: opt_member k_data (e_data e).
Definition errobj_seq_fields (e : errobj) : list bytes := [print_Z (e_code e); ser_str (e_message e); opt_text (e_data e)].

Lemma ser_errobj_eq e : ser_errobj e = ser_object (errobj_members e).
Proof.
  unfold ser_errobj, ser_object, errobj_members, opt_member.
  destruct (e_data e); cbn [ser_mems]; list_solve.
Qed.

Definition wf_errobj (e : errobj) : Prop :=
  i32_range (e_code e) /\ utf8_valid (e_message e) = true /\
  match e_data e with Some d => raw_payload d /\ nonnull d | None => True end.

Lemma parse_errobj_members_seq c m od :
  parse_errobj_members ((k_code, c) :: (k_message, m) :: opt_member k_data od) = seq_errobj [c; m; opt_text od].
Proof. destruct od; reflexivity. Qed.

Lemma seq_errobj_fields e : wf_errobj e -> seq_errobj (errobj_seq_fields e) = Some e.
Proof.
  intros (Hc & Um & Hd). unfold errobj_seq_fields, seq_errobj.
  rewrite (parse_text_code _ Hc), (as_str_ser _ Um), (i32_of_code _ Hc), (as_opt_raw_opt_text _ Hd).
  destruct e; reflexivity.
Qed.

Lemma errobj_members_ok e : wf_errobj e -> Forall mem_ok (errobj_members e).
Proof. intros (Hc & Um & Hd). unfold errobj_members. auto with wire. Qed.
Lemma errobj_members_utf8 e : wf_errobj e -> Forall mem_utf8 (errobj_members e).
Proof. intros (Hc & Um & Hd). unfold errobj_members. auto with wire. Qed.
Lemma errobj_seq_fields_ok e : wf_errobj e -> Forall span_ok (errobj_seq_fields e).
Proof. intros (Hc & Um & Hd). unfold errobj_seq_fields. auto with wire. Qed.

Theorem errobj_roundtrip e : wf_errobj e -> parse_errobj (ser_errobj e) = Some e.
Proof.
  intro W. unfold parse_errobj. rewrite ser_errobj_eq, de_struct_ser_object by apply errobj_members_ok, W.
  unfold errobj_members. rewrite parse_errobj_members_seq. apply seq_errobj_fields, W.
Qed.

Lemma raw_payload_errobj e : wf_errobj e -> raw_payload (ser_errobj e).
Proof. intro W. rewrite ser_errobj_eq. apply raw_payload_object; [apply errobj_members_ok | apply errobj_members_utf8]; exact W. Qed.

Definition request_members (r : request) : members :=
  (k_jsonrpc, ser_str v_two) :: (k_id, ser_id (rq_id r)) :: (k_method, ser_str (rq_method r)) ::
  opt_member k_params (rq_params r).
Definition request_seq_fields (r : request) : list bytes :=
  [ser_str v_two; ser_id (rq_id r); ser_str (rq_method r); opt_text (rq_params r)].

Lemma ser_request_eq r : ser_request r = ser_object (request_members r).
Proof.
  unfold ser_request, ser_object, request_members, opt_member.
  destruct (rq_params r); cbn [ser_mems]; list_solve.
Qed.

Lemma as_request_seq j i m op :
  as_request ((k_jsonrpc, j) :: (k_id, i) :: (k_method, m) :: opt_member k_params op) = seq_request [j; i; m; opt_text op].
Proof. destruct op; reflexivity. Qed.

Lemma seq_request_fields r :
  wf_id (rq_id r) -> utf8_valid (rq_method r) = true -> wf_opt_payload (rq_params r) ->
  seq_request (request_seq_fields r) = Some r.
Proof.
  intros Wi Um Hp. unfold request_seq_fields, seq_request.
  rewrite is_two_two, (id_roundtrip _ Wi), (as_str_ser _ Um), (as_opt_raw_opt_text _ Hp). destruct r; reflexivity.
Qed.

Lemma request_members_ok r :
  wf_id (rq_id r) -> utf8_valid (rq_method r) = true -> wf_opt_payload (rq_params r) -> Forall mem_ok (request_members r).
Proof. intros Wi Um Hp. unfold request_members. auto with wire. Qed.

Lemma as_request_members r :
  wf_id (rq_id r) -> utf8_valid (rq_method r) = true -> wf_opt_payload (rq_params r) ->
  as_request (request_members r) = Some r.
Proof. intros Wi Um Hp. unfold request_members. rewrite as_request_seq. apply seq_request_fields; assumption. Qed.

Theorem request_roundtrip r :
  wf_id (rq_id r) -> utf8_valid (rq_method r) = true -> wf_opt_payload (rq_params r) ->
  parse_request (ser_request r) = Some r.
Proof.
  intros Wi Um Hp. unfold parse_request.
  rewrite ser_request_eq, de_struct_ser_object by (apply request_members_ok; assumption).
  apply as_request_members; assumption.
Qed.

Definition notification_members (me : bytes) (p : option bytes) : members :=
  [(k_jsonrpc, ser_str v_two); (k_method, ser_str me); (k_params, opt_text p)].

Lemma ser_notification_eq me p : ser_notification me p = ser_object (notification_members me p).
Proof. unfold ser_notification, ser_object, notification_members, opt_text. cbn [ser_mems]. list_solve. Qed.

Lemma notification_members_ok me p : utf8_valid me = true -> wf_opt_payload p -> Forall mem_ok (notification_members me p).
Proof. intros Um Hp. unfold notification_members. auto with wire. Qed.

Lemma seq_notification_fields me p : utf8_valid me = true -> wf_opt_payload p ->
  seq_notification [ser_str v_two; ser_str me; opt_text p] = Some (me, p).
Proof.
  intros Um Hp. unfold seq_notification. rewrite is_two_two, (as_str_ser _ Um), (as_opt_raw_opt_text _ Hp). reflexivity.
Qed.

(* with every field written, the map reader on the members is, by computation, the positional reader on the texts *)
Lemma as_notification_members me p :
  utf8_valid me = true -> wf_opt_payload p -> as_notification (notification_members me p) = Some (me, p).
Proof. exact (seq_notification_fields me p). Qed.

Theorem notification_roundtrip me p :
  utf8_valid me = true -> wf_opt_payload p -> parse_notification (ser_notification me p) = Some (me, p).
Proof.
  intros Um Hp. unfold parse_notification.
  rewrite ser_notification_eq, de_struct_ser_object by (apply notification_members_ok; assumption).
  apply as_notification_members; assumption.
Qed.

Definition wf_payload (p : payload) : Prop :=
  match p with
  | PResult raw => raw_payload raw
  | PError e =>
    (-2147483648 <= e_code e < 2147483648)%Z /\ utf8_valid (e_message e) = true /\
    match e_data e with Some d => raw_payload d /\ nonnull d | None => True end
  end.

Definition payload_member (p : payload) : bytes * bytes :=
  match p with PResult raw => (k_result, raw) | PError e => (k_error, ser_errobj e) end.

Definition response_members (r : response) : members :=
  (if rs_jsonrpc r then [(k_jsonrpc, ser_str v_two)] else []) ++
  [(k_id, ser_id (rs_id r)); payload_member (rs_payload r)].

Lemma ser_response_eq r : ser_response r = ser_object (response_members r).
Proof.
  unfold ser_response, ser_object, response_members, payload_member.
  destruct (rs_jsonrpc r), (rs_payload r); cbn [ser_mems app]; list_solve.
Qed.

Lemma wf_payload_errobj e : wf_payload (PError e) -> wf_errobj e.
Proof. intro H. exact H. Qed.

Lemma wf_response_members_ok r : wf_id (rs_id r) -> wf_payload (rs_payload r) ->
  Forall mem_ok (response_members r) /\ Forall mem_utf8 (response_members r).
Proof.
  intros Wi Wp. unfold response_members.
  assert (P : mem_ok (payload_member (rs_payload r)) /\ mem_utf8 (payload_member (rs_payload r))).
  { destruct (rs_payload r) as [raw|e]; cbn [payload_member]; [|pose proof (raw_payload_errobj e Wp)]; auto with wire. }
  destruct P. destruct (rs_jsonrpc r); cbn [app]; auto with wire.
Qed.

Lemma parse_response_members_eq (j : bool) it pm :
  parse_response_members ((if j then [(k_jsonrpc, ser_str v_two)] else []) ++ [(k_id, it); payload_member pm]) =
    match parse_id it with
    | Some i' =>
      match pm with
      | PResult raw =>
        match as_raw raw with Some r' => Some {| rs_jsonrpc := j; rs_payload := PResult r'; rs_id := i' |} | None => None end
      | PError e =>
        match parse_errobj (ser_errobj e) with
        | Some e' => Some {| rs_jsonrpc := j; rs_payload := PError e'; rs_id := i' |} | None => None end
      end
    | None => None
    end.
Proof.
  destruct j, pm; reflexivity.
Qed.

Theorem response_roundtrip r :
  wf_id (rs_id r) -> wf_payload (rs_payload r) -> parse_response (ser_response r) = Some r.
Proof.
  intros Wi Wp.
  unfold parse_response. rewrite ser_response_eq, object_members_ser by apply (wf_response_members_ok r Wi Wp).
  unfold response_members. rewrite parse_response_members_eq, (id_roundtrip _ Wi).
  destruct r as [j [raw|e] i]; cbn [rs_jsonrpc rs_payload rs_id] in *.
  - rewrite (as_raw_payload raw Wp). reflexivity.
  - rewrite (errobj_roundtrip e Wp). reflexivity.
Qed.

Corollary errobj_reser_same_bytes e :
  (-2147483648 <= e_code e < 2147483648)%Z -> utf8_valid (e_message e) = true ->
  match e_data e with Some d => raw_payload d /\ nonnull d | None => True end ->
  option_map ser_errobj (parse_errobj (ser_errobj e)) = Some (ser_errobj e).
Proof. intros H1 H2 H3. rewrite (errobj_roundtrip e (conj H1 (conj H2 H3))). reflexivity. Qed.

Corollary id_reser_same_bytes i : wf_id i -> option_map ser_id (parse_id (ser_id i)) = Some (ser_id i).
Proof. intro W. rewrite (id_roundtrip i W). reflexivity. Qed.

Lemma response_fields it pm :
  let m := [(k_jsonrpc, ser_str v_two); (k_id, it); payload_member pm] in
  field_of k_jsonrpc m = FOne (ser_str v_two) /\ field_of k_id m = FOne it /\
  match pm with
  | PResult raw => field_of k_result m = FOne raw /\ field_of k_error m = FAbsent
  | PError e => field_of k_error m = FOne (ser_errobj e) /\ field_of k_result m = FAbsent
  end.
Proof. destruct pm; repeat split; reflexivity. Qed.

Lemma get_all_app k m1 m2 : get_all k (m1 ++ m2) = get_all k m1 ++ get_all k m2.
Proof.
  induction m1 as [|[k' v] m1 IH]; [reflexivity|]. cbn [app get_all].
  destruct (bytes_eqb k k'); [cbn [app]; f_equal|]; exact IH.
Qed.

Lemma field_of_insert k k' v m1 m2 : k' <> k -> field_of k (m1 ++ (k', v) :: m2) = field_of k (m1 ++ m2).
Proof.
  intro N. unfold field_of. rewrite !get_all_app. cbn [get_all].
  destruct (bytes_eqb k k') eqn:E; [|reflexivity]. apply bytes_eqb_eq in E. congruence.
Qed.

Theorem unknown_members_ignored m1 k v m2 :
  ~ In k [k_jsonrpc; k_id; k_result; k_error] ->
  parse_response_members (m1 ++ (k, v) :: m2) = parse_response_members (m1 ++ m2).
Proof.
  intro N. cbn [In] in N. unfold parse_response_members.
  rewrite !(field_of_insert _ k v m1 m2) by (intro; apply N; subst k; tauto). reflexivity.
Qed.

Corollary unknown_members_ignored_text m1 k v m2 :
  ~ In k [k_jsonrpc; k_id; k_result; k_error] -> Forall mem_ok (m1 ++ (k, v) :: m2) ->
  parse_response (ser_object (m1 ++ (k, v) :: m2)) = parse_response (ser_object (m1 ++ m2)).
Proof.
  intros N HF. unfold parse_response.
  assert (HF' : Forall mem_ok (m1 ++ m2)).
  { apply Forall_app in HF as [H1 H2]. apply Forall_app. split; [exact H1 | inversion H2; assumption]. }
  rewrite !object_members_ser by assumption. apply unknown_members_ignored, N.
Qed.

Definition sub_key (is_err : bool) : bytes := if is_err then k_error else k_result.
Definition sub_payload_members (sid : subid) (is_err : bool) (raw : bytes) : members :=
  [(k_subscription, ser_subid sid); (sub_key is_err, raw)].
Definition sub_notif_members (me : bytes) (sid : subid) (is_err : bool) (raw : bytes) : members :=
  [(k_jsonrpc, ser_str v_two); (k_method, ser_str me); (k_params, ser_object (sub_payload_members sid is_err raw))].

Lemma ser_sub_notif_eq me sid is_err raw :
  ser_sub_notif me sid is_err raw = ser_object (sub_notif_members me sid is_err raw).
Proof.
  unfold ser_sub_notif, sub_notif_members, sub_payload_members, sub_key, ser_object.
  destruct is_err; cbn [ser_mems]; list_solve.
Qed.

Lemma sub_payload_members_ok sid is_err raw : wf_subid sid -> raw_payload raw ->
  Forall mem_ok (sub_payload_members sid is_err raw).
Proof. intros Ws Hr. unfold sub_payload_members. destruct is_err; auto with wire. Qed.

Lemma sub_notif_members_ok me sid is_err raw : utf8_valid me = true -> wf_subid sid -> raw_payload raw ->
  Forall mem_ok (sub_notif_members me sid is_err raw).
Proof.
  intros Um Ws Hr. pose proof (sub_payload_members_ok sid is_err raw Ws Hr). unfold sub_notif_members. auto with wire.
Qed.

Lemma as_sub_payload_seq is_err s r :
  as_sub_payload (sub_key is_err) [(k_subscription, s); (sub_key is_err, r)] = seq_sub_payload [s; r] /\
  as_sub_payload (sub_key (negb is_err)) [(k_subscription, s); (sub_key is_err, r)] = None.
Proof. destruct is_err; split; reflexivity. Qed.

Lemma seq_sub_payload_fields sid raw : wf_subid sid -> raw_payload raw ->
  seq_sub_payload [ser_subid sid; raw] = Some (sid, raw).
Proof. intros Ws Hr. unfold seq_sub_payload. rewrite (subid_roundtrip _ Ws), (as_raw_payload _ Hr). reflexivity. Qed.

Lemma parse_sub_payload_ser sid is_err raw : wf_subid sid -> raw_payload raw ->
  parse_sub_payload (sub_key is_err) (ser_object (sub_payload_members sid is_err raw)) = Some (sid, raw) /\
  parse_sub_payload (sub_key (negb is_err)) (ser_object (sub_payload_members sid is_err raw)) = None.
Proof.
  intros Ws Hr. unfold parse_sub_payload.
  rewrite !de_struct_ser_object by (apply sub_payload_members_ok; assumption).
  unfold sub_payload_members. destruct (as_sub_payload_seq is_err (ser_subid sid) raw) as [-> ->].
  split; [apply seq_sub_payload_fields; assumption | reflexivity].
Qed.

(* in sequence form [subscription, value] the member name is gone: it is read under EITHER key *)
Lemma parse_sub_payload_seq key sid raw : wf_subid sid -> raw_payload raw ->
  parse_sub_payload key (ser_array [ser_subid sid; raw]) = Some (sid, raw).
Proof.
  intros Ws Hr. unfold parse_sub_payload. rewrite de_struct_ser_array by auto with wire.
  apply seq_sub_payload_fields; assumption.
Qed.

Lemma span_ok_sub_payload_seq sid raw : wf_subid sid -> raw_payload raw -> span_ok (ser_array [ser_subid sid; raw]).
Proof. intros Ws Hr. auto with wire. Qed.

Lemma parse_sub_notif_outer key me pt : utf8_valid me = true -> span_ok pt ->
  let read := match parse_sub_payload key pt with Some (s, r) => Some (me, s, r) | None => None end in
  parse_sub_notif key (ser_object [(k_jsonrpc, ser_str v_two); (k_method, ser_str me); (k_params, pt)]) = read /\
  parse_sub_notif key (ser_array [ser_str v_two; ser_str me; pt]) = read.
Proof.
  intros Um Sp. unfold parse_sub_notif.
  rewrite de_struct_ser_object, de_struct_ser_array by auto with wire.
  change (as_sub_notif key [(k_jsonrpc, ser_str v_two); (k_method, ser_str me); (k_params, pt)])
    with (seq_sub_notif key [ser_str v_two; ser_str me; pt]).
  unfold seq_sub_notif. rewrite is_two_two, (as_str_ser _ Um). split; reflexivity.
Qed.

Lemma parse_sub_notif_ser key me sid is_err raw : utf8_valid me = true -> wf_subid sid -> raw_payload raw ->
  parse_sub_notif key (ser_sub_notif me sid is_err raw) =
  match parse_sub_payload key (ser_object (sub_payload_members sid is_err raw)) with
  | Some (s, r) => Some (me, s, r) | None => None end.
Proof.
  intros Um Ws Hr. rewrite ser_sub_notif_eq.
  apply (parse_sub_notif_outer key me _ Um), span_ok_object, sub_payload_members_ok; assumption.
Qed.

Theorem sub_notif_roundtrip me sid (is_err : bool) raw :
  utf8_valid me = true -> wf_subid sid -> raw_payload raw ->
  parse_sub_notif (if is_err then k_error else k_result) (ser_sub_notif me sid is_err raw) = Some (me, sid, raw).
Proof.
  intros Um Ws Hr. rewrite parse_sub_notif_ser by assumption.
  destruct (parse_sub_payload_ser sid is_err raw Ws Hr) as [P _]. unfold sub_key in P. rewrite P. reflexivity.
Qed.

(* an item is never read as an error notification and vice versa *)
Theorem sub_notif_kind_distinguished me sid (is_err : bool) raw :
  utf8_valid me = true -> wf_subid sid -> raw_payload raw ->
  parse_sub_notif (if is_err then k_result else k_error) (ser_sub_notif me sid is_err raw) = None.
Proof.
  intros Um Ws Hr. rewrite parse_sub_notif_ser by assumption.
  destruct (parse_sub_payload_ser sid is_err raw Ws Hr) as [_ P].
  destruct is_err; cbv [sub_key negb] in P; rewrite P; reflexivity.
Qed.

(* Response: deserialize_struct with a visitor that implements visit_map only *)
Lemma parse_response_de_struct t : parse_response t = de_struct parse_response_members (fun _ => None) t.
Proof. unfold parse_response. symmetry. apply de_struct_map_only. Qed.

Theorem seq_form_invalid i : wf_id i -> parse_invalid (ser_array [ser_id i]) = Some i.
Proof.
  intro Wi. unfold parse_invalid. rewrite de_struct_ser_array by auto with wire. apply id_roundtrip, Wi.
Qed.

Ltac raw_ser v := change (raw_payload (ser v)); apply raw_payload_ser; reflexivity.

Definition ex_obj : json := JObj [(b#"a", JArr [JNum (NPos 1); JBool true; JNull; JStr b#"x\y"])].
Definition ex_arr : json := JArr [JNum (NNeg 5); JStr b#"two"; JObj []].

Example raw_payload_nonvacuous :
  raw_payload b#"{""a"":[1,true,null,""x\\y""]}" /\ nonnull b#"{""a"":[1,true,null,""x\\y""]}" /\
  raw_payload b#"null" /\ ~ nonnull b#"null" /\ ~ raw_payload b#" 1".
Proof.
  split; [raw_ser ex_obj|]. split; [reflexivity|]. split; [raw_ser JNull|].
  split; [discriminate|]. intros (_ & _ & H). discriminate H.
Qed.

(* ids: the u64 boundary, a string with an escape, a multi-byte character and a control byte; one past u64 does not round-trip *)
Example id_roundtrip_nonvacuous :
  wf_id (IdNum 18446744073709551615) /\ wf_id (IdStr [x61; x22; xc3; xa9; x0a]) /\ wf_id IdNull /\
  ser_id (IdStr [x61; x22; xc3; xa9; x0a]) = [x22; x61; x5c; x22; xc3; xa9; x5c; x6e; x22] /\
  parse_id (ser_id (IdNum 18446744073709551616)) = None /\ parse_id (ser_id (IdStr [xff])) = None.
Proof. repeat split; try reflexivity. vm_compute. discriminate. Qed.

Example subid_roundtrip_nonvacuous :
  wf_subid (SubNum 0) /\ wf_subid (SubStr b#"0xcafe") /\ ser_subid (SubStr b#"0xcafe") = b#"""0xcafe""".
Proof. repeat split; try reflexivity. vm_compute. discriminate. Qed.

Definition ex_err : errobj :=
  {| e_code := (-32602)%Z; e_message := b#"Invalid ""params"""; e_data := Some b#"{""a"":[1,true,null,""x\\y""]}" |}.

Lemma ex_err_wf : wf_errobj ex_err.
Proof.
  split; [unfold i32_range; cbn; lia|]. split; [reflexivity|]. cbn [e_data ex_err].
  split; [raw_ser ex_obj | reflexivity].
Qed.

Example errobj_roundtrip_nonvacuous :
  (-2147483648 <= e_code ex_err < 2147483648)%Z /\ utf8_valid (e_message ex_err) = true /\
  match e_data ex_err with Some d => raw_payload d /\ nonnull d | None => True end /\
  ser_errobj ex_err = b#"{""code"":-32602,""message"":""Invalid \""params\"""",""data"":{""a"":[1,true,null,""x\\y""]}}".
Proof. destruct ex_err_wf as (H1 & H2 & H3). split; [exact H1|]. split; [exact H2|]. split; [exact H3 | reflexivity]. Qed.

Definition ex_req : request := {| rq_id := IdStr b#"id-7"; rq_method := b#"say_hello"; rq_params := Some b#"[-5,""two"",{}]" |}.

Example request_roundtrip_nonvacuous :
  wf_id (rq_id ex_req) /\ utf8_valid (rq_method ex_req) = true /\
  match rq_params ex_req with Some p => raw_payload p /\ nonnull p | None => True end /\
  ser_request ex_req = b#"{""jsonrpc"":""2.0"",""id"":""id-7"",""method"":""say_hello"",""params"":[-5,""two"",{}]}".
Proof. split; [reflexivity|]. split; [reflexivity|]. split; [split; [raw_ser ex_arr | reflexivity] | reflexivity]. Qed.

Example notification_roundtrip_nonvacuous :
  utf8_valid b#"tick" = true /\ (raw_payload b#"[-5,""two"",{}]" /\ nonnull b#"[-5,""two"",{}]") /\
  ser_notification b#"tick" (Some b#"[-5,""two"",{}]") = b#"{""jsonrpc"":""2.0"",""method"":""tick"",""params"":[-5,""two"",{}]}" /\
  ser_notification b#"tick" None = b#"{""jsonrpc"":""2.0"",""method"":""tick"",""params"":null}".
Proof. split; [reflexivity|]. split; [split; [raw_ser ex_arr | reflexivity]|]. split; reflexivity. Qed.

Definition ex_resp_ok : response := {| rs_jsonrpc := true; rs_payload := PResult b#"null"; rs_id := IdNum 42 |}.
Definition ex_resp_err : response := {| rs_jsonrpc := true; rs_payload := PError ex_err; rs_id := IdNull |}.
Definition ex_resp_bare : response := {| rs_jsonrpc := false; rs_payload := PResult b#"[-5,""two"",{}]"; rs_id := IdStr b#"a" |}.

Example response_roundtrip_nonvacuous :
  (wf_id (rs_id ex_resp_ok) /\ wf_payload (rs_payload ex_resp_ok)) /\
  (wf_id (rs_id ex_resp_err) /\ wf_payload (rs_payload ex_resp_err)) /\
  (wf_id (rs_id ex_resp_bare) /\ wf_payload (rs_payload ex_resp_bare)) /\
  ser_response ex_resp_ok = b#"{""jsonrpc"":""2.0"",""id"":42,""result"":null}" /\
  ser_response ex_resp_err =
    b#"{""jsonrpc"":""2.0"",""id"":null,""error"":{""code"":-32602,""message"":""Invalid \""params\"""",""data"":{""a"":[1,true,null,""x\\y""]}}}" /\
  ser_response ex_resp_bare = b#"{""id"":""a"",""result"":[-5,""two"",{}]}".
Proof.
  split; [split; [vm_compute; discriminate | raw_ser JNull]|].
  split; [split; [exact I | exact ex_err_wf]|].
  split; [split; [reflexivity | raw_ser ex_arr]|].
  repeat split; reflexivity.
Qed.

(* the acceptance condition on concrete member lists / texts: accepted with an unknown member, jsonrpc null and
   members in any order; rejected for a duplicate id, for result together with error, for jsonrpc "1.0",
   for a missing id, for an id outside the id domain, for an error object with an unknown member *)
Example response_accept_nonvacuous :
  parse_response b#"{ ""result"" : 2, ""x"":[], ""jsonrpc"":null, ""id"":1 }" <> None /\
  parse_response b#"{""id"":1,""error"":{""message"":""m"",""code"":-1}}" <> None /\
  parse_response b#"{""id"":1,""id"":1,""result"":2}" = None /\
  parse_response b#"{""id"":1,""result"":2,""error"":{""code"":-1,""message"":""m""}}" = None /\
  parse_response b#"{""jsonrpc"":""1.0"",""id"":1,""result"":2}" = None /\
  parse_response b#"{""jsonrpc"":""2.0"",""result"":2}" = None /\
  parse_response b#"{""id"":1.5,""result"":2}" = None /\
  parse_response b#"{""id"":1,""error"":{""code"":-1,""message"":""m"",""extra"":0}}" = None.
Proof. repeat split; vm_compute; (reflexivity || discriminate). Qed.

Example sub_notif_roundtrip_nonvacuous :
  utf8_valid b#"sub" = true /\ wf_subid (SubStr b#"0xcafe") /\ raw_payload b#"[-5,""two"",{}]" /\
  ser_sub_notif b#"sub" (SubStr b#"0xcafe") false b#"[-5,""two"",{}]" =
    b#"{""jsonrpc"":""2.0"",""method"":""sub"",""params"":{""subscription"":""0xcafe"",""result"":[-5,""two"",{}]}}".
Proof. split; [reflexivity|]. split; [reflexivity|]. split; [raw_ser ex_arr | reflexivity]. Qed.
