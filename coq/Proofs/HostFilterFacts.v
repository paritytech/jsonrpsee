(* C14: host filter -- declarative specification and the proofs about Model/HostFilter.v.
   The route a pattern compiles to is read as a language over bytes (`cm`).  The thread machine accepts a host
   along a route exactly when the host is in the language of that route (`candidates_sound`, `candidates_complete`),
   and the language of `compile pat` is `host_matches pat` (`cm_compile`).  With the grouping of the allow-list
   (`group_sound`) this gives what each answer of the filter says about the request (`decide_cases`). *)
From JV Require Import Base.Bytes Base.Dec Base.Utf8 Gen.PortsGen Model.HostFilter Proofs.BytesFacts.
Local Open Scope N_scope.

(* What an allow-list host pattern means, stated without any reference to routes, NFA states, threads or ranking.
   A pattern is cut into tokens: every '.' and '/' is a token of its own, every maximal run of other bytes is a
   token.  A token starting with '*' stands for one or more arbitrary bytes, a token starting with ':' for one or
   more bytes other than '/', any other token (the separators included) for itself.  A host matches when it is the
   concatenation of one word per token. *)
Definition sep_byte (c : byte) : bool := beqb c x2e || beqb c x2f.

Fixpoint tokens (s : bytes) : list bytes :=
  match s with
  | [] => []
  | c :: s' =>
    if sep_byte c then [c] :: tokens s'
    else match s' with
         | [] => [[c]]
         | d :: _ => if sep_byte d then [c] :: tokens s'
                     else match tokens s' with
                          | t :: ts => (c :: t) :: ts
                          | [] => [[c]]
                          end
         end
  end.

Inductive tokkind := TLit | TStar | TDyn.
Definition tok_kind (t : bytes) : tokkind :=
  match t with
  | c :: _ => if beqb c x2a then TStar else if beqb c x3a then TDyn else TLit
  | [] => TLit
  end.

Definition tok_matches (t w : bytes) : Prop :=
  match tok_kind t with
  | TStar => w <> []
  | TDyn => w <> [] /\ ~ In x2f w
  | TLit => w = t
  end.

Definition host_matches (pat h : bytes) : Prop :=
  exists ws, Forall2 tok_matches (tokens pat) ws /\ concat ws = h.

(* ports are compared after normalisation (default-port elimination happened while parsing) *)
Definition port_matches (entry req : port) : Prop := entry = PAny \/ entry = req.

Definition entry_matches (e a : authority) : Prop :=
  host_matches (a_host e) (a_host a) /\ port_matches (a_port e) (a_port a).

(* the choice among several accepting routes: any function that picks one of them *)
Definition valid_sel (sel : list route -> option route) : Prop := forall l r, sel l = Some r -> In r l.
Definition total_sel (sel : list route -> option route) : Prop := forall l, l <> [] -> sel l <> None.

Lemma cls_eqb_eq a b : cls_eqb a b = true <-> a = b.
Proof.
  destruct a, b; cbn; split; intro H; try discriminate; try reflexivity.
  - apply beqb_true in H. congruence.
  - inversion H. apply beqb_refl.
Qed.

Lemma cls_eqb_refl a : cls_eqb a a = true.
Proof. apply cls_eqb_eq. reflexivity. Qed.

Lemma bN_inj a b : bN a = bN b -> a = b.
Proof.
  unfold bN. intro H. pose proof (Byte.of_to_N a) as Ha. pose proof (Byte.of_to_N b) as Hb.
  rewrite H in Ha. congruence.
Qed.

Lemma bytes_cmp_eq a : forall b, bytes_cmp a b = Eq -> a = b.
Proof.
  induction a as [|x a IH]; intros [|y b]; cbn; intro H; try discriminate; [reflexivity|].
  destruct (N.compare (bN x) (bN y)) eqn:E; try discriminate.
  apply N.compare_eq in E. apply bN_inj in E. subst. f_equal. apply IH. exact H.
Qed.

Lemma port_eqb_eq a b : port_eqb a b = true <-> a = b.
Proof.
  destruct a, b; cbn; split; intro H; try discriminate; try reflexivity.
  - apply N.eqb_eq in H. congruence.
  - inversion H. apply N.eqb_refl.
Qed.

Lemma authority_eqb_eq a b : authority_eqb a b = true <-> a = b.
Proof.
  destruct a as [h1 p1], b as [h2 p2]. unfold authority_eqb. cbn [a_host a_port]. rewrite andb_true_iff, bytes_eqb_eq, port_eqb_eq.
  split; [intros [-> ->]; reflexivity | intro H; inversion H; split; reflexivity].
Qed.

Lemma port_allows_spec e r : port_allows e r = true <-> port_matches e r.
Proof.
  unfold port_matches. rewrite <- (port_eqb_eq e r).
  destruct e, r; cbn; intuition discriminate.
Qed.

Inductive cm : list cls -> bytes -> Prop :=
| cm_nil : cm [] []
| cm_lit c p w : cm p w -> cm (CLit c :: p) (c :: w)
| cm_loop k u p w : is_loop k = true -> u <> [] -> Forall (fun c => cls_matches k c = true) u -> cm p w -> cm (k :: p) (u ++ w).

Lemma cm_nil_inv w : cm [] w -> w = [].
Proof. intro H. inversion H. reflexivity. Qed.

Lemma cm_empty_word p : cm p [] -> p = [].
Proof.
  intro H. remember [] as e eqn:Ee. destruct H as [|c p w H|k u p w Hk Hu Hf H]; [reflexivity | discriminate |].
  destruct u; [contradiction Hu; reflexivity | discriminate].
Qed.

Fixpoint last_opt (p : list cls) : option cls :=
  match p with
  | [] => None
  | k :: p' => match p' with [] => Some k | _ => last_opt p' end
  end.

Lemma last_opt_snoc p k : last_opt (p ++ [k]) = Some k.
Proof.
  induction p as [|x p IH]; [reflexivity|].
  cbn [app last_opt]. destruct (p ++ [k]) eqn:E; [destruct p; discriminate | exact IH].
Qed.

Lemma cm_snoc_enter p w : cm p w -> forall k c, cls_matches k c = true -> cm (p ++ [k]) (w ++ [c]).
Proof.
  induction 1 as [|c0 p w H IH|k0 u p w Hk Hu Hf H IH]; intros k c Hm.
  - cbn [app]. destruct k as [d| |].
    + cbn in Hm. apply beqb_true in Hm. subst. apply cm_lit, cm_nil.
    + apply (cm_loop CAny [c] [] []); [reflexivity | discriminate | repeat constructor | apply cm_nil].
    + apply (cm_loop CNotSlash [c] [] []); [reflexivity | discriminate | constructor; [exact Hm | constructor] | apply cm_nil].
  - cbn [app]. apply cm_lit. apply IH. exact Hm.
  - cbn [app]. rewrite <- app_assoc. apply cm_loop; try assumption. apply IH. exact Hm.
Qed.

Lemma cm_snoc_loop p w : cm p w -> forall k c, last_opt p = Some k -> is_loop k = true -> cls_matches k c = true -> cm p (w ++ [c]).
Proof.
  induction 1 as [|c0 p w H IH|k0 u p w Hk Hu Hf H IH]; intros k c Hl Hlo Hm.
  - discriminate.
  - cbn [app]. apply cm_lit. destruct p as [|x p].
    + cbn in Hl. inversion Hl; subst. discriminate.
    + apply (IH k c); try assumption.
  - destruct p as [|x p].
    + cbn in Hl. inversion Hl; subst k0. apply cm_nil_inv in H. subst w.
      rewrite app_nil_r. replace (u ++ [c]) with ((u ++ [c]) ++ []) by apply app_nil_r.
      apply cm_loop; try assumption; [destruct u; discriminate | | apply cm_nil].
      apply Forall_app. split; [exact Hf | constructor; [exact Hm | constructor]].
    + rewrite <- app_assoc. apply cm_loop; try assumption. apply (IH k c); assumption.
Qed.

Lemma in_advance k items r rest : In (r, rest) (advance k items) <-> In (r, k :: rest) items.
Proof.
  induction items as [|[r0 [|k0 rest0]] items IH]; cbn [advance].
  - tauto.
  - rewrite IH. cbn [In]. split; [tauto | intros [H|H]; [discriminate | exact H]].
  - destruct (cls_eqb k0 k) eqn:E.
    + apply cls_eqb_eq in E. subst k0. cbn [In]. rewrite IH. split; intros [H|H]; try (right; exact H); left; congruence.
    + cbn [In]. rewrite IH. split; [tauto|]. intros [H|H]; [|exact H].
      inversion H; subst. rewrite cls_eqb_refl in E. discriminate.
Qed.

Lemma cls_mem_false_cons k x seen : cls_mem k (x :: seen) = false <-> k <> x /\ cls_mem k seen = false.
Proof.
  cbn [cls_mem]. rewrite orb_false_iff. split; intros [H1 H2]; split; try assumption.
  - intro E. subst. rewrite cls_eqb_refl in H1. discriminate.
  - destruct (cls_eqb k x) eqn:E; [apply cls_eqb_eq in E; contradiction | reflexivity].
Qed.

Lemma in_heads k items : forall seen r rest, In (r, k :: rest) items -> cls_mem k seen = false -> In k (heads items seen).
Proof.
  induction items as [|[r0 [|k0 rest0]] items IH]; intros seen r rest Hin Hs; cbn [heads].
  - destruct Hin.
  - destruct Hin as [H|H]; [discriminate|]. eapply IH; eassumption.
  - destruct (cls_mem k0 seen) eqn:E.
    + destruct Hin as [H|H]; [inversion H; subst; congruence|]. eapply IH; eassumption.
    + destruct (cls_eqb k k0) eqn:Ek.
      * apply cls_eqb_eq in Ek. subst. left. reflexivity.
      * right. destruct Hin as [H|H]; [inversion H; subst; rewrite cls_eqb_refl in Ek; discriminate|].
        eapply IH; [eassumption|]. apply cls_mem_false_cons. split; [|exact Hs].
        intro E2. subst. rewrite cls_eqb_refl in Ek. discriminate.
Qed.

(* soundness invariant: every route a thread still carries has really read the consumed input *)
Definition tinv (rt : router) (w : bytes) (t : thread) : Prop :=
  forall r rest, In (r, rest) (t_items t) ->
    In r rt /\ exists p, r_cls r = p ++ rest /\ cm p w /\ last_opt p = t_cur t.

Lemma tinv_root rt : tinv rt [] (root_thread rt).
Proof.
  intros r rest H. unfold root_thread in H. cbn [t_items] in H. apply in_map_iff in H as [r0 [E Hin]].
  inversion E; subst. split; [exact Hin|]. exists []. repeat split. apply cm_nil.
Qed.

Lemma step_thread_tinv rt w c t t' : tinv rt w t -> In t' (step_thread c t) -> tinv rt (w ++ [c]) t'.
Proof.
  intros Hinv Hin. unfold step_thread in Hin. apply in_app_or in Hin as [Hin|Hin].
  - destruct (t_cur t) as [k|] eqn:Ec; [|destruct Hin].
    destruct (is_loop k && cls_matches k c) eqn:E; [|destruct Hin].
    destruct Hin as [<-|[]]. apply andb_true_iff in E as [El Em].
    intros r rest H. destruct (Hinv r rest H) as [Hr [p [Hp [Hcm Hlast]]]].
    split; [exact Hr|]. exists p. repeat split; try assumption.
    apply (cm_snoc_loop p w Hcm k c); congruence.
  - apply in_map_iff in Hin as [k [<- Hk]]. apply filter_In in Hk as [_ Hm].
    intros r rest H. cbn [t_items t_cur] in *. apply in_advance in H.
    destruct (Hinv r (k :: rest) H) as [Hr [p [Hp [Hcm Hlast]]]].
    split; [exact Hr|]. exists (p ++ [k]). repeat split.
    + rewrite Hp, <- app_assoc. reflexivity.
    + apply cm_snoc_enter; assumption.
    + apply last_opt_snoc.
Qed.

Lemma run_tinv rt path : forall ts w, Forall (tinv rt w) ts ->
  Forall (tinv rt (w ++ path)) (fold_left (fun ts c => step c ts) path ts).
Proof.
  induction path as [|c path IH]; intros ts w H; cbn [fold_left].
  - rewrite app_nil_r. exact H.
  - replace (w ++ c :: path) with ((w ++ [c]) ++ path) by (rewrite <- app_assoc; reflexivity).
    apply IH. apply Forall_forall. intros t' Ht'. unfold step in Ht'. apply in_flat_map in Ht' as [t [Ht Hin]].
    rewrite Forall_forall in H. eapply step_thread_tinv; [apply H; exact Ht | exact Hin].
Qed.

Lemma ends_here_in items : forall r, ends_here items = Some r -> In (r, []) items.
Proof.
  induction items as [|[r0 rest0] items IH]; intros r H; cbn [ends_here] in H; [discriminate|].
  destruct (ends_here items) as [r'|] eqn:E.
  - inversion H; subst. right. apply IH. reflexivity.
  - destruct rest0; [|discriminate]. inversion H; subst. left. reflexivity.
Qed.

Lemma in_ends_here items r : In (r, []) items -> exists r', ends_here items = Some r'.
Proof.
  induction items as [|[r0 rest0] items IH]; intro H; [destruct H|]. cbn [ends_here].
  destruct (ends_here items) as [r'|] eqn:E; [exists r'; reflexivity|].
  destruct H as [H|H]; [inversion H; subst; exists r; reflexivity|].
  destruct (IH H) as [r' Hr']. discriminate.
Qed.

Lemma candidates_sound rt h r : In r (candidates (run_threads rt h)) -> In r rt /\ cm (r_cls r) h.
Proof.
  unfold candidates, run_threads. intro H. apply in_flat_map in H as [t [Ht Hr]].
  pose proof (run_tinv rt h [root_thread rt] [] (Forall_cons _ (tinv_root rt) (Forall_nil _))) as Hall.
  cbn [app] in Hall. rewrite Forall_forall in Hall. specialize (Hall t Ht).
  destruct (ends_here (t_items t)) as [r'|] eqn:E; [|destruct Hr]. destruct Hr as [<-|[]].
  apply ends_here_in in E. destruct (Hall r' [] E) as [Hin [p [Hp [Hcm _]]]].
  split; [exact Hin|]. rewrite Hp, app_nil_r. exact Hcm.
Qed.

(* what is still to be read: the rest of the route, possibly after some more bytes of the loop we are in *)
Definition still_to_read (cur : option cls) (rest : list cls) (w : bytes) : Prop :=
  cm rest w \/
  exists k u w', cur = Some k /\ is_loop k = true /\ u <> [] /\ Forall (fun c => cls_matches k c = true) u /\ w = u ++ w' /\ cm rest w'.

Lemma still_to_read_after cur k u w' rest :
  cur = Some k -> is_loop k = true -> Forall (fun c => cls_matches k c = true) u -> cm rest w' -> still_to_read cur rest (u ++ w').
Proof.
  intros Hc Hk Hf Hcm. destruct u as [|x u]; [left; exact Hcm|].
  right. exists k, (x :: u), w'. repeat split; try assumption. discriminate.
Qed.

Lemma step_enter c t k r rest :
  In (r, k :: rest) (t_items t) -> cls_matches k c = true ->
  In {| t_cur := Some k; t_items := advance k (t_items t) |} (step_thread c t) /\ In (r, rest) (advance k (t_items t)).
Proof.
  intros Hin Hm. split; [|apply in_advance; exact Hin].
  unfold step_thread. apply in_or_app. right. apply in_map_iff. exists k. split; [reflexivity|].
  apply filter_In. split; [|exact Hm]. eapply in_heads; [exact Hin | reflexivity].
Qed.

Lemma step_complete c t r rest w :
  In (r, rest) (t_items t) -> still_to_read (t_cur t) rest (c :: w) ->
  exists t', In t' (step_thread c t) /\ exists rest', In (r, rest') (t_items t') /\ still_to_read (t_cur t') rest' w.
Proof.
  intros Hin [Hcm | [k [u [w' [Hc [Hk [Hu [Hf [Hw Hcm]]]]]]]]].
  - remember (c :: w) as h eqn:Eh. destruct Hcm as [|c0 p w0 Hcm|k u p w0 Hk Hu Hf Hcm]; [discriminate | |].
    + inversion Eh; subst c0 w0.
      destruct (step_enter c t (CLit c) r p Hin (beqb_refl c)) as [H1 H2].
      eexists. split; [exact H1|]. exists p. split; [exact H2|]. left. exact Hcm.
    + destruct u as [|x u]; [contradiction Hu; reflexivity|]. cbn [app] in Eh. inversion Eh; subst x w.
      inversion Hf as [|? ? Hx Hf']; subst.
      destruct (step_enter c t k r p Hin Hx) as [H1 H2].
      eexists. split; [exact H1|]. exists p. split; [exact H2|]. cbn [t_cur].
      apply (still_to_read_after (Some k) k); [reflexivity | exact Hk | exact Hf' | exact Hcm].
  - destruct u as [|x u]; [contradiction Hu; reflexivity|]. cbn [app] in Hw. inversion Hw; subst x w.
    inversion Hf as [|? ? Hx Hf']; subst.
    exists t. split.
    + unfold step_thread. apply in_or_app. left. rewrite Hc, Hk, Hx. left. reflexivity.
    + exists rest. split; [exact Hin|]. apply (still_to_read_after (t_cur t) k); assumption.
Qed.

Lemma run_complete r : forall w ts,
  (exists t, In t ts /\ exists rest, In (r, rest) (t_items t) /\ still_to_read (t_cur t) rest w) ->
  exists t, In t (fold_left (fun ts c => step c ts) w ts) /\ In (r, []) (t_items t).
Proof.
  induction w as [|c w IH]; intros ts [t [Ht [rest [Hin Htail]]]]; cbn [fold_left].
  - exists t. split; [exact Ht|]. destruct Htail as [Hcm | [k [u [w' [_ [_ [Hu [_ [Hw _]]]]]]]]].
    + apply cm_empty_word in Hcm. subst. exact Hin.
    + destruct u; [contradiction Hu; reflexivity | discriminate].
  - apply IH. destruct (step_complete c t r rest w Hin Htail) as [t' [Ht' H]].
    exists t'. split; [|exact H]. unfold step. apply in_flat_map. exists t. split; assumption.
Qed.

Lemma candidates_complete rt r h : In r rt -> cm (r_cls r) h -> exists r', In r' (candidates (run_threads rt h)).
Proof.
  intros Hin Hcm. unfold run_threads.
  destruct (run_complete r h [root_thread rt]) as [t [Ht Hdone]].
  { exists (root_thread rt). split; [left; reflexivity|]. exists (r_cls r). split; [|left; exact Hcm].
    unfold root_thread. cbn [t_items]. apply in_map_iff. exists r. split; [reflexivity | exact Hin]. }
  destruct (in_ends_here _ _ Hdone) as [r' Hr']. exists r'. unfold candidates. apply in_flat_map.
  exists t. split; [exact Ht|]. rewrite Hr'. left. reflexivity.
Qed.

Definition seg_flat (p : option byte * bytes) : list bytes :=
  match fst p with Some c => [[c]] | None => [] end ++ match snd p with [] => [] | seg => [seg] end.

Lemma segments_head s :
  match s with
  | [] => segments s = []
  | d :: _ => if is_sep d then exists seg r, segments s = (Some d, seg) :: r
              else exists seg r, segments s = (None, d :: seg) :: r
  end.
Proof.
  destruct s as [|d s']; [reflexivity|]. cbn [segments].
  destruct (is_sep d); destruct (segments s') as [|[[x|] seg] r]; eauto.
Qed.

Lemma tokens_segments s : tokens s = flat_map seg_flat (segments s).
Proof.
  induction s as [|c s' IH]; [reflexivity|].
  cbn [tokens segments]. change (sep_byte c) with (is_sep c).
  destruct (is_sep c) eqn:Ec.
  - rewrite IH. destruct (segments s') as [|[[x|] seg] r]; reflexivity.
  - pose proof (segments_head s') as Hh. destruct s' as [|d s''].
    + rewrite Hh. reflexivity.
    + change (sep_byte d) with (is_sep d). destruct (is_sep d) eqn:Ed.
      * destruct Hh as [seg [r Hs]]. rewrite IH, Hs. reflexivity.
      * destruct Hh as [seg [r Hs]]. rewrite IH, Hs. reflexivity.
Qed.

Lemma sep_not_special c : is_sep c = true -> beqb c x3a = false /\ beqb c x2a = false.
Proof.
  unfold is_sep. intro H. apply orb_true_iff in H as [H|H]; apply beqb_true in H; subst; split; reflexivity.
Qed.

Lemma segments_sep_is_sep s : forall c seg, In (Some c, seg) (segments s) -> is_sep c = true.
Proof.
  induction s as [|d s' IH]; intros c seg H; [destruct H|]. cbn [segments] in H.
  destruct (is_sep d) eqn:Ed; destruct (segments s') as [|[[x|] seg0] r]; cbn [In] in H;
    repeat match goal with
           | H : _ \/ _ |- _ => destruct H as [H|H]
           | H : (_, _) = (_, _) |- _ => inversion H; subst; clear H
           | H : False |- _ => destruct H
           end; try assumption; try (eapply IH; cbn [In]; eauto; fail).
Qed.

Lemma compile_tokens s : compile s = flat_map seg_cls (tokens s).
Proof.
  rewrite tokens_segments. unfold compile.
  pose proof (segments_sep_is_sep s) as Hsep. induction (segments s) as [|[sep seg] l IH]; [reflexivity|].
  cbn [flat_map fst snd]. rewrite IH by (intros c sg H; apply (Hsep c sg); right; exact H).
  rewrite flat_map_app. f_equal. unfold seg_flat. cbn [fst snd].
  assert (Hseg : seg_cls seg = flat_map seg_cls match seg with [] => [] | b :: l0 => [b :: l0] end).
  { destruct seg; [reflexivity|]. cbn [flat_map]. rewrite app_nil_r. reflexivity. }
  destruct sep as [c|]; [|exact Hseg].
  assert (Hc : seg_cls [c] = [CLit c]).
  { destruct (sep_not_special c (Hsep c seg (or_introl eq_refl))) as [H1 H2].
    unfold seg_cls, seg_kind. rewrite H1, H2. reflexivity. }
  destruct seg as [|b l0]; cbn [app flat_map]; rewrite Hc, ?app_nil_r; reflexivity.
Qed.

Lemma cm_lits t rest h : cm (map CLit t ++ rest) h <-> exists w, h = t ++ w /\ cm rest w.
Proof.
  revert h. induction t as [|c t IH]; intro h; cbn [map app].
  - split; [intro H; exists h; split; [reflexivity | exact H] | intros [w [-> H]]; exact H].
  - split.
    + intro H. remember (CLit c :: map CLit t ++ rest) as p eqn:Ep.
      destruct H as [|c0 p0 w0 H|k u p0 w0 Hk Hu Hf H]; [discriminate | |].
      * inversion Ep; subst. apply IH in H as [w [-> Hw]]. exists w. split; [reflexivity | exact Hw].
      * inversion Ep; subst. discriminate.
    + intros [w [-> Hw]]. cbn [app]. apply cm_lit. apply IH. exists w. split; [reflexivity | exact Hw].
Qed.

Lemma cm_loop_inv k rest h : is_loop k = true ->
  (cm (k :: rest) h <-> exists u w, u <> [] /\ Forall (fun c => cls_matches k c = true) u /\ cm rest w /\ h = u ++ w).
Proof.
  intro Hk. split.
  - intro H. remember (k :: rest) as p eqn:Ep. destruct H as [|c0 p0 w0 H|k0 u p0 w0 Hk0 Hu Hf H]; [discriminate | |].
    + inversion Ep; subst. discriminate.
    + inversion Ep; subst. exists u, w0. repeat split; assumption.
  - intros [u [w [Hu [Hf [Hcm ->]]]]]. apply cm_loop; assumption.
Qed.

Lemma forall_not_slash u : Forall (fun c => cls_matches CNotSlash c = true) u <-> ~ In x2f u.
Proof.
  induction u as [|c u IH]; cbn [In].
  - split; [intros _ [] | constructor].
  - split.
    + intro H. inversion H as [|? ? Hc Hu]; subst. intros [E|E].
      * subst. discriminate.
      * apply IH in Hu. contradiction.
    + intro H. constructor.
      * cbn. destruct (beqb c x2f) eqn:E; [|reflexivity]. apply beqb_true in E. exfalso. apply H. left. congruence.
      * apply IH. intro E. apply H. right. exact E.
Qed.

Lemma cm_token t rest h :
  cm (seg_cls t ++ rest) h <-> exists w h', tok_matches t w /\ cm rest h' /\ h = w ++ h'.
Proof.
  assert (Hk : (tok_kind t = TStar /\ seg_cls t = [CAny]) \/ (tok_kind t = TDyn /\ seg_cls t = [CNotSlash])
               \/ (tok_kind t = TLit /\ seg_cls t = map CLit t)).
  { unfold tok_kind, seg_cls, seg_kind. destruct t as [|c t']; [right; right; split; reflexivity|].
    destruct (beqb c x3a) eqn:E1; destruct (beqb c x2a) eqn:E2; auto.
    apply beqb_true in E1. apply beqb_true in E2. subst. discriminate. }
  unfold tok_matches. destruct Hk as [[-> ->] | [[-> ->] | [-> ->]]].
  - cbv iota. cbn [app]. rewrite cm_loop_inv by reflexivity. split.
    + intros (u & w & Hu & _ & Hcm & ->). exists u, w. auto.
    + intros (u & w & Hu & Hcm & ->). exists u, w. repeat split; auto. apply Forall_forall. intros; reflexivity.
  - cbv iota. cbn [app]. rewrite cm_loop_inv by reflexivity. split.
    + intros (u & w & Hu & Hf & Hcm & ->). exists u, w. rewrite <- forall_not_slash. auto.
    + intros (u & w & (Hu & Hns) & Hcm & ->). exists u, w. rewrite forall_not_slash. auto.
  - cbv iota. rewrite cm_lits. split.
    + intros (w & -> & Hcm). exists t, w. auto.
    + intros (u & w & -> & Hcm & ->). exists w. auto.
Qed.

Lemma cm_tokens toks : forall h,
  cm (flat_map seg_cls toks) h <-> exists ws, Forall2 tok_matches toks ws /\ concat ws = h.
Proof.
  induction toks as [|t toks IH]; intro h; cbn [flat_map].
  - split.
    + intro H. apply cm_nil_inv in H. subst. exists []. split; [constructor | reflexivity].
    + intros [ws [H <-]]. inversion H; subst. apply cm_nil.
  - rewrite cm_token. split.
    + intros (w & h' & Hw & Hcm & ->). apply IH in Hcm as (ws & Hws & <-).
      exists (w :: ws). split; [constructor; assumption | reflexivity].
    + intros (ws & Hws & <-). inversion Hws as [|? w ? ws' Hw Hws']; subst.
      exists w, (concat ws'). split; [exact Hw|]. split; [apply IH; exists ws'; auto | reflexivity].
Qed.

Lemma cm_compile pat h : cm (compile pat) h <-> host_matches pat h.
Proof. rewrite compile_tokens. apply cm_tokens. Qed.

Lemma group_insert_in h p m h' ps' p' :
  In (h', ps') (group_insert h p m) -> In p' ps' ->
  (h' = h /\ p' = p) \/ exists ps, In (h', ps) m /\ In p' ps.
Proof.
  induction m as [|[k ps] m IH]; cbn [group_insert]; intros Hin Hp.
  - destruct Hin as [E|[]]. inversion E; subst. destruct Hp as [<-|[]]. left. split; reflexivity.
  - destruct (bytes_cmp h k) eqn:E.
    + apply bytes_cmp_eq in E. subst k. destruct Hin as [E|Hin].
      * inversion E; subst. apply in_app_or in Hp as [Hp|[<-|[]]].
        -- right. exists ps. split; [left; reflexivity | exact Hp].
        -- left. split; reflexivity.
      * right. exists ps'. split; [right; exact Hin | exact Hp].
    + destruct Hin as [E1|Hin].
      * inversion E1; subst. destruct Hp as [<-|[]]. left. split; reflexivity.
      * right. exists ps'. split; [exact Hin | exact Hp].
    + destruct Hin as [E1|Hin].
      * inversion E1; subst. right. exists ps'. split; [left; reflexivity | exact Hp].
      * destruct (IH Hin Hp) as [H|[ps0 [H1 H2]]]; [left; exact H|].
        right. exists ps0. split; [right; exact H1 | exact H2].
Qed.

Lemma group_fold_in al : forall m h ps p,
  In (h, ps) (fold_left (fun m a => group_insert (a_host a) (a_port a) m) al m) -> In p ps ->
  (exists ps0, In (h, ps0) m /\ In p ps0) \/ In {| a_host := h; a_port := p |} al.
Proof.
  induction al as [|a al IH]; intros m h ps p Hin Hp; cbn [fold_left] in Hin.
  - left. exists ps. split; assumption.
  - destruct (IH _ h ps p Hin Hp) as [[ps0 [H1 H2]]|H]; [|right; right; exact H].
    destruct (group_insert_in _ _ _ _ _ _ H1 H2) as [[-> ->]|H]; [|left; exact H].
    right. left. destruct a; reflexivity.
Qed.

Lemma group_sound al h ps p : In (h, ps) (group al) -> In p ps -> In {| a_host := h; a_port := p |} al.
Proof.
  intros Hin Hp. destruct (group_fold_in al [] h ps p Hin Hp) as [[ps0 [[] _]]|H]. exact H.
Qed.

(* the function `lib_select` folds with: `lib_select l` is `fold_left sel_step l None` by conversion *)
Definition sel_step (best : option route) (y : route) : option route :=
  match best with
  | None => Some y
  | Some x => if meta_ltb (r_meta x) (r_meta y) then Some y else Some x
  end.

Lemma lib_select_fold_in l : forall acc r, fold_left sel_step l acc = Some r -> In r l \/ acc = Some r.
Proof.
  induction l as [|y l IH]; intros acc r H; cbn [fold_left] in H; [right; exact H|].
  destruct (IH _ _ H) as [Hin|Hacc]; [left; right; exact Hin|].
  unfold sel_step in Hacc. destruct acc as [x|].
  - destruct (meta_ltb (r_meta x) (r_meta y)); inversion Hacc; subst; [left; left; reflexivity | right; reflexivity].
  - inversion Hacc; subst. left; left; reflexivity.
Qed.

Lemma lib_select_valid : valid_sel lib_select.
Proof.
  intros l r H. unfold lib_select in H. change (fold_left sel_step l None = Some r) in H.
  destruct (lib_select_fold_in l None r H) as [Hin|E]; [exact Hin | discriminate].
Qed.

Lemma lib_select_fold_some l : forall x, exists y, fold_left sel_step l (Some x) = Some y.
Proof.
  induction l as [|z l IH]; intro x; cbn [fold_left]; [exists x; reflexivity|].
  unfold sel_step at 2. destruct (meta_ltb (r_meta x) (r_meta z)); apply IH.
Qed.

Lemma lib_select_total : total_sel lib_select.
Proof.
  intros l Hl. unfold lib_select. change (fold_left sel_step l None <> None).
  destruct l as [|y l]; [contradiction Hl; reflexivity|]. cbn [fold_left sel_step].
  destruct (lib_select_fold_some l y) as [r ->]. discriminate.
Qed.

Lemma wl_recognize_sound sel al a :
  valid_sel sel -> wl_recognize_with sel (mk_router al) a = true -> exists e, In e al /\ entry_matches e a.
Proof.
  intros Hsel H. unfold wl_recognize_with, recognize_with in H.
  destruct (sel (candidates (run_threads (mk_router al) (a_host a)))) as [r|] eqn:Es; [|discriminate].
  apply Hsel in Es. apply candidates_sound in Es as [Hin Hcm].
  unfold mk_router in Hin. apply in_map_iff in Hin as [[h ps] [<- Hg]].
  cbn [mk_route fst snd r_cls r_ports] in *.
  apply existsb_exists in H as [p [Hp Hallow]].
  exists {| a_host := h; a_port := p |}. split; [eapply group_sound; eassumption|].
  split; cbn [a_host a_port]; [apply cm_compile; exact Hcm | apply port_allows_spec; exact Hallow].
Qed.

Lemma decide_cases sel al q : valid_sel sel ->
  match decide_with sel (Some al) q with
  | Reject400 => authority_of q = None
  | Reject403 => exists a, authority_of q = Some a
  | Forward => exists a e, authority_of q = Some a /\ In e al /\ entry_matches e a
  end.
Proof.
  intro Hsel. unfold decide_with. destruct (authority_of q) as [a|]; [|reflexivity].
  destruct (wl_recognize_with sel (mk_router al) a) eqn:E; [|exists a; reflexivity].
  destruct (wl_recognize_sound sel al a Hsel E) as [e [He Hm]]. exists a, e. auto.
Qed.

Lemma decide_400_iff sel filter q : decide_with sel filter q = Reject400 <-> authority_of q = None.
Proof.
  unfold decide_with. destruct (authority_of q) as [a|]; [|split; reflexivity].
  split; [|discriminate]. destruct filter as [al|]; [|discriminate].
  destruct (wl_recognize_with sel (mk_router al) a); discriminate.
Qed.

Lemma authority_of_disagree q a1 a2 :
  host_source q = Some (Some a1) -> uri_source q = Some (Some a2) -> a1 <> a2 -> authority_of q = None.
Proof.
  intros H1 H2 Hne. unfold authority_of. rewrite H1, H2.
  destruct (authority_eqb a1 a2) eqn:E; [apply authority_eqb_eq in E; contradiction | reflexivity].
Qed.

Lemma reject_runs_nothing (inner : request -> N) sel filter q :
  (decide_with sel filter q = Reject403 -> call_with inner sel filter q = (403, []))
  /\ (decide_with sel filter q = Reject400 -> call_with inner sel filter q = (400, []))
  /\ (snd (call_with inner sel filter q) = [] <-> decide_with sel filter q <> Forward).
Proof. unfold call_with. destruct (decide_with sel filter q); cbn [snd]; intuition congruence. Qed.

(* H : nested conditionals = Some _: take every branch, drop those that returned None *)
Ltac branches H :=
  repeat match type of H with
         | match ?c with _ => _ end = _ => destruct c
         | None = Some _ => discriminate H
         end.

Lemma vloop_no_slash s : forall i st e st',
  vloop s i st = Some (e, st') -> (i <= e)%nat /\ ~ In x2f (firstn (e - i) s).
Proof.
  induction s as [|b s IH]; intros i st e st' H; cbn [vloop] in H.
  - inversion H; subst. rewrite Nat.sub_diag. split; [apply Nat.le_refl | intros []].
  - destruct (beqb b x2f || beqb b x3f || beqb b x23) eqn:Eend.
    { inversion H; subst. rewrite Nat.sub_diag. split; [apply Nat.le_refl | intros []]. }
    assert (Hb : b <> x2f).
    { intro E. subst. discriminate. }
    assert (Hstep : forall st0, vloop s (S i) st0 = Some (e, st') -> (i <= e)%nat /\ ~ In x2f (firstn (e - i) (b :: s))).
    { intros st0 H0. destruct (IH _ _ _ _ H0) as [Hle Hno]. split; [apply Nat.lt_le_incl; exact Hle|].
      replace (e - i)%nat with (S (e - S i)) by (clear - Hle; lia). cbn [firstn In].
      intros [E|E]; [apply Hb; exact E | exact (Hno E)]. }
    branches H; eapply Hstep; exact H.
Qed.

Lemma validate_authority_no_slash s e : validate_authority s = Some e -> ~ In x2f (firstn e s).
Proof.
  unfold validate_authority. destruct s as [|b s]; [discriminate|].
  destruct (vloop (b :: s) 0 _) as [[e0 st]|] eqn:E; [|discriminate].
  intro H. apply vloop_no_slash in E as [_ Hno]. rewrite Nat.sub_0_r in Hno.
  branches H. inversion H; subst. exact Hno.
Qed.

Lemma parse_full_no_slash s u : parse_full s = Some u -> ~ In x2f (u_auth u).
Proof.
  unfold parse_full. destruct (scheme_parse s) as [sc|]; [|discriminate].
  (* whatever the scheme, what follows is validated as an authority: name the pair (scheme, rest) it yields *)
  destruct (match sc with ScNone => _ | ScHttp => _ | ScHttps => _ | ScOther n => _ end) as [scheme rest].
  destruct (validate_authority rest) as [e|] eqn:Ev; [|discriminate].
  apply validate_authority_no_slash in Ev. destruct scheme as [sn|].
  - destruct (Nat.eqb e 0); [discriminate|].
    destruct (match skipn e rest with [] => true | _ => _ end); [|discriminate].
    intro H. inversion H; subst. exact Ev.
  - destruct (Nat.eqb e (length rest)) eqn:El; [|discriminate]. apply Nat.eqb_eq in El. subst e.
    rewrite firstn_all in Ev. intro H. inversion H; subst. exact Ev.
Qed.

Lemma uri_parse_no_slash s u : uri_parse s = Some u -> ~ In x2f (u_auth u).
Proof.
  unfold uri_parse. destruct (max_uri_len <? blen s); [discriminate|].
  destruct s as [|b [|c s]]; [discriminate | |].
  - destruct (beqb b x2f || beqb b x2a); [intro H; inversion H; subst; intros []|].
    destruct (validate_authority [b]) as [e|] eqn:Ev; [|discriminate].
    destruct (Nat.eqb e 1) eqn:E1; [|discriminate]. apply Nat.eqb_eq in E1. subst e.
    apply validate_authority_no_slash in Ev. intro H. inversion H; subst. exact Ev.
  - destruct (beqb b x2f).
    + destruct (path_and_query_ok (b :: c :: s)); [|discriminate]. intro H. inversion H; subst. intros [].
    + apply parse_full_no_slash.
Qed.

Lemma last_at_in s : forall r x, last_at s = Some r -> In x r -> In x s.
Proof.
  induction s as [|c s IH]; intros r x H Hx; cbn [last_at] in H; [discriminate|].
  destruct (last_at s) as [r'|].
  - inversion H; subst. right. eapply IH; [reflexivity | exact Hx].
  - destruct (beqb c x40); [|discriminate]. inversion H; subst. right. exact Hx.
Qed.

Lemma through_bracket_in s x : In x (through_bracket s) -> In x s.
Proof.
  induction s as [|c s IH]; cbn [through_bracket]; [tauto|].
  destruct (beqb c x5d); cbn [In]; [tauto|]. intros [H|H]; [left; exact H | right; apply IH; exact H].
Qed.

Lemma take_while_in p s x : In x (take_while p s) -> In x s.
Proof.
  induction s as [|c s IH]; cbn [take_while]; [tauto|].
  destruct (p c); cbn [In]; [|tauto]. intros [H|H]; [left; exact H | right; apply IH; exact H].
Qed.

Lemma host_of_in auth x : In x (host_of auth) -> In x auth.
Proof.
  unfold host_of. intro H.
  assert (Hhp : forall hp, In x (match hp with
                                 | c :: _ => if beqb c x5b then through_bracket hp
                                             else take_while (fun b => negb (beqb b x3a)) hp
                                 | [] => [] end) -> In x hp).
  { intros [|c hp] H0; [destruct H0|]. destruct (beqb c x5b); [apply through_bracket_in | eapply take_while_in]; exact H0. }
  destruct (last_at auth) as [r|] eqn:E; [eapply last_at_in; [exact E | apply Hhp; exact H] | apply Hhp; exact H].
Qed.

(* justifies leaving the leading-'/' strip of Router::add / Router::recognize out of the model *)
Lemma parse_authority_host_no_slash s a : parse_authority s = Some a -> ~ In x2f (a_host a).
Proof.
  unfold parse_authority. destruct (uri_parse s) as [u|] eqn:Eu; [|discriminate].
  apply uri_parse_no_slash in Eu. destruct (u_auth u) as [|b auth] eqn:Ea; [discriminate|].
  intros H Hin. apply Eu.
  assert (Hh : a_host a = host_of (b :: auth)).
  { branches H; inversion H; reflexivity. }
  rewrite Hh in Hin. apply host_of_in in Hin. exact Hin.
Qed.

(* makes the specification decidable by running the model (the witnesses of Props/C14.v) *)
Lemma single_route_only pat ps h r : In r (candidates (run_threads [mk_route (pat, ps)] h)) -> r = mk_route (pat, ps).
Proof. intro H. apply candidates_sound in H as [[<-|[]] _]. reflexivity. Qed.

Lemma host_matches_run pat ps h :
  host_matches pat h <-> candidates (run_threads [mk_route (pat, ps)] h) <> [].
Proof.
  set (r0 := mk_route (pat, ps)). split.
  - intro H. destruct (candidates_complete [r0] r0 h) as [r' Hr'].
    + left. reflexivity.
    + unfold r0. cbn [mk_route r_cls fst]. apply cm_compile. exact H.
    + intro E. rewrite E in Hr'. destruct Hr'.
  - intro H. destruct (candidates (run_threads [r0] h)) as [|r l] eqn:E; [contradiction H; reflexivity|].
    assert (Hin : In r (candidates (run_threads [r0] h))) by (rewrite E; left; reflexivity).
    apply candidates_sound in Hin as [[<-|[]] Hcm]. apply cm_compile. exact Hcm.
Qed.
