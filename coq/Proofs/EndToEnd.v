(* Links between the client-side and server-side models at the level of bytes on the wire. *)
From JV Require Import Base.Bytes Base.Utf8 Json.Json Json.JsonSer Json.JsonParse Model.Wire Model.Server Proofs.WireFacts.

(* what a jsonrpsee client puts on the wire for a call is, for the server, a call with the same id, method and params *)
Theorem client_request_is_a_call r :
  wf_id (rq_id r) -> utf8_valid (rq_method r) = true ->
  match rq_params r with Some p => raw_payload p /\ nonnull p | None => True end ->
  classify (ser_request r) = Call r.
Proof.
  intros Hi Hm Hp. unfold classify. rewrite ser_request_eq, object_members_ser by (apply request_members_ok; assumption).
  rewrite (as_request_members r Hi Hm Hp). reflexivity.
Qed.

(* a client notification (no id member) is, for the server, a notification: it is never answered *)
Theorem client_notification_is_a_notification me p :
  utf8_valid me = true -> match p with Some p' => raw_payload p' /\ nonnull p' | None => True end ->
  classify (ser_notification me p) = Notif.
Proof.
  intros Hm Hp. unfold classify.
  rewrite ser_notification_eq, object_members_ser by (apply notification_members_ok; assumption).
  (* no id member: not a request *)
  change (as_request (notification_members me p)) with (@None request).
  rewrite (as_notification_members me p Hm Hp). reflexivity.
Qed.
