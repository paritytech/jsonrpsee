(* C06 -- subscription bookkeeping is exact and respects the per-connection cap.
   The property theorems with their proofs; the invariant of the LTS and the lemmas they use are in
   Proofs/SubBookFacts.v, SubBookThreadFacts.v, SubBookConnFacts.v; statements are compared with tools/pinned/C06.statements.
   `reach caps base meth tr` = state and observations after ANY trace of the subscription LTS (Model/SubBook.v), whose
   DropSink is the repaired drop (fixes/C06.patch: the table entry goes with the LAST clone).
   `count_live s c` counts the subscriptions of connection c that exist: pending, being accepted, or active with at
   least one sink still held.  `active_here s c t`: t names an accepted, not unsubscribed subscription of connection c
   whose handler still holds a sink. *)
From Coq Require Import List NArith ZArith Bool Lia.
From JV Require Import Model.AcceptSteps Gen.AcceptOrderGen Model.TableOps Gen.TableOpsGen Model.SubBook Proofs.SubBookFacts Proofs.SubBookThreadFacts.
From JV Require Import Gen.SubLimiterGen Proofs.SubBookConnFacts.
Import ListNotations.

Theorem C06_unsubscribe_truth_table : forall caps base meth tr c cn req t, let s := fst (reach caps base meth tr) in nth_error (conns s) c = Some cn -> c_open cn = true -> stopped s = false -> exists r, snd (step s (UnsubscribeCall c req t)) = [OUnsubAnswer c req t r] /\ (r = true <-> active_here s c t) /\ (exists cn', nth_error (conns (fst (step s (UnsubscribeCall c req t)))) c = Some cn' /\ sent cn' = sent cn ++ [FUnsub req r]).
Proof.
  intros caps base meth tr c cn req t s Hc Ho Hst. destruct (reach_inv caps base meth tr) as [I _]. fold s in I.
  rewrite step_running; cbn [step_core step_core_g when_performed]; rewrite Hc, Ho, Hst; [|exact Hst]. cbn [andb negb fst snd].
  exists (mem_key (c, t) (table s)). split; [reflexivity|]. split.
  - rewrite <- (table_active s c t I). split; intro H; [apply mem_key_In | apply mem_key_In in H]; assumption.
  - exists (c_enq (FUnsub req (mem_key (c, t) (table s))) cn).
    split; [unfold upd_conn; cbn; apply nth_error_upd_same; assumption|]. unfold sent, c_enq. cbn. rewrite app_assoc. reflexivity.
Qed.
Print Assumptions C06_unsubscribe_truth_table.

Theorem C06_cap : forall caps base meth tr c cn, let s := fst (reach caps base meth tr) in nth_error (conns s) c = Some cn -> count_live s c + c_permits cn = c_cap cn /\ count_live s c <= c_cap cn.
Proof. exact cap_respected. Qed.
Print Assumptions C06_cap.

Theorem C06_cap_excess_refused : forall caps base meth tr c cn req, let s := fst (reach caps base meth tr) in nth_error (conns s) c = Some cn -> c_open cn = true -> stopped s = false -> (count_live s c = c_cap cn -> snd (step s (SubscribeCall c req)) = [ORefused c req] /\ subs (fst (step s (SubscribeCall c req))) = subs s /\ exists cn', nth_error (conns (fst (step s (SubscribeCall c req)))) c = Some cn' /\ sent cn' = sent cn ++ [FErr req ETooMany]) /\ (count_live s c < c_cap cn -> snd (step s (SubscribeCall c req)) = [OHandler (length (subs s)) c req]).
Proof.
  intros caps base meth tr c cn req s Hc Ho Hst. destruct (cap_respected caps base meth tr c cn Hc) as [E _]. fold s in E.
  rewrite (step_subscribe s c cn req Hc Ho Hst). split; intro H.
  - assert (Hp : c_permits cn = 0) by lia. rewrite Hp. cbn [fst snd].
    split; [reflexivity|]. split; [reflexivity|]. exists (c_push (FErr req ETooMany) cn).
    split; [apply nth_error_upd_same; assumption|]. unfold c_push. rewrite Ho. unfold sent, c_enq. cbn. rewrite app_assoc. reflexivity.
  - destruct (c_permits cn) as [|p] eqn:Hp; [lia | reflexivity].
Qed.
Print Assumptions C06_cap_excess_refused.

Theorem C06_slot_returns : forall caps base meth tr c cn reqs, let s := fst (reach caps base meth tr) in nth_error (conns s) c = Some cn -> (c_permits cn = c_cap cn - count_live s c) /\ (c_open cn = true -> stopped s = false -> length reqs = c_cap cn - count_live s c -> snd (run s (map (SubscribeCall c) reqs)) = handler_obs (length (subs s)) c reqs).
Proof.
  intros caps base meth tr c cn reqs s Hc. destruct (cap_respected caps base meth tr c cn Hc) as [E _]. fold s in E.
  split; [lia|]. intros Ho Hst Hl. eapply restart; eauto. lia.
Qed.
Print Assumptions C06_slot_returns.

Theorem C06_stays_active : forall caps base meth tr h b cn, let s := fst (reach caps base meth tr) in let o := snd (reach caps base meth tr) in nth_error (subs s) h = Some b -> s_state b = SActive -> s_sinks b <> [] -> nth_error (conns s) (s_conn b) = Some cn -> c_open cn = true -> (forall req, ~ In (OUnsubAnswer (s_conn b) req (s_id b) true) o) -> In (s_conn b, s_id b) (table s) /\ forall k, In k (s_sinks b) -> step s (IsClosed h k) = (s, [OClosed h k false]).
Proof.
  intros caps base meth tr h b cn s o Hb Ha Hs Hc Ho Hn. destruct (reach_inv caps base meth tr) as [I [IO St]]. fold s in I, IO, St. fold o in IO.
  assert (Hu : s_unsubscribed b = false).
  { destruct (s_unsubscribed b) eqn:E; [|reflexivity]. destruct (io_unsub s o IO _ _ Hb Ha E Hs) as [req Hr]. exfalso. exact (Hn req Hr). }
  split.
  - apply (inv_table s I). exists h, b. split; [assumption|]. unfold akey. rewrite Ha, Hu. reflexivity.
  - intros k Hk. apply memN_In in Hk. unfold step, step_gen. cbn [step_core step_core_g when_performed]. rewrite Hb, Hk, (settle_id s St).
    unfold sink_closed. rewrite (conn_open_eq _ _ _ Hc), Ho, Hu. reflexivity.
Qed.
Print Assumptions C06_stays_active.

(* history: the same statement is FALSE of the unrepaired `Drop for SubscriptionSink` (step_old / drop_sink_old) *)
Theorem C06_stays_active_refuted_old : let s := fst (run_old (init [2] 1000 0) old_witness) in let o := snd (run_old (init [2] 1000 0) old_witness) in exists h b cn, nth_error (subs s) h = Some b /\ s_state b = SActive /\ s_sinks b <> [] /\ nth_error (conns s) (s_conn b) = Some cn /\ c_open cn = true /\ (forall req, ~ In (OUnsubAnswer (s_conn b) req (s_id b) true) o) /\ ~ In (s_conn b, s_id b) (table s) /\ exists k, In k (s_sinks b) /\ step_old s (IsClosed h k) = (s, [OClosed h k true]).
Proof.
  vm_compute. eexists 0, _, _. split; [reflexivity|]. split; [reflexivity|]. split; [discriminate|].
  split; [reflexivity|]. split; [reflexivity|]. split.
  - intros req H. repeat (destruct H as [H | H]; [discriminate H|]). exact H.
  - split; [intros []|]. exists 0%N. split; [left; reflexivity | reflexivity].
Qed.
Print Assumptions C06_stays_active_refuted_old.

Definition ex_book : list act :=
  [SubscribeCall 0 1; SubscribeCall 0 2; Accept1 0; Accept2 0; CloneSink 0 0 1; DropSink 0 1].

Example C06_repaired_witness : let s := fst (reach [1; 1] 1000 0 ex_book) in snd (reach [1; 1] 1000 0 ex_book) = [OHandler 0 0 1; ORefused 0 2; OAck; OAccept 0 true; OAck; OAck] /\ table s = [(0, 1000%N)] /\ snd (step s (IsClosed 0 0)) = [OClosed 0 0 false] /\ snd (step s (UnsubscribeCall 0 3 1000)) = [OUnsubAnswer 0 3 1000 true] /\ snd (step s (UnsubscribeCall 1 3 1000)) = [OUnsubAnswer 1 3 1000 false] /\ count_live s 0 = 1.
Proof. vm_compute. repeat split. Qed.

Example C06_slot_reuse_nonvacuous : let s := fst (reach [1] 1000 0 (ex_book ++ [DropSink 0 0])) in count_live s 0 = 0 /\ table s = [] /\ snd (step s (SubscribeCall 0 4)) = [OHandler 1 0 4].
Proof. vm_compute. repeat split. Qed.

(* ---- accept() that FAILS: abandoned subscribe call (AbandonCall: the call future was dropped, e.g. by an rpc middleware,
   while the connection stays open; SAbandoned = the pending sink lives on in a task of its own) or closed connection.
   `step` interprets accept() over Gen/AcceptOrderGen.accept_steps, the order of its effectful steps read from
   core/src/server/subscription.rs on every check (tools/translators/accept_order.py); the theorems are about that
   constant -- with the table insert in front of a fallible send they are false and their proofs do not build. ---- *)
Theorem C06_failed_accept_leaves_no_entry : forall caps base meth tr h b, let s := fst (reach caps base meth tr) in nth_error (subs s) h = Some b -> (s_state b = SPending \/ s_state b = SAbandoned) -> (forall op call fs fc t, ar_ok (accept_run op call b AcceptOrderGen.accept_steps fs fc t) = false -> ar_table (accept_run op call b AcceptOrderGen.accept_steps fs fc t) = t) /\ (In (OAccept h false) (snd (step s (Accept1 h))) <-> (s_state b = SAbandoned \/ conn_open s (s_conn b) = false)) /\ (In (OAccept h false) (snd (step s (Accept1 h))) -> table (fst (step s (Accept1 h))) = table s /\ forall tr2 cn req, let s2 := fst (reach caps base meth (tr ++ Accept1 h :: tr2)) in ~ In (s_conn b, s_id b) (table s2) /\ (nth_error (conns s2) (s_conn b) = Some cn -> c_open cn = true -> stopped s2 = false -> snd (step s2 (UnsubscribeCall (s_conn b) req (s_id b))) = [OUnsubAnswer (s_conn b) req (s_id b) false])).
Proof.
  intros caps base meth tr h b s Hb Hp. destruct (reach_inv caps base meth tr) as [I _]. fold s in I.
  destruct (conn_of_sub s h b I Hb) as [cn0 Hcn0].
  destruct (accept1_step s h b cn0 Hb Hcn0 Hp) as [Iff Post].
  split; [intros; apply accept_failure_keeps_table; assumption|]. split; [exact Iff|].
  intro Hfail. destruct (Post Hfail) as [Et [[b1 [Hb1 [S1 Hd1]]] _]]. split; [exact Et|].
  intros tr2 cn req s2.
  destruct (reach_cons_mono caps base meth tr (Accept1 h) tr2) as [_ M]. fold s s2 in M.
  destruct (M _ _ Hb1) as [b2 [Hb2 [[Ec2 [Ei2 _]] [_ Hd2]]]]. destruct S1 as [Ec1 [Ei1 _]].
  destruct (reach_inv caps base meth (tr ++ Accept1 h :: tr2)) as [I2 _]. fold s2 in I2.
  assert (NA : ~ active_here s2 (s_conn b) (s_id b)).
  { replace (s_conn b) with (s_conn b2) by congruence. replace (s_id b) with (s_id b2) by congruence.
    eapply not_active_here; eauto. rewrite (Hd2 Hd1). discriminate. }
  split.
  - intro Hin. apply NA. apply (table_active s2 _ _ I2). assumption.
  - intros Hc Ho Hst.
    destruct (C06_unsubscribe_truth_table caps base meth (tr ++ Accept1 h :: tr2) (s_conn b) cn req (s_id b) Hc Ho Hst) as [r [Er [Hr _]]].
    fold s2 in Er, Hr. rewrite Er. destruct r; [|reflexivity]. exfalso. apply NA. apply Hr. reflexivity.
Qed.
Print Assumptions C06_failed_accept_leaves_no_entry.

Theorem C06_failed_accept_returns_slot : forall caps base meth tr c cn req mid, let s0 := fst (reach caps base meth tr) in let h := length (subs s0) in nth_error (conns s0) c = Some cn -> c_open cn = true -> stopped s0 = false -> count_live s0 c < c_cap cn -> (mid = [AbandonCall h true] \/ mid = [ConnDrop c]) -> let s2 := fst (reach caps base meth (tr ++ SubscribeCall c req :: mid)) in count_live s2 c = count_live s0 c + 1 /\ In (OAccept h false) (snd (step s2 (Accept1 h))) /\ count_live (fst (step s2 (Accept1 h))) c = count_live s0 c.
Proof.
  intros caps base meth tr c cn req mid s0 h Hc Ho Hst Hlt Hmid s2.
  destruct (cap_respected caps base meth tr c cn Hc) as [Hcap _]. fold s0 in Hcap.
  destruct (c_permits cn) as [|p] eqn:Hp; [lia|].
  set (s1 := enter_sub s0 c p req).
  assert (Hb1 : nth_error (subs s1) h = Some (new_sub s0 c req)).
  { unfold s1, enter_sub, upd_conn, set_conns, set_subs, h. cbn [subs]. rewrite nth_error_snoc, Nat.ltb_irrefl, Nat.eqb_refl. reflexivity. }
  assert (Hc1 : nth_error (conns s1) c = Some (c_set_permits p cn)) by (apply nth_error_upd_same; exact Hc).
  (* after `mid`: subscription h holds its permit, and accept() on it will fail *)
  assert (M : exists b2 cn2, nth_error (subs s2) h = Some b2 /\ s_conn b2 = c /\
                nth_error (conns s2) c = Some cn2 /\ c_permits cn2 = p /\ c_cap cn2 = c_cap cn /\
                (s_state b2 = SAbandoned \/ (s_state b2 = SPending /\ c_open cn2 = false))).
  { unfold s2. rewrite reach_cons. fold s0. rewrite (step_subscribe s0 c cn req Hc Ho Hst), Hp. cbn [fst snd]. fold s1.
    destruct Hmid as [-> | ->]; cbn [fold_left]; rewrite run_step_eq; cbn [fst snd].
    - (* the call is abandoned, the pending sink lives on *)
      rewrite step_running; cbn [step_core step_core_g]; rewrite Hb1; [|exact Hst].
      exists (sb_returned None (sb_state SAbandoned (new_sub s0 c req))), (c_push (FErr req EAbandoned) (c_set_permits p cn)).
      split; [exact (nth_error_upd_same _ _ _ _ _ Hb1)|]. split; [reflexivity|]. split; [exact (nth_error_upd_same _ _ _ _ _ Hc1)|].
      destruct (push_opt_conn (Some (FErr req EAbandoned)) (c_set_permits p cn)) as [_ [P2 [P3 _]]].
      split; [exact P3|]. split; [exact P2|]. left. reflexivity.
    - (* the client drops the connection *)
      rewrite step_running; cbn [step_core step_core_g]; rewrite Hc1; cbn [c_open c_set_permits]; rewrite Ho; [|exact Hst].
      exists (new_sub s0 c req), (c_close (c_set_permits p cn)).
      split; [exact Hb1|]. split; [reflexivity|]. split; [exact (nth_error_upd_same _ _ _ _ _ Hc1)|].
      split; [reflexivity|]. split; [reflexivity|]. right. split; reflexivity. }
  destruct M as [b2 [cn2 [Hb2 [Ec2 [Hcn2 [Hp2 [Hcap2 Hs2]]]]]]].
  assert (Hpa : s_state b2 = SPending \/ s_state b2 = SAbandoned) by (destruct Hs2 as [? | [? _]]; auto).
  rewrite <- Ec2 in Hcn2.
  destruct (accept1_step s2 h b2 cn2 Hb2 Hcn2 Hpa) as [Iff _].
  assert (Hfail : In (OAccept h false) (snd (step s2 (Accept1 h)))).
  { apply Iff. rewrite (conn_open_eq _ _ _ Hcn2). destruct Hs2 as [? | [_ ?]]; auto. }
  destruct (failed_accept_frees_slot caps base meth (tr ++ SubscribeCall c req :: mid) h b2 cn2 Hb2 Hpa Hcn2 Hfail) as [F _].
  destruct (cap_respected caps base meth (tr ++ SubscribeCall c req :: mid) (s_conn b2) cn2 Hcn2) as [Hcap' _].
  fold s2 in F, Hcap'. rewrite Ec2 in F, Hcap'. split; [lia|]. split; [exact Hfail | lia].
Qed.
Print Assumptions C06_failed_accept_returns_slot.

Theorem C06_failed_accept_frees_one_slot : forall caps base meth tr h b cn, let s := fst (reach caps base meth tr) in nth_error (subs s) h = Some b -> (s_state b = SPending \/ s_state b = SAbandoned) -> nth_error (conns s) (s_conn b) = Some cn -> In (OAccept h false) (snd (step s (Accept1 h))) -> let s1 := fst (step s (Accept1 h)) in count_live s1 (s_conn b) + 1 = count_live s (s_conn b) /\ exists cn1, nth_error (conns s1) (s_conn b) = Some cn1 /\ c_permits cn1 = c_permits cn + 1 /\ c_cap cn1 = c_cap cn.
Proof. exact failed_accept_frees_slot. Qed.
Print Assumptions C06_failed_accept_frees_one_slot.

(* subscribe; the call is abandoned; accept fails (the response was already enqueued: error 44, then the success response
   of the same call); unsubscribe of that id -> false; with cap 1 the next subscribe is admitted and accepted *)
Definition ex_abandon : list act :=
  [SubscribeCall 0 1; AbandonCall 0 true; Accept1 0; UnsubscribeCall 0 2 1000; SubscribeCall 0 3; Accept1 1; Accept2 1].

Example C06_failed_accept_witness : let r := reach [1] 1000 0 ex_abandon in snd r = [OHandler 0 0 1; OAck; OAccept 0 false; OUnsubAnswer 0 2 1000 false; OHandler 1 0 3; OAck; OAccept 1 true] /\ table (fst r) = [(0, 1001%N)] /\ map sent (conns (fst r)) = [[FErr 1 EAbandoned; FSubOk 1 1000; FUnsub 2 false; FSubOk 3 1001]] /\ count_live (fst r) 0 = 1 /\ snd (step (fst (reach [1] 1000 0 [SubscribeCall 0 1; AbandonCall 0 true])) (SubscribeCall 0 9)) = [ORefused 0 9] /\ AcceptOrderGen.accept_steps = [AcceptSteps.ASendToSink; AcceptSteps.ANotifyCall; AcceptSteps.ATableInsert; AcceptSteps.ABuildSink].
Proof. vm_compute. repeat split. Qed.

(* ---- REAL threads on the shared subscriber table.  Every site that touches the per-method `Subscribers` table (accept's
   insert, the unsubscribe callback's remove, SubscriptionGuard::drop's remove) is read from
   core/src/server/{subscription,rpc_module}.rs on every check (tools/translators/table_ops.py ->
   Gen/TableOpsGen.table_ops_gen) as `TLockThen op` (blocking lock(), operation unconditional) or `TTryLockThen op`
   (operation skipped when another thread holds the mutex).  Thread-level traces are lists of `(act, contended)`:
   `reach_c` / `step_c` interpret the generated record, a contended event at a TTryLockThen site skips its table operation.
   C06_table_ops_unconditional: every generated site is TLockThen, HENCE the contended bits change nothing and the
   truth table holds for all thread-level traces.  With a try_lock at any site the first conjunct is false by
   computation and the proof does not build; C06_trylock_guard_refuted shows what the bit then lets through. ---- *)
Theorem C06_table_ops_unconditional : (TableOpsGen.table_ops_gen = table_ops_locked /\ Forall (fun a => exists op, a = TLockThen op) (sites_of TableOpsGen.table_ops_gen)) /\ (forall caps base meth (tr : list cact), reach_c caps base meth tr = reach caps base meth (map fst tr)) /\ (forall caps base meth (tr : list cact) contended c cn req t, let s := fst (reach_c caps base meth tr) in nth_error (conns s) c = Some cn -> c_open cn = true -> stopped s = false -> exists r, snd (step_c s (UnsubscribeCall c req t, contended)) = [OUnsubAnswer c req t r] /\ (r = true <-> active_here s c t) /\ (exists cn', nth_error (conns (fst (step_c s (UnsubscribeCall c req t, contended)))) c = Some cn' /\ sent cn' = sent cn ++ [FUnsub req r])).
Proof.
  split; [split; [exact table_ops_now | repeat constructor; eexists; reflexivity] |].
  split; [exact contended_erasure |].
  intros caps base meth tr contended c cn req t. cbv zeta. rewrite contended_erasure, step_c_erase. cbn [fst].
  apply C06_unsubscribe_truth_table.
Qed.
Print Assumptions C06_table_ops_unconditional.

Theorem C06_cap_under_contention : forall caps base meth (tr : list cact) c cn, let s := fst (reach_c caps base meth tr) in nth_error (conns s) c = Some cn -> count_live s c + c_permits cn = c_cap cn /\ count_live s c <= c_cap cn.
Proof. intros caps base meth tr c cn. cbv zeta. rewrite contended_erasure. apply cap_respected. Qed.
Print Assumptions C06_cap_under_contention.

(* the hypothetical "never block in Drop" guard: one contended drop of the last sink, and unsubscribe answers true for a
   subscription that is not active (its slot is back, its entry is not); the same trace under blocking locks answers false *)
Theorem C06_trylock_guard_refuted : let s := fst (run_x table_ops_trylock_guard (init [1] 1000 0) trylock_witness) in (exists cn, nth_error (conns s) 0 = Some cn /\ c_open cn = true /\ c_permits cn = c_cap cn) /\ stopped s = false /\ snd (step_x table_ops_trylock_guard false s (UnsubscribeCall 0 2 1000)) = [OUnsubAnswer 0 2 1000 true] /\ ~ active_here s 0 1000 /\ count_live s 0 = 0 /\ table s = [(0, 1000%N)] /\ fst (run_x table_ops_locked (init [1] 1000 0) trylock_witness) = fst (run (init [1] 1000 0) (map fst trylock_witness)) /\ snd (step_x table_ops_locked false (fst (run_x table_ops_locked (init [1] 1000 0) trylock_witness)) (UnsubscribeCall 0 2 1000)) = [OUnsubAnswer 0 2 1000 false].
Proof.
  cbv zeta. split; [eexists; vm_compute; repeat split|]. split; [reflexivity|]. split; [vm_compute; reflexivity|].
  split.
  - intros [h [b [Hb [_ [_ [_ [_ Hs]]]]]]]. destruct h as [|h].
    + vm_compute in Hb. inversion Hb. subst b. apply Hs. reflexivity.
    + vm_compute in Hb. destruct h; discriminate.
  - vm_compute. repeat split.
Qed.
Print Assumptions C06_trylock_guard_refuted.

(* non-vacuity of the thread-level alphabet on the generated record: a contended drop of the last sink removes the entry *)
Example C06_contended_drop_witness : let r := reach_c [1] 1000 0 trylock_witness in table (fst r) = [] /\ snd (step_c (fst r) (UnsubscribeCall 0 2 1000, true)) = [OUnsubAnswer 0 2 1000 false] /\ snd (step_c (fst r) (SubscribeCall 0 3, true)) = [OHandler 1 0 3].
Proof. vm_compute. repeat split. Qed.

(* ---- the cap is per CONNECTION, whatever entry point assembled the server (`Server::start` or the tower service of
   `ServerBuilder::to_service_builder()`; engine subhist runs every two-connection family under both, script token E).
   `admitted o`: the subscribe call reached the handler.  `foreign_block c s mid`: every event of mid, in the state in which
   it runs, is a call / writer step / drop of ANOTHER connection or a handler-side event of a subscription of another
   connection (never the global ServerStop).
   First conjunct: ANY two histories -- any caps and any events on the other connections, inserted or removed anywhere --
   that leave connection c open, not stopped, with the same cap and the same OWN live count decide a subscribe on c alike:
   admitted iff the own count is below the cap, otherwise the -32006 refusal.  Second conjunct: a block of events of other
   connections in front of the subscribe (put in, or taken out) moves neither c's record, nor its live count, nor the decision.
   (Handles are global, so a block inserted in the middle renumbers what follows it: that case is the first conjunct.) ---- *)
Theorem C06_cap_is_per_connection : (forall caps1 base1 meth1 tr1 caps2 base2 meth2 tr2 c cn1 cn2 req, let s1 := fst (reach caps1 base1 meth1 tr1) in let s2 := fst (reach caps2 base2 meth2 tr2) in nth_error (conns s1) c = Some cn1 -> nth_error (conns s2) c = Some cn2 -> c_open cn1 = true -> c_open cn2 = true -> stopped s1 = false -> stopped s2 = false -> c_cap cn1 = c_cap cn2 -> count_live s1 c = count_live s2 c -> admitted (snd (step s1 (SubscribeCall c req))) = admitted (snd (step s2 (SubscribeCall c req))) /\ (admitted (snd (step s1 (SubscribeCall c req))) = true <-> count_live s1 c < c_cap cn1) /\ (admitted (snd (step s1 (SubscribeCall c req))) = false <-> snd (step s1 (SubscribeCall c req)) = [ORefused c req])) /\ (forall caps base meth tr mid c req, let s := fst (reach caps base meth tr) in let s' := fst (reach caps base meth (tr ++ mid)) in stopped s = false -> foreign_block c s mid -> nth_error (conns s') c = nth_error (conns s) c /\ stopped s' = false /\ count_live s' c = count_live s c /\ admitted (snd (step s' (SubscribeCall c req))) = admitted (snd (step s (SubscribeCall c req)))).
Proof.
  split.
  - intros caps1 base1 meth1 tr1 caps2 base2 meth2 tr2 c cn1 cn2 req s1 s2 H1 H2 O1 O2 S1 S2 Ec El.
    destruct (decision_by_own_count caps1 base1 meth1 tr1 c cn1 req H1 O1 S1) as [A1 B1]. fold s1 in A1, B1.
    destruct (decision_by_own_count caps2 base2 meth2 tr2 c cn2 req H2 O2 S2) as [A2 _]. fold s2 in A2.
    split; [|split; assumption]. apply eq_true_iff_eq. rewrite A1, A2, Ec, El. reflexivity.
  - intros caps base meth tr mid c req s s' Hst Hb.
    destruct (foreign_block_record caps base meth mid tr c Hst Hb) as [E1 E2]. fold s s' in E1, E2.
    destruct (reach_inv caps base meth tr) as [I _]. destruct (reach_inv caps base meth (tr ++ mid)) as [I' _]. fold s in I. fold s' in I'.
    split; [exact E1|]. split; [exact E2|]. split; [apply count_live_by_record; assumption|].
    rewrite !admitted_admits. unfold admits. rewrite E1, E2, Hst. reflexivity.
Qed.
Print Assumptions C06_cap_is_per_connection.

(* WHERE the code creates the limiter, read from server/src on every check (tools/translators/sub_limiter.py): every
   `BoundedSubscriptions::new(` of the server crate sits in code that runs once per WebSocket connection
   (TowerServiceNoHttp::call's upgrade branch, ws::connect) and every RpcServiceCfg::CallsAndSubscriptions creates its
   limiter on the spot; a limiter created in a builder / shared struct, or handed in as a clone, is a translation error *)
Theorem C06_limiter_created_per_connection : sub_limiter_scope = PerConnection /\ Forall (fun site => snd site = PerConnection) sub_limiter_sites.
Proof. split; [reflexivity | repeat constructor]. Qed.
Print Assumptions C06_limiter_created_per_connection.

(* non-vacuity, caps [1; 1]: A (connection 0) is full; B's whole life cycle is a foreign block for A and A is still refused;
   B, holding nothing, is admitted although A is full; after A's own subscription ended A is admitted again *)
Definition ex_two_conns_mid : list act := [SubscribeCall 1 2; Accept1 1; Accept2 1; WriterStep 1; UnsubscribeCall 1 3 1001; DropSink 1 0; SubscribeCall 1 4; SubscribeCall 1 5].

Example C06_per_connection_witness : let s := fst (reach [1; 1] 1000 0 [SubscribeCall 0 1]) in let s' := fst (reach [1; 1] 1000 0 ([SubscribeCall 0 1] ++ ex_two_conns_mid)) in foreign_block 0 s ex_two_conns_mid /\ snd (reach [1; 1] 1000 0 ([SubscribeCall 0 1] ++ ex_two_conns_mid)) = [OHandler 0 0 1; OHandler 1 1 2; OAck; OAccept 1 true; OFrameOut 1 (FSubOk 2 1001); OUnsubAnswer 1 3 1001 true; OAck; OHandler 2 1 4; ORefused 1 5] /\ admitted (snd (step s (SubscribeCall 0 9))) = false /\ admitted (snd (step s' (SubscribeCall 0 9))) = false /\ count_live s' 0 = 1 /\ count_live s' 1 = 1 /\ admitted (snd (step s (SubscribeCall 1 9))) = true /\ admitted (snd (step (fst (step s' (Reject 0 7))) (SubscribeCall 0 9))) = true.
Proof. vm_compute. repeat split; intro H; discriminate H. Qed.
