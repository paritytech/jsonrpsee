(* C09 -- the property theorems with their proofs; the invariants and lemmas they use are in
   Proofs/ClientShutdownFacts.v.  The statements are recorded in tools/pinned/C09.statements.
   Model: Model/ClientShutdown.v (the shutdown protocol between send task, read task, watcher and front end; a trace is
   ANY list of labels, the list is the adversarial scheduler + environment), frame arithmetic of Model/ClientMgr.v.
   `gen_variant` (Gen/ShutdownOrderGen.v) is the order of send_task's epilogue as tools/translators/shutdown_order.py
   reads it from core/src/client/async_client/mod.rs on every check.  The invariants are proved for `VNow`, the order
   of the current source: each proof starts by unfolding the constant (`cbv delta`, which keeps the `let` of the
   statement), and the file stops compiling when the translator finds another order. *)
From JV Require Import Base.Bytes Base.Dec Model.Wire Model.ClientMgr Model.ClientShutdown Proofs.ClientShutdownFacts.
From JV Require Import Gen.ShutdownOrderGen.
Local Open Scope N_scope.

(* the front channel is never observably closed before the disconnect reason is recorded; the only shutdowns without
   a reason are those not caused by an error: the client was dropped, or read_task's clean-exit branch ran (dead code:
   no TransportReceiverT can make it run) *)
Theorem C09_cause_before_close : forall tr, let s := run gen_variant init tr in
  front_closed s = true -> (exists c, reason s = Some c) \/ dropped s = true \/ h_recvend s = true.
Proof.
  cbv delta [gen_variant]. intros tr s F. destruct (closed_has_cause s (proj1 (reach_inv tr)) F) as [A|A]; [|right; exact A].
  left. destruct (reason s) as [c|]; [exists c; reflexivity | congruence].
Qed.
Print Assumptions C09_cause_before_close.

(* the recorded reason is the first result that entered close_tx *)
Theorem C09_reason_is_first_report : forall tr c, let s := run gen_variant init tr in
  reason s = Some c -> h_first s = Some (Some c).
Proof.
  cbv delta [gen_variant]. intros tr c s R. exact (proj2 (c_reason s (proj1 (reach_inv tr)) c R)).
Qed.
Print Assumptions C09_reason_is_first_report.

Theorem C09_no_placeholder : forall tr h, let s := run gen_variant init tr in
  h_recvend s = false -> get_c s h <> Some (CDone OPlaceholder).
Proof.
  cbv delta [gen_variant]. intros tr h s R G. pose proof (k_ph s (proj2 (reach_inv tr)) h G). congruence.
Qed.
Print Assumptions C09_no_placeholder.

Theorem C09_observed_cause_is_reason : forall tr h c, let s := run gen_variant init tr in
  get_c s h = Some (CDone (OCause c)) -> reason s = Some c /\ h_first s = Some (Some c).
Proof.
  cbv delta [gen_variant].
  intros tr h c s G. pose proof (k_cause s (proj2 (reach_inv tr)) h c G) as R.
  split; [exact R | exact (proj2 (c_reason s (proj1 (reach_inv tr)) c R))].
Qed.
Print Assumptions C09_observed_cause_is_reason.

Theorem C09_all_pending_fail_with_cause : forall tr, let s := run gen_variant init tr in
  sp s = SExited -> rp s = RExited -> dropped s = false -> h_recvend s = false ->
  exists c, reason s = Some c /\ h_first s = Some (Some c) /\ is_connected s = false /\
    forall h,
      match get_c s h with
      | Some (CDone OOk) => True
      | Some (CDone (OCause c')) => c' = c
      | Some (CDone OPlaceholder) => False
      | Some CGone => False
      | Some _ => get_c (run gen_variant s [LCallerDropped h; LReadErr h]) h = Some (CDone (OCause c))
      | None => get_c (run gen_variant s [LNewCall h; LReadErr h]) h = Some (CDone (OCause c)) /\
                get_c (run gen_variant s [LOnDisc h; LReadErr h]) h = Some (CDone (OCause c))
      end.
Proof.
  cbv delta [gen_variant].
  intros tr s S R D E. destruct (reach_inv tr) as [C K]. fold s in C, K.
  assert (F : front_closed s = true) by (apply (c_front s C); rewrite S; exact Logic.I).
  destruct (closed_has_cause s C F) as [A|[A|A]]; try congruence.
  destruct (reason s) as [c|] eqn:Rs; [|congruence]. exists c.
  split; [reflexivity|]. split; [exact (proj2 (c_reason s C c Rs))|]. split; [unfold is_connected; rewrite F; reflexivity|].
  assert (SC : sp_closing_b (sp s) = true) by (rewrite S; reflexivity).
  intro h. destruct (get_c s h) as [x|] eqn:G.
  - destruct x as [| | |[|c'|]|].
    + exact (finish_pending s h c _ SC R F Rs G eq_refl).
    + exact (finish_pending s h c _ SC R F Rs G eq_refl).
    + exact (finish_pending s h c _ SC R F Rs G eq_refl).
    + exact Logic.I.
    + pose proof (k_cause s K h c' G). congruence.
    + pose proof (k_ph s K h G). congruence.
    + pose proof (k_gone s K h G). congruence.
  - split; apply finish_new; auto.
Qed.
Print Assumptions C09_all_pending_fail_with_cause.

(* bounded-measure progress: once the shutdown has started, every protocol step strictly decreases mu <= 11 (= 5 + 3 + 3,
   the positions of the send task, the read task and the watcher), no step increases it, some protocol step is
   enabled while mu > 0, and mu = 0 is the all-exited state.  The completion of
   the transport's close() is one of the protocol steps (assumption: close() terminates) -- only the END of the send task
   depends on it, what callers observe does not (C09_pending_fail_without_transport_close). *)
Theorem C09_progress : forall tr, let s := run gen_variant init tr in
  started s = true ->
  (mu s <= 11)%nat /\
  (forall l, (mu (step gen_variant s l) <= mu s)%nat) /\
  (forall l, is_proto l = true -> enabled gen_variant s l = true -> (mu (step gen_variant s l) < mu s)%nat) /\
  (mu s = 0%nat <-> all_exited s = true) /\
  ((mu s > 0)%nat -> exists l, is_proto l = true /\ enabled gen_variant s l = true) /\
  all_exited (drive gen_variant false (mu s) s) = true.
Proof. exact progress. Qed.
Print Assumptions C09_progress.

(* CURRENT tree (after "fix: async client: fail pending calls before closing the transport"): once the reason is
   recorded, the front channel closed and the read task gone, every caller that is queued, registered in the manager
   or inside read_error completes with that cause by its own two steps after ANY continuation that does not drop the
   client -- in particular continuations in which the transport's close() never completes *)
Theorem C09_pending_fail_without_transport_close : forall tr h c, let s := run gen_variant init tr in
  reason s = Some c -> front_closed s = true -> rp s = RExited ->
  (get_c s h = Some CQueued \/ get_c s h = Some CInMgr \/ get_c s h = Some CReadErr) ->
  forall tr', ~ In LClientDrop tr' ->
    let s' := run gen_variant s tr' in
    get_c (run gen_variant s' [LCallerDropped h; LReadErr h]) h = Some (CDone (OCause c)).
Proof.
  cbv delta [gen_variant]. intros tr h c s Rs F R G tr' N s'. destruct (reach_inv tr) as [C _]. fold s in C.
  apply live_finish. apply live_run; [exact N|].
  assert (SC : sp_closing_b (sp s) = true).
  { pose proof (proj1 (c_front s C) F) as X. destruct (sp s); try contradiction; reflexivity. }
  unfold live. tauto.
Qed.
Print Assumptions C09_pending_fail_without_transport_close.

(* BEFORE that repair (VLateDrop: the queue and the manager handle were dropped only when send_task returned): calls
   registered in the manager were not failed until the transport's close() had returned *)
Theorem C09_pending_fail_before_transport_close_refuted_old :
  exists tr h, let s := run VLateDrop init tr in
    reason s = Some CRecv /\ front_closed s = true /\ rp s = RExited /\ get_c s h = Some CInMgr /\
    forall tr', ~ In LSTransportClosed tr' -> ~ In LClientDrop tr' -> get_c (run VLateDrop s tr') h = Some CInMgr.
Proof.
  exists tr_blocked, 1. destruct blocked_witness as (S & R & G & Rs & F). cbv zeta.
  repeat split; try assumption.
  intros tr' N1 N2. apply (blocked_run tr' _ 1 N1 N2 S); [rewrite R; discriminate | exact G].
Qed.
Print Assumptions C09_pending_fail_before_transport_close_refuted_old.

(* the OLD send_task epilogue (close front channel, close transport, report): a call made in the window gets the placeholder *)
Theorem C09_old_order_refuted_old :
  exists tr h, let s := run VOldOrder init tr in
    get_c s h = Some (CDone OPlaceholder) /\ h_recvend s = false /\ dropped s = false.
Proof.
  exists tr_old, 2. vm_compute. repeat split.
Qed.
Print Assumptions C09_old_order_refuted_old.

(* the reordering "report, then drop the front receiver without awaiting close_tx.closed()" (variant VNoWait) *)
Theorem C09_no_wait_order_refuted :
  exists tr h, let s := run VNoWait init tr in
    get_c s h = Some (CDone OPlaceholder) /\ h_recvend s = false /\ dropped s = false /\ reason s = None.
Proof.
  exists [LNewCall 1; LSendFault; LSReport; LSCloseFront; LNewCall 2; LReadErr 2], 2. vm_compute. repeat split.
Qed.
Print Assumptions C09_no_wait_order_refuted.

(* what the dead clean-exit branch of read_task would do if a receiver could end its stream *)
Theorem C09_no_placeholder_recv_end_refuted : exists tr h, get_c (run VNow init tr) h = Some (CDone OPlaceholder).
Proof.
  exists [LRecvEnd; LRReport; LWRecv; LWStore; LWExit; LSNotice; LSReport; LSClosedSeen; LSCloseFront; LNewCall 1; LReadErr 1], 1.
  vm_compute. reflexivity.
Qed.
Print Assumptions C09_no_placeholder_recv_end_refuted.

Theorem C09_no_panic_range : forall s raw lo hi,
  frame_range s (classify_frame raw) = Some (lo, hi) -> lo <= hi /\ hi <= u64_max.
Proof. exact frame_range_ok. Qed.
Print Assumptions C09_no_panic_range.

Theorem C09_no_panic_range_end : forall s raw e, range_end_now s (classify_frame raw) = Some e -> e <= u64_max.
Proof.
  intros s raw e. unfold range_end_now.
  destruct (frame_range s (classify_frame raw)) as [[lo hi]|] eqn:E; [|discriminate].
  apply C09_no_panic_range in E as [_ E]. destruct (hi =? u64_max) eqn:X; [discriminate|].
  apply N.eqb_neq in X. intro H; inversion H; subst. unfold u64_max in *. lia.
Qed.
Print Assumptions C09_no_panic_range_end.

(* handle_back increments exactly where range_end_now does; at u64::MAX it takes the error path instead *)
Theorem C09_no_panic_handle_back : forall s fr lo hi, frame_range s fr = Some (lo, hi) ->
  exists s' rs, handle_back s fr =
    if hi =? u64_max then RFatal s' [] FNotPending else batch_response s' rs lo (hi + 1).
Proof. exact handle_back_range. Qed.
Print Assumptions C09_no_panic_handle_back.

(* the slots of a batch result: `hi - lo` placeholders, each reply written at `id - lo` or ignored *)
Theorem C09_no_panic_batch_slots : forall s rs lo hi s' o h filled,
  batch_response s rs lo hi = ROk s' o -> In (OComplete h (CBatch filled)) o -> length filled = N.to_nat (hi - lo).
Proof.
  intros s rs lo hi s' o h filled. unfold batch_response.
  destruct (alookup range_eqb (lo, hi) (batches (m s))) as [w|]; [|discriminate].
  intro H; inversion H; subst; clear H. unfold complete. destruct (alive s w); [|intros []].
  intros [H|[]]. inversion H; subst; clear H.
  assert (G : forall (l : list response) acc, length (fold_left (fun acc r =>
               match id_as_number (rs_id r) with Some n => set_nth (N.to_nat (n - lo)) r acc | None => acc end) l acc) = length acc).
  { induction l as [|r l IH]; intro acc; cbn; [reflexivity|]. rewrite IH.
    destruct (id_as_number (rs_id r)); [apply ClientDispatchFacts.set_nth_length | reflexivity]. }
  rewrite G. apply repeat_length.
Qed.
Print Assumptions C09_no_panic_batch_slots.

Theorem C09_old_overflow_refuted_old :
  exists s raw e, range_end_old s (classify_frame raw) = Some e /\ ~ e <= u64_max /\
                  range_end_now s (classify_frame raw) = None.
Proof.
  exists (ClientMgr.init false 4 4 false), overflow_frame, 18446744073709551616.
  destruct old_overflow as (A & B & C & _). auto.
Qed.
Print Assumptions C09_old_overflow_refuted_old.

Example C09_fault_run_nonvacuous :
  let s := run VNow init (tr_blocked ++ [LSTransportClosed; LCallerDropped 1; LReadErr 1; LOnDisc 2; LReadErr 2]) in
  all_exited s = true /\ get_c s 1 = Some (CDone (OCause CRecv)) /\ get_c s 2 = Some (CDone (OCause CRecv)) /\
  is_connected s = false /\ started (run VNow init [LRecvFault]) = true /\ mu (run VNow init [LRecvFault]) = 10%nat.
Proof.
  vm_compute. repeat split.
Qed.

Example C09_no_wait_nonvacuous :
  let s := run VNow init tr_blocked in
  sp s = SClosing /\ reason s = Some CRecv /\ get_c s 1 = Some CInMgr /\
  sp (run VNow s [LNewCall 2; LRecvFault; LCallerDropped 1; LReadErr 1]) = SClosing /\
  get_c (run VNow s [LNewCall 2; LRecvFault; LCallerDropped 1; LReadErr 1]) 1 = Some (CDone (OCause CRecv)).
Proof.
  vm_compute. repeat split.
Qed.

Example C09_same_schedule_new_order :
  get_c (run VNow init tr_old) 2 = Some CQueued /\
  get_c (run VNow init (tr_old ++ [LSReport; LWRecv; LWStore; LWExit; LSClosedSeen; LSCloseFront; LRNotice; LRReport; LRExit;
                                    LSTransportClosed; LCallerDropped 2; LReadErr 2])) 2 = Some (CDone (OCause CSend)).
Proof.
  vm_compute. split; reflexivity.
Qed.

Example C09_overflow_frame_now :
  exists s', handle_back (ClientMgr.init false 4 4 false) (classify_frame overflow_frame) = RFatal s' [] FNotPending.
Proof. exact (proj2 (proj2 (proj2 old_overflow))). Qed.

(* ---------- the client's own WebSocket ping / inactivity detection (ClientBuilder::enable_ws_ping) ----------
   Layer pstate/plabel/pstep of Model/ClientShutdown.v: the ping arm of send_task, mark_as_active, the inactivity arm of
   read_task with InactivityCheck::is_inactive; an inactivity tick is labelled with the outcome of
   `last_active.elapsed() >= inactive_dur` (the model has no clock).  A trace is any list of plabels. *)

(* the stale tick that brings the count to max_failures, in a connection that is up (all three tasks in their loops,
   client not dropped): the read task breaks with the inactivity cause, the shutdown protocol of the theorems above runs
   to its end with exactly that cause, is_connected turns false, and every caller of the state is either answered
   already or completes with RestartNeeded(inactive) by its own two steps; so does every later call / on_disconnect *)
Theorem C09_inactivity_fails_everything : forall maxf tr, let p := prun gen_variant (pinit maxf) tr in
  started (pb p) = false -> maxf <= p_count p + 1 ->
  let p1 := pstep gen_variant p (LInactTick true) in
  let s2 := drive gen_variant false (mu (pb p1)) (pb p1) in
  p_count p1 = p_count p + 1 /\ rp (pb p1) = RReport (Some CInactive) /\
  all_exited s2 = true /\ reason s2 = Some CInactive /\ h_first s2 = Some (Some CInactive) /\ is_connected s2 = false /\
  (forall h, get_c s2 h = get_c (pb p) h) /\
  forall h,
    match get_c (pb p) h with
    | Some (CDone OOk) => True
    | Some (CDone _) | Some CGone => False
    | Some _ => get_c (run gen_variant s2 [LCallerDropped h; LReadErr h]) h = Some (CDone (OCause CInactive))
    | None => get_c (run gen_variant s2 [LNewCall h; LReadErr h]) h = Some (CDone (OCause CInactive)) /\
              get_c (run gen_variant s2 [LOnDisc h; LReadErr h]) h = Some (CDone (OCause CInactive))
    end.
Proof.
  cbv delta [gen_variant].
  intros maxf tr p St Le p1 s2.
  assert (PB : pb p = run VNow init (base_trace VNow (pinit maxf) tr)) by (unfold p; rewrite prun_base; reflexivity).
  assert (M : p_max p = maxf) by (unfold p; rewrite prun_max; reflexivity).
  pose proof St as St'. rewrite PB in St'.
  destruct (up_state _ St') as (S & R & W & SL & RX & RS & FC & D & HF & HE). rewrite <- PB in *.
  assert (E : penabled VNow p (LInactTick true) = true).
  { cbn. unfold rp_is_loop. rewrite R, RX. reflexivity. }
  assert (P1 : pb p1 = step VNow (pb p) LInactive /\ p_count p1 = p_count p + 1).
  { unfold p1, pstep. rewrite E. cbn [peffect]. unfold is_inactive. cbn [set_active set_count p_max p_count].
    rewrite M. destruct (maxf <=? p_count p + 1) eqn:L; [split; reflexivity|]. apply N.leb_gt in L. lia. }
  destruct P1 as [P1 P1c].
  pose proof (inactive_drive (pb p) S R W SL RX RS FC D HF) as A. cbv zeta in A. rewrite <- P1 in A. fold s2 in A.
  destruct A as (Rp1 & Ex & Sp2 & Rp2 & Reason2 & First2 & Front2 & Dropped2 & Recvend2 & Callers2 & _).
  split; [exact P1c|]. split; [exact Rp1|]. split; [exact Ex|]. split; [exact Reason2|]. split; [exact First2|].
  split; [unfold is_connected; rewrite Front2; reflexivity|].
  assert (GC : forall h, get_c s2 h = get_c (pb p) h) by (intro h; unfold get_c; rewrite Callers2; reflexivity).
  split; [exact GC|].
  (* s2 is reachable, so C09_all_pending_fail_with_cause applies *)
  destruct (drive_is_run VNow false (mu (pb p1)) (pb p1)) as [trd Ed]. fold s2 in Ed.
  assert (RS2 : s2 = run VNow init (base_trace VNow (pinit maxf) tr ++ LInactive :: trd)).
  { rewrite run_app, <- PB. cbn [run fold_left]. rewrite <- P1. exact Ed. }
  pose proof (C09_all_pending_fail_with_cause (base_trace VNow (pinit maxf) tr ++ LInactive :: trd)) as AP.
  cbv zeta delta [gen_variant] in AP. rewrite <- RS2 in AP. rewrite HE in Recvend2.
  destruct (AP Sp2 Rp2 Dropped2 Recvend2) as (c & Rc & _ & _ & Hh). rewrite Reason2 in Rc. inversion Rc; subst c.
  intro h. specialize (Hh h). rewrite GC in Hh.
  destruct (get_c (pb p) h) as [[| | |[|c'|]|]|] eqn:G; auto.
  (* a caller cannot have seen a cause while the connection is up *)
  destruct (reach_inv (base_trace VNow (pinit maxf) tr)) as [_ K]. rewrite <- PB in K.
  pose proof (k_cause _ K h c' G). congruence.
Qed.
Print Assumptions C09_inactivity_fails_everything.

(* a run in which the read task processes no stale tick never produces the inactivity cause: not as the recorded
   reason, not as a report, not in any caller's result (max_failures > 0 is asserted by PingConfig::max_failures) *)
Theorem C09_active_connection_never_dies_of_inactivity : forall maxf tr, 0 < maxf ->
  stale_ticks gen_variant (pinit maxf) tr = 0 ->
  let p := prun gen_variant (pinit maxf) tr in
  p_count p = 0 /\ reason (pb p) <> Some CInactive /\ h_first (pb p) <> Some (Some CInactive) /\
  rp (pb p) <> RReport (Some CInactive) /\
  forall h, get_c (pb p) h <> Some (CDone (OCause CInactive)).
Proof.
  cbv delta [gen_variant].
  intros maxf tr M S p.
  destruct (never_run VNow tr (pinit maxf) M S eq_refl clean_init) as [Z C]. fold p in Z, C.
  split; [exact Z|]. split; [exact (cl_reason _ C)|].
  split; [exact (cl_first _ C)|].
  split; [intro X; apply (cl_rp _ C); rewrite X; reflexivity|].
  intros h G. unfold p in G, C. rewrite prun_base in G, C. cbn [pb pinit] in G, C.
  apply (C09_observed_cause_is_reason _ h CInactive) in G. destruct G as [G _]. exact (cl_reason _ C G).
Qed.
Print Assumptions C09_active_connection_never_dies_of_inactivity.

(* the same, by the labels alone: no inactivity tick of the run is stale *)
Theorem C09_fresh_ticks_never_die_of_inactivity : forall maxf tr, 0 < maxf ->
  (forall l, In l tr -> l <> LInactTick true) ->
  let p := prun gen_variant (pinit maxf) tr in
  p_count p = 0 /\ reason (pb p) <> Some CInactive /\ h_first (pb p) <> Some (Some CInactive) /\
  rp (pb p) <> RReport (Some CInactive) /\
  forall h, get_c (pb p) h <> Some (CDone (OCause CInactive)).
Proof.
  intros maxf tr M H. apply C09_active_connection_never_dies_of_inactivity; [exact M | apply no_stale_label; exact H].
Qed.
Print Assumptions C09_fresh_ticks_never_die_of_inactivity.

(* the same, by traffic: every tick the read task processes is on time (a message received since the previous tick
   makes it fresh) and a message did arrive since the previous tick *)
Theorem C09_regular_traffic_never_dies_of_inactivity : forall maxf tr, 0 < maxf ->
  regular gen_variant (pinit maxf) tr ->
  let p := prun gen_variant (pinit maxf) tr in
  p_count p = 0 /\ reason (pb p) <> Some CInactive /\ h_first (pb p) <> Some (Some CInactive) /\
  rp (pb p) <> RReport (Some CInactive) /\
  forall h, get_c (pb p) h <> Some (CDone (OCause CInactive)).
Proof.
  intros maxf tr M H. apply C09_active_connection_never_dies_of_inactivity; [exact M | apply regular_no_stale; exact H].
Qed.
Print Assumptions C09_regular_traffic_never_dies_of_inactivity.

(* InactivityCheck::count only grows and equals the number of stale ticks processed so far: the failures are cumulative,
   not consecutive (neither a received message nor a fresh tick resets it); the inactivity arm breaks exactly when the
   count, after the tick, has reached max_failures *)
Theorem C09_inactivity_count_monotone : forall maxf tr l, let p := prun gen_variant (pinit maxf) tr in
  p_count p <= p_count (pstep gen_variant p l) /\
  p_count p = stale_ticks gen_variant (pinit maxf) tr /\
  p_max p = maxf /\
  (forall stale, penabled gen_variant p (LInactTick stale) = true ->
     let c := if stale then p_count p + 1 else p_count p in
     pb (pstep gen_variant p (LInactTick stale)) = if maxf <=? c then step gen_variant (pb p) LInactive else pb p).
Proof.
  cbv delta [gen_variant]. intros maxf tr l p. split; [rewrite pstep_count; lia|].
  split; [unfold p; rewrite prun_count; reflexivity|].
  assert (M : p_max p = maxf) by (unfold p; rewrite prun_max; reflexivity).
  split; [exact M|].
  intros stale E. unfold pstep. rewrite E. cbn [peffect]. unfold is_inactive. cbn [set_active set_count p_max p_count].
  rewrite M. destruct stale; destruct (maxf <=? _); reflexivity.
Qed.
Print Assumptions C09_inactivity_count_monotone.

(* the ping layer adds no behaviour to the shutdown protocol: its runs project to runs of `step` (so every theorem
   above holds of them), LInactive arising only from the inactivity check *)
Theorem C09_ping_layer_refines : forall tr p,
  pb (prun gen_variant p tr) = run gen_variant (pb p) (base_trace gen_variant p tr).
Proof. exact (prun_base VNow). Qed.
Print Assumptions C09_ping_layer_refines.

Example C09_inactivity_nonvacuous :
  let p := prun VNow (pinit 2) tr_ping_up in
  started (pb p) = false /\ p_count p = 1 /\ h_pings p = 1 /\
  let p1 := pstep VNow p (LInactTick true) in
  let s2 := drive VNow false (mu (pb p1)) (pb p1) in
  p_count p1 = 2 /\ all_exited s2 = true /\ reason s2 = Some CInactive /\
  get_c (run VNow s2 [LCallerDropped 1; LReadErr 1]) 1 = Some (CDone (OCause CInactive)) /\
  get_c s2 2 = Some (CDone OOk) /\
  get_c (run VNow s2 [LCallerDropped 3; LReadErr 3]) 3 = Some (CDone (OCause CInactive)) /\
  get_c (run VNow s2 [LOnDisc 4; LReadErr 4]) 4 = Some (CDone (OCause CInactive)) /\
  stale_ticks VNow (pinit 2) (tr_ping_up ++ [LInactTick true]) = 2 /\
  started (pb (prun VNow (pinit 3) (tr_ping_up ++ [LInactTick true]))) = false /\
  sp (pb (prun VNow (pinit 2) (tr_ping_up ++ [LBase LSendOk; LPingTick false]))) = SReport (Some CSend) /\
  penabled VNow (prun VNow (pinit 2) [LBase (LNewCall 1)]) (LPingTick true) = false.
Proof.
  vm_compute. repeat split.
Qed.

(* ---------- cancel-safety of the receive loop (structural tie, read from the source on every check) ----------
   TransportReceiverT::receive is NOT cancel-safe: the WebSocket transport keeps the partly read message (and the
   fragment / header state of the framing layer) inside the future it returns.  read_task polls that future as one arm of
   a select loop whose other arms (close_tx.closed(), a finished pending_unsubscribes hand-over, an inactivity tick) can
   win while a message is half read.  What the models assume from the fact below -- Gen/ShutdownOrderGen.v says `true` iff
   the receiver is moved into an `unfold` stream pinned BEFORE the loop and the loop's receive arm only polls `.next()`
   on it, so that the in-flight receive() future survives every iteration until it completes -- is that FRAMES ARE
   DELIVERED WHOLE: `LAnswer`/`LBadFrame`/`LRecvFault` of Model/ClientShutdown.v and `Back raw` of Model/ClientMgr.v take
   one complete message as the transport produced it, no label loses or re-frames a prefix of a message, and the other
   arms of the loop (LInactTick, LRNotice, the hand-over) do not touch the transport.  With a receive() future created
   per iteration (`false`) that assumption is wrong -- an inactivity tick between two pieces of a message drops the
   first piece, the answer of a pending call is lost and the connection dies of a framing error although the server and
   the link were healthy (C03, C09) -- and this file does not compile.  The engine clifault exhibits it on the code
   (step `backsplit`: a mock receiver that is non-cancel-safe in the same way; oracle keys correct-answer-not-delivered,
   healthy-connection-torn-down). *)
Theorem C09_receive_future_persistent : recv_future_persistent = true.
Proof. exact eq_refl. Qed.
Print Assumptions C09_receive_future_persistent.
