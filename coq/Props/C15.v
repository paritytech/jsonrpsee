(* C15 -- the property theorems; the lemmas about the scanners, the serialisers and the readers are in
   Proofs/WireFacts.v, those about the code table in Proofs/ErrorCodeFacts.v.
   Statements: tools/pinned/C15.statements. *)
From Coq Require Import ZArith List Lia.
From JV Require Import Gen.ErrorCodesGen Proofs.ErrorCodeFacts.
From JV Require Import Base.Bytes Base.Dec Base.Utf8 Json.Json Json.JsonSer Json.JsonParse Json.JsonWf Model.Wire.
From JV Require Import Proofs.JsonFacts Proofs.WireFacts.
Import ListNotations.
Local Open Scope Z_scope.

Theorem C15_code_kind_code : forall c : Z, code_of_kind (kind_of_code c) = c.
Proof.
  intro c. unfold kind_of_code.
  (* row by row: on a hit c is the row's code, and the kind of that row has this code *)
  repeat match goal with |- context [if Z.eqb c ?b then _ else _] =>
    destruct (Z.eqb_spec c b) as [->|_]; [reflexivity|] end.
  reflexivity.
Qed.
Print Assumptions C15_code_kind_code.

Theorem C15_kind_code_kind : forall k : kind, canonical k -> kind_of_code (code_of_kind k) = k.
Proof.
  intros k Hk. destruct k; try (apply kind_code_kind_named; exact Hk).
  cbn [code_of_kind]. unfold kind_of_code. cbn in Hk.
  (* a ServerError code that hit a row of the table would be the code of a named kind *)
  repeat match goal with |- context [if Z.eqb c ?b then _ else _] =>
    destruct (Z.eqb_spec c b) as [->|_]; [exfalso; apply Hk; repeat first [left; reflexivity | right]|] end.
  reflexivity.
Qed.
Print Assumptions C15_kind_code_kind.

(* every variant the enum declares is listed in named_kinds (so nothing escapes the round-trip theorem) *)
Theorem C15_every_defined_kind_is_canonical : forall k : kind, match k with KServerError _ => True | _ => canonical k end.
Proof.
  intro k; destruct k; cbn; tauto.
Qed.
Print Assumptions C15_every_defined_kind_is_canonical.

Example C15_canonical_nonvacuous : canonical KServerIsBusy /\ canonical (KServerError 7) /\ ~ canonical (KServerError (-32700)).
Proof.
  cbn. split; [tauto|]. split.
  - intro H. repeat (destruct H as [H | H]; [discriminate H |]). exact H.
  - intro H. apply H. tauto.
Qed.

(* ================= wire types (Model/Wire.v; proofs in Proofs/WireFacts.v) =================
   wf_id i        : Id::Number fits u64, Id::Str is UTF-8
   raw_payload t  : t is one complete JSON value (raw_ok), UTF-8, without leading whitespace -- what a Box<RawValue> holds
   nonnull t      : t is not the text `null` (Option<RawValue> reads `null` back as None) *)

Theorem C15_raw_payload_ser : forall v : json, wf v = true -> raw_payload (ser v).
Proof. exact raw_payload_ser. Qed.
Print Assumptions C15_raw_payload_ser.

Example C15_raw_payload_nonvacuous :
  raw_payload b#"{""a"":[1,true,null,""x\\y""]}" /\ nonnull b#"{""a"":[1,true,null,""x\\y""]}" /\
  raw_payload b#"null" /\ ~ nonnull b#"null" /\ ~ raw_payload b#" 1".
Proof. exact raw_payload_nonvacuous. Qed.

Theorem C15_id_roundtrip : forall i : id, wf_id i -> parse_id (ser_id i) = Some i.
Proof. exact id_roundtrip. Qed.
Print Assumptions C15_id_roundtrip.

Example C15_id_roundtrip_nonvacuous :
  wf_id (IdNum 18446744073709551615) /\ wf_id (IdStr [x61; x22; xc3; xa9; x0a]) /\ wf_id IdNull /\
  ser_id (IdStr [x61; x22; xc3; xa9; x0a]) = [x22; x61; x5c; x22; xc3; xa9; x5c; x6e; x22] /\
  parse_id (ser_id (IdNum 18446744073709551616)) = None /\ parse_id (ser_id (IdStr [xff])) = None.
Proof. exact id_roundtrip_nonvacuous. Qed.

Theorem C15_subid_roundtrip : forall i : subid, wf_subid i -> parse_subid (ser_subid i) = Some i.
Proof. exact subid_roundtrip. Qed.
Print Assumptions C15_subid_roundtrip.

Example C15_subid_roundtrip_nonvacuous :
  wf_subid (SubNum 0) /\ wf_subid (SubStr b#"0xcafe") /\ ser_subid (SubStr b#"0xcafe") = b#"""0xcafe""".
Proof. exact subid_roundtrip_nonvacuous. Qed.

Theorem C15_errorobject_roundtrip : forall e : errobj,
  -2147483648 <= e_code e < 2147483648 -> utf8_valid (e_message e) = true ->
  match e_data e with Some d => raw_payload d /\ nonnull d | None => True end ->
  parse_errobj (ser_errobj e) = Some e.
Proof. intros e H1 H2 H3. exact (errobj_roundtrip e (conj H1 (conj H2 H3))). Qed.
Print Assumptions C15_errorobject_roundtrip.

Example C15_errorobject_roundtrip_nonvacuous :
  -2147483648 <= e_code ex_err < 2147483648 /\ utf8_valid (e_message ex_err) = true /\
  match e_data ex_err with Some d => raw_payload d /\ nonnull d | None => True end /\
  ser_errobj ex_err = b#"{""code"":-32602,""message"":""Invalid \""params\"""",""data"":{""a"":[1,true,null,""x\\y""]}}".
Proof. exact errobj_roundtrip_nonvacuous. Qed.

(* data = Some "null" satisfies everything but `nonnull` and does not round-trip (it reads back as None) *)
Theorem C15_errorobject_data_null_refuted :
  exists e : errobj, -2147483648 <= e_code e < 2147483648 /\ utf8_valid (e_message e) = true /\
    match e_data e with Some d => raw_payload d | None => True end /\
    parse_errobj (ser_errobj e) <> Some e.
Proof.
  exists {| e_code := -32000; e_message := b#"x"; e_data := Some b#"null" |}. cbn [e_code e_message e_data].
  split; [lia|]. split; [reflexivity|]. split; [apply (raw_payload_ser JNull); reflexivity|].
  vm_compute. discriminate.
Qed.
Print Assumptions C15_errorobject_data_null_refuted.

Theorem C15_request_roundtrip : forall r : request,
  wf_id (rq_id r) -> utf8_valid (rq_method r) = true ->
  match rq_params r with Some p => raw_payload p /\ nonnull p | None => True end ->
  parse_request (ser_request r) = Some r.
Proof. exact request_roundtrip. Qed.
Print Assumptions C15_request_roundtrip.

Example C15_request_roundtrip_nonvacuous :
  wf_id (rq_id ex_req) /\ utf8_valid (rq_method ex_req) = true /\
  match rq_params ex_req with Some p => raw_payload p /\ nonnull p | None => True end /\
  ser_request ex_req = b#"{""jsonrpc"":""2.0"",""id"":""id-7"",""method"":""say_hello"",""params"":[-5,""two"",{}]}".
Proof. exact request_roundtrip_nonvacuous. Qed.

Theorem C15_notification_roundtrip : forall (me : bytes) (p : option bytes),
  utf8_valid me = true ->
  match p with Some p' => raw_payload p' /\ nonnull p' | None => True end ->
  parse_notification (ser_notification me p) = Some (me, p).
Proof. exact notification_roundtrip. Qed.
Print Assumptions C15_notification_roundtrip.

Example C15_notification_roundtrip_nonvacuous :
  utf8_valid b#"tick" = true /\ (raw_payload b#"[-5,""two"",{}]" /\ nonnull b#"[-5,""two"",{}]") /\
  ser_notification b#"tick" (Some b#"[-5,""two"",{}]") = b#"{""jsonrpc"":""2.0"",""method"":""tick"",""params"":[-5,""two"",{}]}" /\
  ser_notification b#"tick" None = b#"{""jsonrpc"":""2.0"",""method"":""tick"",""params"":null}".
Proof. exact notification_roundtrip_nonvacuous. Qed.

Theorem C15_response_roundtrip : forall r : response,
  wf_id (rs_id r) ->
  match rs_payload r with
  | PResult raw => raw_payload raw
  | PError e =>
    -2147483648 <= e_code e < 2147483648 /\ utf8_valid (e_message e) = true /\
    match e_data e with Some d => raw_payload d /\ nonnull d | None => True end
  end ->
  parse_response (ser_response r) = Some r.
Proof. exact response_roundtrip. Qed.
Print Assumptions C15_response_roundtrip.

Example C15_response_roundtrip_nonvacuous :
  (wf_id (rs_id ex_resp_ok) /\ wf_payload (rs_payload ex_resp_ok)) /\
  (wf_id (rs_id ex_resp_err) /\ wf_payload (rs_payload ex_resp_err)) /\
  (wf_id (rs_id ex_resp_bare) /\ wf_payload (rs_payload ex_resp_bare)) /\
  ser_response ex_resp_ok = b#"{""jsonrpc"":""2.0"",""id"":42,""result"":null}" /\
  ser_response ex_resp_err =
    b#"{""jsonrpc"":""2.0"",""id"":null,""error"":{""code"":-32602,""message"":""Invalid \""params\"""",""data"":{""a"":[1,true,null,""x\\y""]}}}" /\
  ser_response ex_resp_bare = b#"{""id"":""a"",""result"":[-5,""two"",{}]}".
Proof. exact response_roundtrip_nonvacuous. Qed.

Theorem C15_response_reser_same_bytes : forall r : response,
  wf_id (rs_id r) ->
  match rs_payload r with
  | PResult raw => raw_payload raw
  | PError e =>
    -2147483648 <= e_code e < 2147483648 /\ utf8_valid (e_message e) = true /\
    match e_data e with Some d => raw_payload d /\ nonnull d | None => True end
  end ->
  option_map ser_response (parse_response (ser_response r)) = Some (ser_response r).
Proof.
  intros r Wi Wp. rewrite (response_roundtrip r Wi Wp). reflexivity.
Qed.
Print Assumptions C15_response_reser_same_bytes.

Theorem C15_request_reser_same_bytes : forall r : request,
  wf_id (rq_id r) -> utf8_valid (rq_method r) = true ->
  match rq_params r with Some p => raw_payload p /\ nonnull p | None => True end ->
  option_map ser_request (parse_request (ser_request r)) = Some (ser_request r).
Proof.
  intros r H1 H2 H3. rewrite (request_roundtrip r H1 H2 H3). reflexivity.
Qed.
Print Assumptions C15_request_reser_same_bytes.

Theorem C15_emitted_response_valid : forall r : response,
  wf_id (rs_id r) ->
  match rs_payload r with
  | PResult raw => raw_payload raw
  | PError e =>
    -2147483648 <= e_code e < 2147483648 /\ utf8_valid (e_message e) = true /\
    match e_data e with Some d => raw_payload d /\ nonnull d | None => True end
  end ->
  rs_jsonrpc r = true ->
  exists m, object_members (ser_response r) = Some m /\
    field_of k_jsonrpc m = FOne (ser_str v_two) /\ is_two (ser_str v_two) = true /\
    field_of k_id m = FOne (ser_id (rs_id r)) /\ parse_id (ser_id (rs_id r)) = Some (rs_id r) /\
    match rs_payload r with
    | PResult raw => field_of k_result m = FOne raw /\ field_of k_error m = FAbsent
    | PError e => field_of k_error m = FOne (ser_errobj e) /\ field_of k_result m = FAbsent /\
                  parse_errobj (ser_errobj e) = Some e
    end.
Proof.
  intros r Wi Wp Hj. exists (response_members r).
  split; [rewrite ser_response_eq; apply object_members_ser, (wf_response_members_ok r Wi Wp)|].
  unfold response_members. rewrite Hj. cbn [app].
  destruct (response_fields (ser_id (rs_id r)) (rs_payload r)) as (F1 & F2 & F3).
  split; [exact F1|]. split; [exact is_two_two|]. split; [exact F2|]. split; [apply id_roundtrip, Wi|].
  destruct (rs_payload r) as [raw|e]; [exact F3|].
  destruct F3 as [F3 F4]. split; [exact F3|]. split; [exact F4|]. apply errobj_roundtrip, Wp.
Qed.
Print Assumptions C15_emitted_response_valid.

Theorem C15_emitted_response_is_json : forall r : response,
  wf_id (rs_id r) ->
  match rs_payload r with
  | PResult raw => raw_payload raw
  | PError e =>
    -2147483648 <= e_code e < 2147483648 /\ utf8_valid (e_message e) = true /\
    match e_data e with Some d => raw_payload d /\ nonnull d | None => True end
  end ->
  raw_payload (ser_response r).
Proof.
  intros r Wi Wp. rewrite ser_response_eq. apply raw_payload_object; apply (wf_response_members_ok r Wi Wp).
Qed.
Print Assumptions C15_emitted_response_is_json.

Theorem C15_response_accept_iff : forall m : members,
  parse_response_members m <> None <->
  (exists i, field_of k_id m = FOne i /\ parse_id i <> None) /\
  (field_of k_jsonrpc m = FAbsent \/
   exists s, field_of k_jsonrpc m = FOne s /\ (is_null_span s = true \/ is_two s = true)) /\
  ((exists r, field_of k_result m = FOne r /\ utf8_valid r = true /\ field_of k_error m = FAbsent) \/
   (exists e, field_of k_error m = FOne e /\ parse_errobj e <> None /\ field_of k_result m = FAbsent)).
Proof.
  intro m. unfold parse_response_members, as_opt_two, as_raw. split.
  - intro H.
    destruct (field_of k_id m) as [|i|]; try (exfalso; apply H; reflexivity).
    destruct (parse_id i) as [i'|] eqn:Ei; try (exfalso; apply H; reflexivity).
    split; [exists i; split; [reflexivity | congruence]|].
    cbv zeta in H. split.
    + destruct (field_of k_jsonrpc m) as [|s|]; [left; reflexivity | | exfalso; apply H; reflexivity].
      right. exists s. split; [reflexivity|].
      destruct (is_null_span s); [left; reflexivity|].
      destruct (is_two s); [right; reflexivity|]. exfalso; apply H; reflexivity.
    + (* of the jsonrpc stage only whether it gave a value matters here *)
      match type of H with (match ?j with Some _ => _ | None => _ end) <> None => destruct j as [jv|] end;
        [|exfalso; apply H; reflexivity].
      destruct (field_of k_result m) as [|r|], (field_of k_error m) as [|e|];
        try (exfalso; apply H; reflexivity).
      * right. exists e. split; [reflexivity|]. split; [|reflexivity].
        destruct (parse_errobj e); [discriminate | exfalso; apply H; reflexivity].
      * left. exists r. split; [reflexivity|]. split; [|reflexivity].
        destruct (utf8_valid r); [reflexivity | exfalso; apply H; reflexivity].
  - intros ((i & Ei & Pi) & J & P). rewrite Ei.
    destruct (parse_id i) as [i'|]; [|congruence]. cbv zeta.
    assert (EJ : exists jv, match field_of k_jsonrpc m with
                            | FAbsent => Some false
                            | FOne s => if is_null_span s then Some false else if is_two s then Some true else None
                            | FDup => None end = Some jv).
    { destruct J as [-> | (s & -> & [N | T])];
        [eexists; reflexivity | rewrite N; eexists; reflexivity |
         rewrite T; destruct (is_null_span s); eexists; reflexivity]. }
    destruct EJ as [jv ->].
    destruct P as [(r & -> & U & ->) | (e & -> & Pe & ->)]; cbv beta iota.
    + rewrite U. discriminate.
    + destruct (parse_errobj e); [discriminate | congruence].
Qed.
Print Assumptions C15_response_accept_iff.

Theorem C15_response_text_accept_iff : forall t : bytes,
  parse_response t <> None <-> exists m, object_members t = Some m /\ parse_response_members m <> None.
Proof.
  intro t. unfold parse_response. destruct (object_members t) as [m|].
  - split; [intro H; exists m; split; [reflexivity | exact H] | intros (m' & E & H); congruence].
  - split; [congruence | intros (m' & E & _); discriminate].
Qed.
Print Assumptions C15_response_text_accept_iff.

Theorem C15_unknown_members_ignored : forall (m1 : members) (k v : bytes) (m2 : members),
  ~ In k [k_jsonrpc; k_id; k_result; k_error] ->
  parse_response_members (m1 ++ (k, v) :: m2) = parse_response_members (m1 ++ m2).
Proof. exact unknown_members_ignored. Qed.
Print Assumptions C15_unknown_members_ignored.

Theorem C15_response_dup_rejected : forall (m : members) (k : bytes),
  In k [k_jsonrpc; k_id; k_result; k_error] -> field_of k m = FDup -> parse_response_members m = None.
Proof.
  intros m k Hk Hd. destruct (parse_response_members m) eqn:E; [|reflexivity]. exfalso.
  assert (H : parse_response_members m <> None) by congruence.
  apply C15_response_accept_iff in H as ((i & Ei & _) & J & P).
  cbn [In] in Hk. destruct Hk as [<- | [<- | [<- | [<- | []]]]].
  - destruct J as [J | (s & J & _)]; congruence.
  - congruence.
  - destruct P as [(r0 & A & _ & B) | (e & A & _ & B)]; congruence.
  - destruct P as [(r0 & A & _ & B) | (e & A & _ & B)]; congruence.
Qed.
Print Assumptions C15_response_dup_rejected.

Example C15_response_accept_nonvacuous :
  parse_response b#"{ ""result"" : 2, ""x"":[], ""jsonrpc"":null, ""id"":1 }" <> None /\
  parse_response b#"{""id"":1,""error"":{""message"":""m"",""code"":-1}}" <> None /\
  parse_response b#"{""id"":1,""id"":1,""result"":2}" = None /\
  parse_response b#"{""id"":1,""result"":2,""error"":{""code"":-1,""message"":""m""}}" = None /\
  parse_response b#"{""jsonrpc"":""1.0"",""id"":1,""result"":2}" = None /\
  parse_response b#"{""jsonrpc"":""2.0"",""result"":2}" = None /\
  parse_response b#"{""id"":1.5,""result"":2}" = None /\
  parse_response b#"{""id"":1,""error"":{""code"":-1,""message"":""m"",""extra"":0}}" = None.
Proof. exact response_accept_nonvacuous. Qed.

Theorem C15_sub_notif_roundtrip : forall (me : bytes) (sid : subid) (is_err : bool) (raw : bytes),
  utf8_valid me = true -> wf_subid sid -> raw_payload raw ->
  parse_sub_notif (if is_err then k_error else k_result) (ser_sub_notif me sid is_err raw) = Some (me, sid, raw).
Proof. exact sub_notif_roundtrip. Qed.
Print Assumptions C15_sub_notif_roundtrip.

Theorem C15_sub_notif_kind_distinguished : forall (me : bytes) (sid : subid) (is_err : bool) (raw : bytes),
  utf8_valid me = true -> wf_subid sid -> raw_payload raw ->
  parse_sub_notif (if is_err then k_result else k_error) (ser_sub_notif me sid is_err raw) = None.
Proof. exact sub_notif_kind_distinguished. Qed.
Print Assumptions C15_sub_notif_kind_distinguished.

Example C15_sub_notif_roundtrip_nonvacuous :
  utf8_valid b#"sub" = true /\ wf_subid (SubStr b#"0xcafe") /\ raw_payload b#"[-5,""two"",{}]" /\
  ser_sub_notif b#"sub" (SubStr b#"0xcafe") false b#"[-5,""two"",{}]" =
    b#"{""jsonrpc"":""2.0"",""method"":""sub"",""params"":{""subscription"":""0xcafe"",""result"":[-5,""two"",{}]}}".
Proof. exact sub_notif_roundtrip_nonvacuous. Qed.

(* ================= sequence forms of the derived structs (serde visit_seq; Model/Wire.v de_struct) =================
   ser_array ts   : the text `[t1,t2,...]` assembled from element texts (Proofs/WireFacts.v), as ser_object for members
   span_ok t      : t is one complete JSON value without leading whitespace (no UTF-8 requirement)
   array_elems t  : the element spans of a top-level array text (Vec<&RawValue>) *)

(* [code,"message",data-or-null] is read as the same error object as the object form the library writes *)
Theorem C15_seq_form_errobj : forall e : errobj,
  -2147483648 <= e_code e < 2147483648 -> utf8_valid (e_message e) = true ->
  match e_data e with Some d => raw_payload d /\ nonnull d | None => True end ->
  parse_errobj (ser_array [print_Z (e_code e); ser_str (e_message e); match e_data e with Some d => d | None => b#"null" end])
    = Some e /\
  parse_errobj (ser_array [print_Z (e_code e); ser_str (e_message e); match e_data e with Some d => d | None => b#"null" end])
    = parse_errobj (ser_errobj e).
Proof.
  intros e H1 H2 H3. pose proof (conj H1 (conj H2 H3) : wf_errobj e) as W.
  assert (E : parse_errobj (ser_array (errobj_seq_fields e)) = Some e).
  { unfold parse_errobj.
    rewrite de_struct_ser_array; [apply seq_errobj_fields, W | discriminate | apply errobj_seq_fields_ok, W]. }
  rewrite (errobj_roundtrip e W). split; exact E.
Qed.
Print Assumptions C15_seq_form_errobj.

(* the same for ALL field texts, valid or not: the array [c,m,d] is read exactly as {"code":c,"message":m,"data":d} *)
Theorem C15_seq_form_errobj_fields : forall c m d : bytes, span_ok c -> span_ok m -> span_ok d ->
  parse_errobj (ser_array [c; m; d]) = parse_errobj (ser_object [(k_code, c); (k_message, m); (k_data, d)]).
Proof.
  intros c m d Hc Hm Hd. unfold parse_errobj.
  rewrite de_struct_ser_array, de_struct_ser_object by auto with wire. reflexivity.
Qed.
Print Assumptions C15_seq_form_errobj_fields.

(* an array text of any other length is rejected by every derived reader; an array is never a Response *)
Theorem C15_seq_form_exact_length : forall (t : bytes) (els : list bytes), array_elems t = Some els ->
  (length els <> 3%nat -> parse_errobj t = None) /\
  (length els <> 4%nat -> parse_request t = None) /\
  (length els <> 3%nat -> parse_notification t = None) /\
  (length els <> 1%nat -> parse_invalid t = None) /\
  (forall key, length els <> 2%nat -> parse_sub_payload key t = None) /\
  (forall key, length els <> 3%nat -> parse_sub_notif key t = None) /\
  parse_response t = None.
Proof.
  intros t els H.
  assert (R : parse_response t = None) by (unfold parse_response; rewrite (array_not_object _ _ H); reflexivity).
  unfold parse_errobj, parse_request, parse_notification, parse_invalid, parse_sub_payload, parse_sub_notif.
  repeat split; try exact R; intros; rewrite (de_struct_array _ _ _ _ H).
  (* six goals `seq_X els = None`, one for each positional reader: a list of another length falls through its match *)
  all: destruct els as [|e1 [|e2 [|e3 [|e4 [|e5 els]]]]]; try reflexivity.
  (* what is left is the list of exactly the reader's length, against the hypothesis *)
  all: exfalso; auto.
Qed.
Print Assumptions C15_seq_form_exact_length.

(* at the right length the fields are taken by position (seq_errobj / seq_request / seq_notification in Model/Wire.v) *)
Theorem C15_seq_form_positional : forall t : bytes,
  (forall c m d, array_elems t = Some [c; m; d] -> parse_errobj t = seq_errobj [c; m; d]) /\
  (forall j i me p, array_elems t = Some [j; i; me; p] -> parse_request t = seq_request [j; i; me; p]) /\
  (forall j me p, array_elems t = Some [j; me; p] -> parse_notification t = seq_notification [j; me; p]) /\
  (forall i, array_elems t = Some [i] -> parse_invalid t = parse_id i).
Proof.
  intro t. repeat split; intros; unfold parse_errobj, parse_request, parse_notification, parse_invalid;
    rewrite (de_struct_array _ _ _ _ H); reflexivity.
Qed.
Print Assumptions C15_seq_form_positional.

Theorem C15_seq_form_request : forall r : request,
  wf_id (rq_id r) -> utf8_valid (rq_method r) = true ->
  match rq_params r with Some p => raw_payload p /\ nonnull p | None => True end ->
  parse_request (ser_array [ser_str v_two; ser_id (rq_id r); ser_str (rq_method r);
                            match rq_params r with Some p => p | None => b#"null" end]) = Some r.
Proof.
  intros r Wi Um Hp. change (parse_request (ser_array (request_seq_fields r)) = Some r).
  unfold parse_request. rewrite de_struct_ser_array by (unfold request_seq_fields; auto with wire).
  apply seq_request_fields; assumption.
Qed.
Print Assumptions C15_seq_form_request.

Theorem C15_seq_form_notification : forall (me : bytes) (p : option bytes),
  utf8_valid me = true ->
  match p with Some p' => raw_payload p' /\ nonnull p' | None => True end ->
  parse_notification (ser_array [ser_str v_two; ser_str me; match p with Some p' => p' | None => b#"null" end]) = Some (me, p).
Proof.
  intros me p Um Hp. change (parse_notification (ser_array [ser_str v_two; ser_str me; opt_text p]) = Some (me, p)).
  unfold parse_notification. rewrite de_struct_ser_array by auto with wire.
  apply seq_notification_fields; assumption.
Qed.
Print Assumptions C15_seq_form_notification.

(* a subscription notification with the sequence form at either or both levels (Notification = [jsonrpc,method,params],
   SubscriptionPayload = [subscription,result] / SubscriptionPayloadError = [subscription,error]) is read as the same
   (method, subscription id, payload) as the object form the library writes *)
Theorem C15_seq_form_sub_notif : forall (me : bytes) (sid : subid) (is_err : bool) (raw : bytes),
  utf8_valid me = true -> wf_subid sid -> raw_payload raw ->
  let key := if is_err then k_error else k_result in
  let pay_obj := ser_object [(k_subscription, ser_subid sid); (key, raw)] in
  let pay_seq := ser_array [ser_subid sid; raw] in
  let outer_obj := fun p => ser_object [(k_jsonrpc, ser_str v_two); (k_method, ser_str me); (k_params, p)] in
  let outer_seq := fun p => ser_array [ser_str v_two; ser_str me; p] in
  outer_obj pay_obj = ser_sub_notif me sid is_err raw /\
  parse_sub_notif key (outer_obj pay_obj) = Some (me, sid, raw) /\
  parse_sub_notif key (outer_obj pay_seq) = Some (me, sid, raw) /\
  parse_sub_notif key (outer_seq pay_obj) = Some (me, sid, raw) /\
  parse_sub_notif key (outer_seq pay_seq) = Some (me, sid, raw).
Proof.
  intros me sid is_err raw Um Ws Hr. cbv zeta.
  destruct (parse_sub_payload_ser sid is_err raw Ws Hr) as [Po _].
  pose proof (parse_sub_payload_seq (sub_key is_err) sid raw Ws Hr) as Ps.
  destruct (parse_sub_notif_outer (sub_key is_err) me _ Um (span_ok_object _ (sub_payload_members_ok sid is_err raw Ws Hr)))
    as [Oo So].
  destruct (parse_sub_notif_outer (sub_key is_err) me _ Um (span_ok_sub_payload_seq sid raw Ws Hr)) as [Os Ss].
  rewrite Po in Oo, So. rewrite Ps in Os, Ss. unfold sub_key, sub_payload_members in Oo, So, Os, Ss.
  split; [symmetry; apply ser_sub_notif_eq|]. split; [exact Oo|]. split; [exact Os|]. split; [exact So | exact Ss].
Qed.
Print Assumptions C15_seq_form_sub_notif.

(* with the PAYLOAD in sequence form the member name is gone: the same text is accepted under either key, i.e. by the
   SubscriptionResponse reader and by the SubscriptionError reader alike (contrast C15_sub_notif_kind_distinguished;
   the client tries SubscriptionResponse first, so such a frame is always an item, never a close) *)
Theorem C15_seq_form_sub_kind_lost : forall (me : bytes) (sid : subid) (raw key1 key2 : bytes),
  utf8_valid me = true -> wf_subid sid -> raw_payload raw ->
  let t := ser_object [(k_jsonrpc, ser_str v_two); (k_method, ser_str me); (k_params, ser_array [ser_subid sid; raw])] in
  parse_sub_notif key1 t = Some (me, sid, raw) /\ parse_sub_notif key2 t = Some (me, sid, raw).
Proof.
  intros me sid raw key1 key2 Um Ws Hr. cbv zeta. pose proof (span_ok_sub_payload_seq sid raw Ws Hr) as Ss.
  rewrite (proj1 (parse_sub_notif_outer key1 me _ Um Ss)), (proj1 (parse_sub_notif_outer key2 me _ Um Ss)).
  rewrite !parse_sub_payload_seq by assumption. split; reflexivity.
Qed.
Print Assumptions C15_seq_form_sub_kind_lost.

(* the concrete frames measured on the compiled client *)
Example C15_seq_form_errobj_example :
  parse_errobj b#"[-32000,""boom"",null]" = Some {| e_code := -32000; e_message := b#"boom"; e_data := None |} /\
  parse_errobj b#" [ -32000 , ""boom"" , {""a"":1} ] " = Some {| e_code := -32000; e_message := b#"boom"; e_data := Some b#"{""a"":1}" |} /\
  parse_response b#"{""jsonrpc"":""2.0"",""id"":0,""error"":[-32000,""boom"",null]}" =
    Some {| rs_jsonrpc := true; rs_payload := PError {| e_code := -32000; e_message := b#"boom"; e_data := None |}; rs_id := IdNum 0 |} /\
  ser_array [print_Z (-32000); ser_str b#"boom"; b#"null"] = b#"[-32000,""boom"",null]".
Proof. repeat split; vm_compute; reflexivity. Qed.

Example C15_seq_form_exact_length_example :
  parse_errobj b#"[-32000,""boom""]" = None /\ parse_errobj b#"[-32000,""boom"",null,1]" = None /\
  parse_errobj b#"[]" = None /\
  parse_response b#"{""jsonrpc"":""2.0"",""id"":0,""error"":[-32000,""boom""]}" = None /\
  parse_request b#"[""2.0"",5,""echo""]" = None /\ parse_request b#"[""2.0"",5,""echo"",[1],null]" = None /\
  parse_notification b#"[""2.0"",""alpha""]" = None /\ parse_notification b#"[""2.0"",""alpha"",[7],1]" = None /\
  parse_invalid b#"[]" = None /\ parse_invalid b#"[1,2]" = None /\
  parse_sub_notif k_result b#"{""jsonrpc"":""2.0"",""method"":""ev1"",""params"":[1]}" = None /\
  parse_sub_notif k_result b#"{""jsonrpc"":""2.0"",""method"":""ev1"",""params"":[1,5,6]}" = None /\
  parse_response b#"[""2.0"",5,1]" = None.
Proof. repeat split; vm_compute; reflexivity. Qed.

Example C15_seq_form_sub_notif_example :
  parse_sub_notif k_result b#"{""jsonrpc"":""2.0"",""method"":""ev1"",""params"":[1,5]}" = Some (b#"ev1", SubNum 1, b#"5") /\
  parse_sub_notif k_result b#"[""2.0"",""ev1"",{""subscription"":1,""result"":5}]" = Some (b#"ev1", SubNum 1, b#"5") /\
  parse_sub_notif k_result b#"[""2.0"",""ev1"",[1,5]]" = Some (b#"ev1", SubNum 1, b#"5") /\
  parse_sub_notif k_error b#"{""jsonrpc"":""2.0"",""method"":""ev1"",""params"":[1,5]}" = Some (b#"ev1", SubNum 1, b#"5") /\
  parse_sub_notif k_error b#"[""2.0"",""ev1"",{""subscription"":1,""result"":5}]" = None /\
  (* the array frame `[["2.0","ev1",{"subscription":1,"result":5}]]`: one element, a Notification in sequence form *)
  array_elems b#"[[""2.0"",""ev1"",{""subscription"":1,""result"":5}]]" = Some [b#"[""2.0"",""ev1"",{""subscription"":1,""result"":5}]"] /\
  (* `[["2.0","alpha",[7]]]`: a method notification `alpha` with params [7] *)
  array_elems b#"[[""2.0"",""alpha"",[7]]]" = Some [b#"[""2.0"",""alpha"",[7]]"] /\
  parse_notification b#"[""2.0"",""alpha"",[7]]" = Some (b#"alpha", Some b#"[7]") /\
  parse_notification b#"[""2.0"",""alpha"",null]" = Some (b#"alpha", None) /\
  parse_request b#"[""2.0"",5,""echo"",[1]]" = Some {| rq_id := IdNum 5; rq_method := b#"echo"; rq_params := Some b#"[1]" |} /\
  parse_invalid b#"[null]" = Some IdNull.
Proof. repeat split; vm_compute; reflexivity. Qed.
