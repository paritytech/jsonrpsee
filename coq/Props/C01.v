(* C01 -- server: every message gets at most one well-formed reply carrying its own id.
   The property theorems, proved here from the lemmas of Proofs/ServerFacts.v about Model/Server.v; their statements
   are recorded in tools/pinned/C01.statements.

   Vocabulary (Proofs/ServerFacts.v, Model/Server.v):
     handle reg h t c b        the outcome (frames / HTTP status / handler log) of delivering the bytes b as ONE message over t
     replies t o               what the peer receives as replies (HTTP: the body, unless it is the acknowledgement `null`)
     sniff t b                 Some (true, body) single / Some (false, body) batch / None: neither '{' nor '[' within the window
     is_batch_msg t b          the message is sniffed as a batch (C02's domain)
     classify body             Call r | Notif | Invalid id | ParseErr, exactly as the code tries Request, Notification, InvalidRequest
     is_response f i p         f reads back (with the library's own object scanner) as exactly jsonrpc:"2.0", id:i, result|error:p
     handlers_wf h             handlers emit JSON texts / UTF-8 messages / i32 codes
     panics_only_blocking      a handler panics only inside register_blocking_method (the only place a panic is answered) *)
From JV Require Import Base.Bytes Base.Dec Base.Utf8 Json.Json Json.JsonSer Json.JsonParse Json.JsonWf Model.Wire Model.RespSize
  Model.Server Proofs.JsonFacts Proofs.WireFacts Proofs.ServerFacts.
Local Open Scope N_scope.

Theorem C01_reply_wellformed : forall reg h t c b, handlers_wf h -> panics_only_blocking reg h -> is_batch_msg t b = false -> (length (replies t (handle reg h t c b)) <= 1)%nat /\ Forall wellformed_response (replies t (handle reg h t c b)).
Proof.
  intros reg h t c b Hw _ Hb. rewrite (proj1 (handle_not_batch reg h t c b Hb)).
  apply class_replies_wellformed; [exact Hw | apply msg_class_wf].
Qed.
Print Assumptions C01_reply_wellformed.

Theorem C01_silent_iff_notification : forall reg h t c b, is_batch_msg t b = false -> (replies t (handle reg h t c b) = [] <-> exists body, sniff t b = Some (true, body) /\ classify body = Notif).
Proof.
  intros reg h t c b Hb. rewrite (proj1 (handle_not_batch reg h t c b Hb)). split.
  - intro H. apply msg_class_inv; [|discriminate]. destruct (msg_class t b); try discriminate H. reflexivity.
  - intros (body & S & E). rewrite (msg_class_single t b body S), E. reflexivity.
Qed.
Print Assumptions C01_silent_iff_notification.

Theorem C01_notification_characterised : forall body, classify body = Notif <-> exists m, object_members body = Some m /\ as_notification m <> None /\ match field_of k_id m with FOne sp => parse_id sp = None | _ => True end.
Proof.
  intro body. rewrite classify_eq. split.
  - destruct (object_members body) as [m|]; [|discriminate].
    destruct (as_notification m) as [[me p]|] eqn:En, (as_invalid m) eqn:Ei; try discriminate.
    intros _. exists m. split; [reflexivity|]. split; [rewrite En; discriminate | apply as_invalid_none, Ei].
  - intros (m & -> & Hn & Hid). apply as_invalid_none in Hid. rewrite Hid.
    destruct (as_notification m) as [[me p]|]; [reflexivity | congruence].
Qed.
Print Assumptions C01_notification_characterised.

Theorem C01_duplicate_id_is_notification : forall body m, object_members body = Some m -> as_notification m <> None -> field_of k_id m = FDup -> classify body = Notif.
Proof.
  intros body m Hm Hn Hd. apply C01_notification_characterised. exists m.
  split; [exact Hm|]. split; [exact Hn|]. rewrite Hd. exact I.
Qed.
Print Assumptions C01_duplicate_id_is_notification.

Theorem C01_http_acknowledges_notification : forall reg h c b body, sniff Http b = Some (true, body) -> classify body = Notif -> o_status (handle reg h Http c b) = Some 200 /\ o_frames (handle reg h Http c b) = [null_text].
Proof.
  intros reg h c b body S E. unfold handle. rewrite S. unfold handle_rpc_call, rpc_single. rewrite E. split; reflexivity.
Qed.
Print Assumptions C01_http_acknowledges_notification.

Theorem C01_call_answered_with_own_id_and_result : forall reg h t c b body r, handlers_wf h -> panics_only_blocking reg h -> sniff t b = Some (true, body) -> classify body = Call r -> exists f p, replies t (handle reg h t c b) = [f] /\ is_response f (rq_id r) p /\ (reg (rq_method r) = None -> p = PError method_not_found) /\ (forall k, reg (rq_method r) = Some k -> served k t = false -> p = PError internal_err) /\ (forall k, reg (rq_method r) = Some k -> served k t = true -> let too_big q := sc_max_response c < blen (mk_response (rq_id r) q) /\ p = PError (oversized_response_error (sc_max_response c)) in match h (rq_method r) (rq_params r) with HOk raw => p = PResult raw \/ too_big (PResult raw) | HErr code msg d => p = PError (mk_err code msg d) \/ too_big (PError (mk_err code msg d)) | HBadParams d => p = PError (invalid_params d) \/ too_big (PError (invalid_params d)) | HPanic => p = PError internal_err end).
Proof.
  intros reg h t c b body r Hw _ S E.
  exists (mk_response (rq_id r) (call_payload reg h t c r)), (call_payload reg h t c r).
  split; [rewrite (replies_single reg h t c b body S), E; reflexivity|].
  pose proof (classify_class_wf body) as W. rewrite E in W.
  split; [apply mk_response_is_response; [exact W | apply call_payload_ok, Hw]|].
  split; [|split].
  - intro Hn. unfold call_payload. rewrite Hn. reflexivity.
  - intros k Hk Hs. unfold call_payload. rewrite Hk. destruct k, t; try discriminate Hs; reflexivity.
  - intros k Hk Hs. cbv zeta.
    destruct (call_payload_served reg h t c r k Hk Hs) as [-> | ->];
      destruct (h (rq_method r) (rq_params r)) as [raw|code msg d|d|]; cbn [hres_payload handler_payload err_of];
      try reflexivity; try (left; reflexivity); apply bounded_cases.
Qed.
Print Assumptions C01_call_answered_with_own_id_and_result.

Theorem C01_not_json_is_parse_error : forall reg h t c b, sniff t b = None \/ (exists body, sniff t b = Some (true, body) /\ lenient_json body = false) -> replies t (handle reg h t c b) = [mk_response IdNull (PError parse_error)] /\ o_log (handle reg h t c b) = [].
Proof.
  intros reg h t c b [S | (body & S & Hj)]; [exact (replies_unsniffable reg h t c b S)|].
  apply (replies_not_object reg h t c b body S). destruct (object_members body) as [m|] eqn:E; [|reflexivity].
  rewrite (object_members_lenient_json body m E) in Hj. discriminate Hj.
Qed.
Print Assumptions C01_not_json_is_parse_error.

Theorem C01_not_an_object_is_parse_error : forall reg h t c b, sniff t b = None \/ (exists body, sniff t b = Some (true, body) /\ object_members body = None) -> replies t (handle reg h t c b) = [mk_response IdNull (PError parse_error)] /\ o_log (handle reg h t c b) = [].
Proof.
  intros reg h t c b [S | (body & S & Hm)];
    [exact (replies_unsniffable reg h t c b S) | exact (replies_not_object reg h t c b body S Hm)].
Qed.
Print Assumptions C01_not_an_object_is_parse_error.

Theorem C01_not_request_is_invalid_or_parse_error : forall reg h t c b body m, sniff t b = Some (true, body) -> object_members body = Some m -> as_request m = None -> as_notification m = None -> o_log (handle reg h t c b) = [] /\ match as_invalid m with Some i => replies t (handle reg h t c b) = [mk_response i (PError invalid_request)] | None => replies t (handle reg h t c b) = [mk_response IdNull (PError parse_error)] end.
Proof.
  intros reg h t c b body m S Hm Hr Hn.
  rewrite (replies_single reg h t c b body S), (log_single reg h t c b body S). unfold classify. rewrite Hm, Hr, Hn.
  destruct (as_invalid m); split; reflexivity.
Qed.
Print Assumptions C01_not_request_is_invalid_or_parse_error.

Theorem C01_id_recoverable_iff : forall m i, as_invalid m = Some i <-> exists sp, field_of k_id m = FOne sp /\ parse_id sp = Some i.
Proof.
  intros m i. unfold as_invalid. destruct (field_of k_id m) as [|sp|].
  - split; [discriminate | intros (sp & H & _); discriminate H].
  - split; [intro H; exists sp; split; [reflexivity | exact H] | intros (sp' & H1 & H2); inversion H1; subst sp'; exact H2].
  - split; [discriminate | intros (sp & H & _); discriminate H].
Qed.
Print Assumptions C01_id_recoverable_iff.

Theorem C01_ws_http_agree : forall reg h c b, is_batch_msg Ws b = false -> (forall body r, sniff Ws b = Some (true, body) -> classify body = Call r -> reg (rq_method r) <> Some KSub /\ reg (rq_method r) <> Some KUnsub) -> replies Ws (handle reg h Ws c b) = replies Http (handle reg h Http c b) /\ o_log (handle reg h Ws c b) = o_log (handle reg h Http c b).
Proof.
  intros reg h c b Hb Hm.
  assert (Hb' : is_batch_msg Http b = false) by (unfold is_batch_msg in *; rewrite <- sniff_ws_http; exact Hb).
  destruct (handle_not_batch reg h Ws c b Hb) as [-> ->]. destruct (handle_not_batch reg h Http c b Hb') as [-> ->].
  replace (msg_class Http b) with (msg_class Ws b) by (unfold msg_class; rewrite sniff_ws_http; reflexivity).
  destruct (msg_class Ws b) as [r| | |] eqn:E; try (split; reflexivity).
  destruct (msg_class_inv Ws b (Call r) E) as (body & S & E'); [discriminate|].
  destruct (Hm body r S E') as [H1 H2]. destruct (call_ws_http reg h c r H1 H2) as [P L].
  cbn [class_replies class_log]. rewrite P, L. split; reflexivity.
Qed.
Print Assumptions C01_ws_http_agree.

Theorem C01_handler_runs_only_for_its_valid_call : forall reg h t c b, is_batch_msg t b = false -> forall m p, (o_log (handle reg h t c b) = [(m, p)] <-> exists body r k, sniff t b = Some (true, body) /\ classify body = Call r /\ rq_method r = m /\ rq_params r = p /\ reg m = Some k /\ runs_handler k t = true) /\ (o_log (handle reg h t c b) = [] \/ exists m' p', o_log (handle reg h t c b) = [(m', p')]).
Proof.
  intros reg h t c b Hb m p. rewrite (proj2 (handle_not_batch reg h t c b Hb)). split; [split|].
  - intro H. destruct (msg_class t b) as [r| | |] eqn:E; try discriminate H.
    destruct (msg_class_inv t b (Call r) E) as (body & S & E'); [discriminate|].
    cbn [class_log] in H. rewrite call_log in H.
    destruct (reg (rq_method r)) as [k|] eqn:Er; [|discriminate H].
    destruct (runs_handler k t) eqn:Ek; [|discriminate H]. inversion H. subst m p.
    exists body, r, k. repeat split; assumption.
  - intros (body & r & k & S & E & <- & <- & Hr & Hk).
    rewrite (msg_class_single t b body S), E. cbn [class_log]. rewrite call_log, Hr, Hk. reflexivity.
  - destruct (msg_class t b) as [r| | |]; try (left; reflexivity). cbn [class_log]. rewrite call_log.
    destruct (reg (rq_method r)) as [k|]; [destruct (runs_handler k t)|];
      [right; eexists; eexists; reflexivity | left; reflexivity | left; reflexivity].
Qed.
Print Assumptions C01_handler_runs_only_for_its_valid_call.

Theorem C01_connection_continues : forall reg h t c msgs, serve reg h t c true msgs = map (handle reg h t c) msgs.
Proof.
  intros reg h t c msgs. induction msgs as [|b ms IH]; [reflexivity|].
  cbn [serve map]. cbv zeta. unfold continues at 1. rewrite IH. reflexivity.
Qed.
Print Assumptions C01_connection_continues.

Example C01_hypotheses_nonvacuous : handlers_wf (fun _ _ => HOk b#"7") /\ handlers_wf (fun _ _ => HErr 42 b#"boom" (Some b#"[1]")) /\ panics_only_blocking ex_reg ex_h.
Proof.
  split; [|split].
  - intros m p. cbn [hres_ok]. apply (span_ok_ser (JNum (NPos 7))). reflexivity.
  - intros m p. cbn [hres_ok]. split; [unfold i32_range; lia|]. split; [reflexivity|].
    apply (span_ok_ser (JArr [JNum (NPos 1)])). reflexivity.
  - intros m p. unfold ex_h, ex_reg. destruct (bytes_eqb m b#"sub"); [discriminate|].
    destruct (bytes_eqb m b#"boom"); [reflexivity | discriminate].
Qed.

Example C01_call_example : replies Http (handle ex_reg ex_h Http ex_cfg b#" {""jsonrpc"":""2.0"",""method"":""echo"",""params"":[1, 2],""id"":""ab""}") = [b#"{""jsonrpc"":""2.0"",""id"":""ab"",""result"":[1, 2]}"] /\ o_log (handle ex_reg ex_h Ws ex_cfg b#"{""jsonrpc"":""2.0"",""method"":""echo"",""params"":[1, 2],""id"":7}") = [(b#"echo", Some b#"[1, 2]")].
Proof. split; vm_compute; reflexivity. Qed.

Example C01_classes_example : replies Ws (handle ex_reg ex_h Ws ex_cfg b#"{""jsonrpc"":""2.0"",""method"":""echo"",""id"":1.5}") = [] /\ replies Http (handle ex_reg ex_h Http ex_cfg b#"{""jsonrpc"":""2.0"",""method"":""echo"",""id"":1,""id"":2}") = [] /\ replies Ws (handle ex_reg ex_h Ws ex_cfg b#"{""id"":""x"",""method"":1}") = [b#"{""jsonrpc"":""2.0"",""id"":""x"",""error"":{""code"":-32600,""message"":""Invalid request""}}"] /\ replies Http (handle ex_reg ex_h Http ex_cfg b#"{]") = [b#"{""jsonrpc"":""2.0"",""id"":null,""error"":{""code"":-32700,""message"":""Parse error""}}"] /\ replies Ws (handle ex_reg ex_h Ws ex_cfg b#"{""jsonrpc"":""2.0"",""method"":""boom"",""id"":9}") = [b#"{""jsonrpc"":""2.0"",""id"":9,""error"":{""code"":-32603,""message"":""Internal error""}}"] /\ replies Ws (handle ex_reg ex_h Ws ex_cfg b#"{""jsonrpc"":""2.0"",""method"":""nope"",""id"":9}") = [b#"{""jsonrpc"":""2.0"",""id"":9,""error"":{""code"":-32601,""message"":""Method not found""}}"].
Proof. repeat split; vm_compute; reflexivity. Qed.

(* end to end: what the client's serialisers emit is classified as the call / notification it was (Proofs/EndToEnd.v,
   via the C15 round trips) *)
From JV Require Import Proofs.EndToEnd.

Theorem C01_client_request_is_a_call : forall r : request,
  wf_id (rq_id r) -> utf8_valid (rq_method r) = true ->
  match rq_params r with Some p => raw_payload p /\ nonnull p | None => True end ->
  classify (ser_request r) = Call r.
Proof. exact client_request_is_a_call. Qed.
Print Assumptions C01_client_request_is_a_call.

Theorem C01_client_notification_is_a_notification : forall (me : bytes) (p : option bytes),
  utf8_valid me = true -> match p with Some p' => raw_payload p' /\ nonnull p' | None => True end ->
  classify (ser_notification me p) = Notif.
Proof. exact client_notification_is_a_notification. Qed.
Print Assumptions C01_client_notification_is_a_notification.
