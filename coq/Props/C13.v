(* C13 -- the property theorems; the lemmas their proofs rest on are in Proofs/RegistryFacts.v.  The statements are
   recorded in tools/pinned/C13.statements.
   Vocabulary: Model/Registry.v (`step`, `exec`, `init`, `get`, `view`, `nmods`: the heap-level model that is extracted and
   run against the real RpcModule) and the specification part of Proofs/RegistryFacts.v (`spec_step`, `bind`, `added`,
   `writes`, `succeeded`, `failed`, `is_registration`, `checks_first`). *)
From Coq Require Import List NArith Permutation.
From JV Require Import Base.Bytes Model.Registry Proofs.RegistryFacts.
Import ListNotations.

Theorem C13_names_unique : forall (os : list op) (m : nat), NoDup (map fst (get (exec init os) m)).
Proof. intros os m. rewrite get_view. apply nodup_nth, registry_reach_inv. Qed.
Print Assumptions C13_names_unique.

(* every step, after every history, is a step of the abstract finite-map specification (names -> handlers):
   results, error kinds, bindings afterwards, every other module untouched *)
Theorem C13_refines_map_spec : forall (os : list op) (o : op), let s := exec init os in
  spec_step (nmods s) (bind s) o (nmods (fst (step s o))) (bind (fst (step s o))) (snd (step s o)).
Proof.
  intros os o s. destruct (registry_reach_inv os) as [W ND]. fold s in W, ND.
  destruct (step_refines s o W) as (_ & V & O).
  unfold bind. rewrite <- !length_view, V, O. apply vstep_spec, ND.
Qed.
Print Assumptions C13_refines_map_spec.

(* a successful register/alias/merge appends exactly the entries the op names to its target module -- all of them
   previously unbound and pairwise distinct -- and leaves the number and the contents of all other modules as they were *)
Theorem C13_success_adds_exactly : forall (os : list op) (o : op), let s := exec init os in
  is_registration o -> succeeded (snd (step s o)) ->
  exists m, writes o = Some m /\ m < nmods s /\
    view (fst (step s o)) = upd m (fun ms => ms ++ added (view s) o) (view s) /\
    (forall n, In n (map fst (added (view s) o)) -> bind s m n = None) /\
    NoDup (map fst (added (view s) o)).
Proof.
  intros os o s Hreg S. destruct (registry_reach_inv os) as [W ND]. fold s in W, ND.
  destruct (step_refines s o W) as (_ & V & O). rewrite O in S. rewrite V, <- length_view.
  apply vstep_success; assumption.
Qed.
Print Assumptions C13_success_adds_exactly.

(* any failing operation leaves every module exactly (as a list, not merely as a map) as it was *)
Theorem C13_failure_is_identity : forall (os : list op) (o : op), let s := exec init os in
  failed (snd (step s o)) -> view (fst (step s o)) = view s.
Proof.
  intros os o s F. destruct (registry_reach_inv os) as [W _]. fold s in W.
  destruct (step_refines s o W) as (_ & V & O). rewrite O in F. rewrite V. apply vstep_failure, F.
Qed.
Print Assumptions C13_failure_is_identity.

(* alias, merge and subscription registration check before they touch the map: when they fail not even the sharing
   structure changes *)
Theorem C13_failure_is_identity_heap : forall (os : list op) (o : op), let s := exec init os in
  checks_first o -> failed (snd (step s o)) -> fst (step s o) = s.
Proof. intros os o s. apply step_failure_heap, registry_reach_inv. Qed.
Print Assumptions C13_failure_is_identity_heap.

Theorem C13_dispatch : forall (os : list op) (m : nat) (n : name), let s := exec init os in
  step s (Call m n) = (s, if (m <? nmods s)%nat then OCall (bind s m n) else OBad).
Proof. exact dispatch. Qed.
Print Assumptions C13_dispatch.

(* "method not found" exactly when the name is not among the module's names *)
Theorem C13_not_found_iff_unbound : forall (os : list op) (m : nat) (n : name), let s := exec init os in
  m < nmods s -> (snd (step s (Call m n)) = OCall None <-> ~ In n (map fst (get s m))).
Proof.
  intros os m n s Hm. unfold step, valid. destruct (Nat.ltb_spec m (nmods s)); [|lia]. cbn [snd].
  rewrite <- lookup_none_iff. split; [intro HH; inversion HH; reflexivity | intros ->; reflexivity].
Qed.
Print Assumptions C13_not_found_iff_unbound.

(* once bound, a name keeps its handler through every operation except the removal of that very name from that very
   module: nothing ever overwrites *)
Theorem C13_binding_stable : forall (os : list op) (o : op) (m : nat) (n : name) (b : binding), let s := exec init os in
  bind s m n = Some b -> o <> Remove m n -> bind (fst (step s o)) m n = Some b.
Proof.
  intros os o m n b s Hb Hne. destruct (registry_reach_inv os) as [W ND]. fold s in W, ND.
  destruct (step_refines s o W) as (_ & V & _). unfold bind in *. rewrite V. apply vstep_stable; assumption.
Qed.
Print Assumptions C13_binding_stable.

Theorem C13_frame : forall (os os2 : list op) (k : nat), let s := exec init os in
  k < nmods s -> Forall (fun o => writes o <> Some k) os2 -> get (exec s os2) k = get s k.
Proof. exact frame. Qed.
Print Assumptions C13_frame.

(* a clone starts equal to its source; afterwards the clone is unaffected by anything not applied to it, and the source
   by anything not applied to the source *)
Theorem C13_clone_isolated : forall (os : list op) (m : nat) (os2 : list op), let s := exec init os in
  m < nmods s ->
  let s1 := fst (step s (Clone m)) in
  let c := nmods s in
  get s1 c = get s m /\
  (Forall (fun o => writes o <> Some c) os2 -> get (exec s1 os2) c = get s m) /\
  (Forall (fun o => writes o <> Some m) os2 -> get (exec s1 os2) m = get s m).
Proof.
  intros os m os2 s Hm s1 c. destruct (registry_reach_inv os) as [W _]. fold s in W.
  destruct (step_clone s m W Hm) as (N1 & Gc & Gm). fold s1 in N1, Gc, Gm. fold c in N1, Gc.
  (* s1 is itself a reachable state, so the frame theorem applies to what follows the clone *)
  assert (s1 = exec init (os ++ [Clone m])) as E1 by (unfold s1, s; rewrite exec_snoc; reflexivity).
  split; [exact Gc|]. split; intro F.
  - rewrite <- Gc, E1. apply frame; [rewrite <- E1; lia | exact F].
  - rewrite <- Gm, E1. apply frame; [rewrite <- E1; unfold c in N1; lia | exact F].
Qed.
Print Assumptions C13_clone_isolated.

(* the extracted `run_trace` (what the model driver prints) is `step` along `exec`, and each printed module is a
   permutation of the module *)
Theorem C13_trace_is_exec : forall (os : list op) (o : op),
  run_trace (os ++ [o]) = run_trace os ++ [(snd (step (exec init os) o), dump (exec init (os ++ [o])))].
Proof. intros. apply trace_from_snoc. Qed.
Print Assumptions C13_trace_is_exec.

Theorem C13_dump_is_view : forall s : state, Forall2 (@Permutation (name * binding)) (dump s) (view s).
Proof.
  intro s. unfold dump. induction (view s) as [|ms v IH]; cbn; constructor; [apply sort_methods_perm | exact IH].
Qed.
Print Assumptions C13_dump_is_view.

(* non-vacuity: a history in which every kind of failure and a diverging clone occur *)
Example C13_demo_observations :
  map fst (run_trace demo) =
  [ ORes None; ORes (Some (AlreadyRegistered na)); ORes (Some (SubscriptionNameConflict nb));
    ORes (Some (AlreadyRegistered na)); ORes (Some (MethodNotFound nb)); OHandle 1; ORes None;
    ORes (Some (AlreadyRegistered na)); ORemoved (Some (Bind 1 KSync)); ORes None;
    OCall (Some (Bind 1 KSync)); OCall None; OCall (Some (Bind 5 KUnsub)) ].
Proof. vm_compute. reflexivity. Qed.

Example C13_demo_final :
  view (exec init demo) = [ [(nc, Bind 5 KUnsub); (nb, Bind 5 KSub); (na, Bind 1 KSync)]; [(na, Bind 1 KSync)] ].
Proof. vm_compute. reflexivity. Qed.

(* premises of the theorems above are satisfiable on this history *)
Example C13_demo_premises :
  failed (snd (step (exec init (firstn 1 demo)) (Reg 0 (RAsync na 2)))) /\
  succeeded (snd (step (exec init (firstn 6 demo)) (Reg 0 (RSub true nb nc 5)))) /\
  checks_first (MergeMod 1 0) /\ failed (snd (step (exec init (firstn 7 demo)) (MergeMod 1 0))) /\
  bind (exec init (firstn 6 demo)) 1 na = Some (Bind 1 KSync).
Proof. vm_compute. tauto. Qed.
