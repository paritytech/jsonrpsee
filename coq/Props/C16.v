(* C16 -- the property theorems; the lemmas they rest on are in Proofs/ParamsFacts.v.  The statements are compared with
   tools/pinned/C16.statements on every run.
   Vocabulary (coq/Model/Params.v): `params_new` = Params::new, `read_seq p ops` = the results of the reads `ops`
   (ONext t = next::<t>, OOpt t = optional_next::<t>) on `p.sequence()`, `parse` / `one` = Params::parse / Params::one,
   `decode t j` = the value of Rust type t denoted by the JSON value j, `spec ops vs` = the same reads against the element
   list vs of a plain JSON parse (after a failed read nothing is left), `exhausted` = error for next, absent for optional_next.
   `parse_text` (coq/Json/JsonParse.v) is the plain JSON parse: serde_json::from_str::<Value>. *)
From Coq Require Import ZArith List Lia.
From JV Require Import Base.Bytes Json.Json Json.JsonParse Model.Params Proofs.ParamsFacts.
Import ListNotations.

(* any JSON array text, any read script: every read yields the element at its position decoded at the requested type,
   or -32602 when the element does not have that type (and then nothing more), and reports exhaustion after the last *)
Theorem C16_typed_agrees : forall (raw : bytes) (vs : list json) (ops : list op), parse_text raw = Some (JArr vs) -> read_seq (params_new (Some raw)) ops = spec ops vs.
Proof. exact typed_agrees. Qed.
Print Assumptions C16_typed_agrees.

(* reading element by element yields exactly the elements of the plain parse, in order, then exhaustion *)
Theorem C16_sequence_agrees : forall (raw : bytes) (vs : list json) (tail : list op), parse_text raw = Some (JArr vs) -> read_seq (params_new (Some raw)) (repeat (ONext TValue) (length vs) ++ tail) = map (fun v => OVal (VValue v)) vs ++ map exhausted tail.
Proof.
  intros raw vs tail H. rewrite (typed_agrees raw vs _ H), spec_values_prefix by lia.
  rewrite firstn_all, skipn_all, spec_nil. reflexivity.
Qed.
Print Assumptions C16_sequence_agrees.

(* an optional read at a `null` element is absent and does not disturb the following elements *)
Theorem C16_optional_absent : forall (raw : bytes) (vs : list json) (i : nat) (t : ty) (rest : list op), parse_text raw = Some (JArr vs) -> nth_error vs i = Some JNull -> read_seq (params_new (Some raw)) (repeat (ONext TValue) i ++ OOpt t :: rest) = map (fun v => OVal (VValue v)) (firstn i vs) ++ OAbsent :: spec rest (skipn (S i) vs).
Proof.
  intros raw vs i t rest H N. rewrite (typed_agrees raw vs _ H).
  rewrite spec_values_prefix by (apply Nat.lt_le_incl, nth_error_Some; congruence).
  rewrite (skipn_nth_error _ _ _ N). reflexivity.
Qed.
Print Assumptions C16_optional_absent.

(* a JSON text that is not an array (object, scalar) handed to sequence(): every read is the -32602 error *)
Theorem C16_sequence_non_array : forall (raw : bytes) (j : json) (ops : list op), parse_text raw = Some j -> match j with JArr _ => False | _ => True end -> read_seq (params_new (Some raw)) ops = map (fun _ => OErr (-32602)%Z) ops.
Proof.
  intros raw j ops H NA. apply (read_seq_non_array _ j); [apply trim_no_lead | apply new_keeps_json, H | exact NA].
Qed.
Print Assumptions C16_sequence_non_array.

Theorem C16_parse_agrees : forall (raw : bytes) (j : json) (t : ty), parse_text raw = Some j -> parse t (params_new (Some raw)) = match decode t j with Some v => OVal v | None => OErr (-32602)%Z end.
Proof. intros raw j t H. unfold parse. cbn [params_new params_text]. rewrite (new_keeps_json raw j H). reflexivity. Qed.
Print Assumptions C16_parse_agrees.

Theorem C16_one_agrees : forall (raw : bytes) (j : json) (t : ty), parse_text raw = Some j -> one t (params_new (Some raw)) = match j with JArr [x] => match decode t x with Some v => OVal v | None => OErr (-32602)%Z end | _ => OErr (-32602)%Z end.
Proof. intros raw j t H. unfold one. cbn [params_new params_text]. rewrite (new_keeps_json raw j H). reflexivity. Qed.
Print Assumptions C16_one_agrees.

Theorem C16_parse_rejects_non_json : forall (raw : bytes) (t : ty), parse_text (rust_trim raw) = None -> parse t (params_new (Some raw)) = OErr (-32602)%Z /\ one t (params_new (Some raw)) = OErr (-32602)%Z.
Proof. intros raw t H. unfold parse, one. cbn [params_new params_text]. rewrite H. split; reflexivity. Qed.
Print Assumptions C16_parse_rejects_non_json.

(* absent params: parse sees `null`, the sequence is the empty array's *)
Theorem C16_absent_is_null_or_empty : forall (t : ty) (ops : list op), parse t (params_new None) = match decode t JNull with Some v => OVal v | None => OErr (-32602)%Z end /\ one t (params_new None) = OErr (-32602)%Z /\ read_seq (params_new None) ops = spec ops [].
Proof. intros t ops. split; [reflexivity|]. split; [reflexivity | apply read_seq_absent]. Qed.
Print Assumptions C16_absent_is_null_or_empty.

(* Params::new (Unicode trim) keeps a JSON text a JSON text with the same value; with C16_typed_agrees_stored the
   statements above also cover texts wrapped in Unicode white space that is not JSON white space *)
Theorem C16_new_keeps_json : forall (raw : bytes) (j : json), parse_text raw = Some j -> parse_text (rust_trim raw) = Some j.
Proof. exact new_keeps_json. Qed.
Print Assumptions C16_new_keeps_json.

Theorem C16_typed_agrees_stored : forall (raw : bytes) (vs : list json) (ops : list op), parse_text (rust_trim raw) = Some (JArr vs) -> read_seq (params_new (Some raw)) ops = spec ops vs.
Proof. intros raw vs ops H. apply read_seq_array; [apply trim_no_lead | exact H]. Qed.
Print Assumptions C16_typed_agrees_stored.

(* every error of every function, in every state (also unreachable ones) and for every text, carries code -32602;
   the functions are total (Gallina), there is no panic outcome *)
Theorem C16_only_invalid_params : forall (p : params) (ops : list op) (s : bytes) (t : ty), Forall (fun o => match o with OErr c => c = (-32602)%Z | _ => True end) (read_seq p ops) /\ Forall (fun o => match o with OErr c => c = (-32602)%Z | _ => True end) (run ops s) /\ match parse t p with OErr c => c = (-32602)%Z | _ => True end /\ match one t p with OErr c => c = (-32602)%Z | _ => True end.
Proof.
  intros p ops s t. split; [apply run_code_ok|]. split; [apply run_code_ok|]. split; [apply parse_code_ok | apply one_code_ok].
Qed.
Print Assumptions C16_only_invalid_params.

(* after a failed read (any params, JSON or not, any earlier reads) no later read yields an element *)
Theorem C16_error_sticky : forall (p : params) (pre : list op) (o : op) (post : list op), is_error (nth (length pre) (read_seq p (pre ++ o :: post)) OAbsent) = true -> Forall (fun r => is_value r = false) (skipn (S (length pre)) (read_seq p (pre ++ o :: post))).
Proof.
  intros p pre o post. unfold read_seq. rewrite run_app. cbn [run].
  pose proof (error_sticky o (run_state pre (sequence p)) post) as ES.
  destruct (step o (run_state pre (sequence p))) as [r s'].
  rewrite <- (run_length pre (sequence p)), nth_middle, skipn_middle. exact ES.
Qed.
Print Assumptions C16_error_sticky.

(* the same from an arbitrary reader state *)
Theorem C16_error_sticky_state : forall (o : op) (s : bytes) (ops : list op), is_error (fst (step o s)) = true -> Forall (fun r => is_value r = false) (run ops (snd (step o s))).
Proof. exact error_sticky. Qed.
Print Assumptions C16_error_sticky_state.

(* interior whitespace, a string holding "],[" , nesting, null, reads past the end *)
Example C16_witness_reads :
  let raw := b#" [ 1 ,""],["", [2,3] ,null , {""k"":[]} ]  " in
  parse_text raw = Some (JArr [JNum (NPos 1); JStr b#"],["; JArr [JNum (NPos 2); JNum (NPos 3)]; JNull; JObj [(b#"k", JArr [])]]) /\
  read_seq (params_new (Some raw)) [ONext TU64; OOpt TStr; ONext (TVec TU64); OOpt TBool; ONext TValue; OOpt TU64; ONext TU64] =
    [OVal (VU64 1); OVal (VStr b#"],["); OVal (VVec [VU64 2; VU64 3]); OAbsent; OVal (VValue (JObj [(b#"k", JArr [])])); OAbsent; OErr (-32602)%Z].
Proof. vm_compute. split; reflexivity. Qed.

(* `[ ]` and `[<newline>]` are empty arrays (the case repaired in next_inner) *)
Example C16_witness_ws_only_array :
  read_seq (params_new (Some b#"[ ]")) [OOpt TU64; ONext TU64] = [OAbsent; OErr (-32602)%Z] /\
  read_seq (params_new (Some [x5b; x0a; x5d])) [OOpt TU64] = [OAbsent].
Proof. vm_compute. split; reflexivity. Qed.

(* a type mismatch is -32602 and sticks: the 3 that follows is never handed out *)
Example C16_witness_sticky :
  read_seq (params_new (Some b#"[1,""x"",3]")) [ONext TU64; ONext TU64; ONext TU64; OOpt TU64] =
    [OVal (VU64 1); OErr (-32602)%Z; OErr (-32602)%Z; OAbsent].
Proof. vm_compute. reflexivity. Qed.

(* objects and scalars given to sequence(); parse / one; absent params; Unicode trimming (U+00A0 around the text) *)
Example C16_witness_shapes :
  read_seq (params_new (Some b#"{""a"":1}")) [ONext TValue; OOpt TValue] = [OErr (-32602)%Z; OErr (-32602)%Z] /\
  parse (TPair TU64 TStr) (params_new (Some b#" [7, ""s""] ")) = OVal (VPair (VU64 7) (VStr b#"s")) /\
  one TI64 (params_new (Some b#"[-5]")) = OVal (VI64 (-5)) /\
  one TI64 (params_new (Some b#"[1,2]")) = OErr (-32602)%Z /\
  parse (TOpt TU64) (params_new None) = OVal VNone /\
  parse TU64 (params_new None) = OErr (-32602)%Z /\
  read_seq (params_new (Some [xc2; xa0; x5b; x31; x5d; xc2; xa0])) [ONext TU64] = [OVal (VU64 1)] /\
  parse_text [xc2; xa0; x5b; x31; x5d; xc2; xa0] = None.
Proof. vm_compute. repeat split; reflexivity. Qed.
