(* C03 -- the property theorems with their proofs; the lemmas the proofs rest on are in Proofs/ClientMgrInv.v, Proofs/ClientMgrC03.v
   and the files named further down.
   Vocabulary: Model/ClientMgr.v (`init`, `step`, `run`, `apply`, `req_lookup`, `classify_frame`, `mk_id`, outputs `OComplete h r`)
   and the specification part of Proofs/ClientMgrC03.v:
     front_handle e / front_handles es   the handle a front-end event introduces (FCall/FBatch/FSubscribe/FSubMethod/FUnsub)
     outs_of tr                         all outputs of a trace, in order
     ncompl h o                         number of `OComplete h _` in o
     doomed s                           dying s <> None \/ dead s = true
     s_at cfg es                        fst (run (init cfg) es)
     issued_call cfg es h i             es = es1 ++ FCall h me p :: es2, issued in a live state s0 = s_at es1, i = mk_id s0 (next_id s0)
   The k-th trace element of a run is the output of `step` in the state reached by the first k events (C03_trace_index). *)
From Coq Require Import List NArith Lia.
From JV Require Import Base.Bytes Base.Dec Model.Wire Model.ClientMgr Proofs.ClientDispatchFacts Proofs.ClientMgrInv Proofs.ClientMgrC03
                       Proofs.ClientMgrC18.
Import ListNotations.
Local Open Scope N_scope.

Theorem C03_trace_index : forall (s : st) (es : list ev) (e : ev) (rest : list ev),
  nth_error (snd (run s (es ++ e :: rest))) (length es) =
  Some (snd (fst (step (fst (run s es)) e)), snd (step (fst (run s es)) e)).
Proof. exact run_nth. Qed.
Print Assumptions C03_trace_index.

(* the front end never inserts an occupied key: no call, subscribe or batch ever fails with Occupied *)
Theorem C03_keys_fresh : forall (idstr : bool) (qc bc : nat) (gate : bool) (es : list ev),
  Forall (fun x => forall h, ~ In (OComplete h (CErr EOccupied)) (fst x)) (snd (run (init idstr qc bc gate) es)).
Proof.
  intros idstr qc bc gate es. eapply Forall_impl; [|exact (proj2 (keys_fresh_run es _ (init_inv idstr qc bc gate)))].
  intros [o r] F h Hi. cbn [fst] in *. rewrite Forall_forall in F. apply (F _ Hi h). reflexivity.
Qed.
Print Assumptions C03_keys_fresh.

(* the premise under which "the response bearing its own id" is well defined: in every reachable state the ids of
   outstanding single requests (table keys and queued messages; `queued_ids`, `queued_ranges`, `in_range` are in
   Proofs/ClientMgrC18.v) are pairwise distinct, batch ranges are pairwise disjoint, and no single id lies in a batch range *)
Theorem C03_wire_ids_distinct : forall (idstr : bool) (qc bc : nat) (gate : bool) (es : list ev),
  let s := fst (run (init idstr qc bc gate) es) in
  NoDup (map fst (requests (m s)) ++ queued_ids s) /\
  (forall r1 r2, In r1 (map fst (batches (m s)) ++ queued_ranges s) -> In r2 (map fst (batches (m s)) ++ queued_ranges s) ->
     r1 <> r2 -> forall n, ~ (in_range r1 n /\ in_range r2 n)) /\
  (forall n r, In (mk_id s n) (map fst (requests (m s)) ++ queued_ids s) ->
     In r (map fst (batches (m s)) ++ queued_ranges s) -> ~ in_range r n).
Proof.
  intros idstr qc bc gate es. cbv zeta. destruct (Inv_spelled _ (run_inv es _ (init_inv idstr qc bc gate))). auto.
Qed.
Print Assumptions C03_wire_ids_distinct.

(* routing, state form (any state, any event): a response completes handle h only if h is the waiter stored under the
   response's own id, and only while the client is alive *)
Theorem C03_routing : forall (s : st) (e : ev) (h : handle) (r : response),
  In (OComplete h (CResp r)) (snd (fst (step s e))) ->
  dead s = false /\ dying s = None /\ req_lookup (rs_id r) (m s) = Some (KCall (Some h)) /\
  exists raw, e = Back raw /\ classify_frame raw = FSingle (IResp r).
Proof.
  intros s e h r H. apply step_outs in H as [H | H]; [|contradiction].
  apply apply_outs in H as (D & DY & raw & E & C & L). repeat split; auto. eauto.
Qed.
Print Assumptions C03_routing.

(* the value handed to the caller is the parsed frame itself, untouched *)
Theorem C03_payload_exact : forall (s : st) (e : ev) (h : handle) (r : response),
  In (OComplete h (CResp r)) (snd (fst (step s e))) ->
  exists raw, e = Back raw /\ classify_frame raw = FSingle (IResp r).
Proof. intros s e h r H. exact (proj2 (proj2 (proj2 (C03_routing s e h r H)))). Qed.
Print Assumptions C03_payload_exact.

(* routing, trace form: in every run from `init`, the response delivered to h bears the id that an earlier `FCall h`
   put on the wire *)
Theorem C03_routing_trace : forall (idstr : bool) (qc bc : nat) (gate : bool) (es : list ev) (e : ev) (h : handle) (r : response),
  In (OComplete h (CResp r)) (snd (fst (step (fst (run (init idstr qc bc gate) es)) e))) ->
  (exists es1 me p es2, es = es1 ++ FCall h me p :: es2 /\
     let s0 := fst (run (init idstr qc bc gate) es1) in dead s0 = false /\ rs_id r = mk_id s0 (next_id s0)) /\
  exists raw, e = Back raw /\ classify_frame raw = FSingle (IResp r).
Proof.
  intros idstr qc bc gate es e h r H. apply C03_routing in H as (_ & _ & L & X). split; [|exact X].
  change (issued_call idstr qc bc gate es h (rs_id r)). apply (proj1 (origin idstr qc bc gate es)).
  left. apply (alookup_In id_eqb id_eqb_ok). exact L.
Qed.
Print Assumptions C03_routing_trace.

(* what `FCall h me p` puts on the wire in a live state: the request with id mk_id s0 (next_id s0) *)
Theorem C03_call_wire_id : forall (idstr : bool) (qc bc : nat) (gate : bool) (es : list ev) (h : handle) (me : bytes) (p : option bytes),
  dead (fst (run (init idstr qc bc gate) es)) = false ->
  let s0 := fst (run (init idstr qc bc gate) es) in let i := mk_id s0 (next_id s0) in
  fst (fst (apply s0 (FCall h me p))) =
    enqueue (upd_next s0 (next_id s0 + 1)) (MRequest i (Some h) (ser_request {| rq_id := i; rq_method := me; rq_params := p |})).
Proof. intros idstr qc bc gate es h me p D. cbv zeta. unfold apply. rewrite D. reflexivity. Qed.
Print Assumptions C03_call_wire_id.

(* with pairwise distinct front handles, "the call of h" is one event *)
Theorem C03_call_event_unique : forall (es : list ev) (h : handle) a me p b a' me' p' b',
  NoDup (front_handles es) -> es = a ++ FCall h me p :: b -> es = a' ++ FCall h me' p' :: b' ->
  a = a' /\ me = me' /\ p = p' /\ b = b'.
Proof.
  intros es h a me p b a' me' p' b' N -> E.
  destruct (nodup_flat_map_split fh h _ _ _ _ _ _ N E (or_introl eq_refl) (or_introl eq_refl)) as (-> & [= -> ->] & ->). auto.
Qed.
Print Assumptions C03_call_event_unique.

Theorem C03_at_most_once : forall (idstr : bool) (qc bc : nat) (gate : bool) (es : list ev) (h : handle),
  NoDup (front_handles es) -> (ncompl h (outs_of (snd (run (init idstr qc bc gate) es))) <= 1)%nat.
Proof. intros idstr qc bc gate es h N. pose proof (completions_bound idstr qc bc gate es h N). lia. Qed.
Print Assumptions C03_at_most_once.

(* a response whose id matches nothing pending (or names a live subscription) completes no call, no batch, no subscribe,
   and ends the client *)
Theorem C03_unknown_id_completes_nothing : forall (s : st) (raw : bytes) (r : response),
  classify_frame raw = FSingle (IResp r) -> dying s = None -> dead s = false ->
  (req_lookup (rs_id r) (m s) = None \/ exists u ch um, req_lookup (rs_id r) (m s) = Some (KSub u ch um)) ->
  (forall o, In o (snd (fst (step s (Back raw)))) ->
     match o with OComplete _ (CResp _) | OComplete _ (CBatch _) | OComplete _ (CSubOk _) => False | _ => True end) /\
  doomed (fst (fst (step s (Back raw)))).
Proof.
  intros s raw r CF DY D L. unfold step. rewrite (apply_unknown_id s raw r CF DY D L).
  pose proof (settle_outs (upd_dying s FNotPending)) as S. pose proof (settle_doomed (upd_dying s FNotPending)) as Dm.
  destruct (settle (upd_dying s FNotPending)) as [s2 o2]. cbn [fst snd app] in *. split.
  - intros o Ho. rewrite Forall_forall in S. apply S in Ho. destruct o as [|h c|]; auto. destruct c; auto.
  - apply Dm. left. st_simpl. rewrite DY. discriminate.
Qed.
Print Assumptions C03_unknown_id_completes_nothing.

Definition ex_cfg : st := init false 4 4 false.
Definition ex_resp (i : N) (v : bytes) : bytes := b#"{""jsonrpc"":""2.0"",""id"":" ++ print_N i ++ b#",""result"":" ++ v ++ b#"}".

(* two calls answered in reverse order: each gets the response bearing its own id, with that response's value *)
Example C03_ex_routed :
  map (fun x => filter (fun o => match o with OComplete _ _ => true | _ => false end) (fst x))
      (snd (run ex_cfg [FCall 7 b#"m" None; FCall 8 b#"m" None; Back (ex_resp 1 b#"""b"""); Back (ex_resp 0 b#"""a""")]))
  = [[]; [];
     [OComplete 8 (CResp {| rs_jsonrpc := true; rs_payload := PResult b#"""b"""; rs_id := IdNum 1 |})];
     [OComplete 7 (CResp {| rs_jsonrpc := true; rs_payload := PResult b#"""a"""; rs_id := IdNum 0 |})]].
Proof. vm_compute. reflexivity. Qed.

(* string ids *)
Example C03_ex_routed_str :
  nth 1 (map fst (snd (run (init true 4 4 false) [FCall 7 b#"m" None;
           Back b#"{""jsonrpc"":""2.0"",""id"":""0"",""result"":1}"]))) []
  = [OComplete 7 (CResp {| rs_jsonrpc := true; rs_payload := PResult b#"1"; rs_id := IdStr b#"0" |})].
Proof. vm_compute. reflexivity. Qed.

(* a foreign id kills the client: the pending call fails with Disconnected and its own late answer completes nothing *)
Example C03_ex_foreign_id :
  tl (map fst (snd (run ex_cfg [FCall 7 b#"m" None; Back (ex_resp 9 b#"1"); Back (ex_resp 0 b#"1")])))
  = [[OFatal FNotPending; OComplete 7 (CErr EDisconnected)]; []].
Proof. vm_compute. reflexivity. Qed.

(* a duplicated answer: the first completes the call, the second matches nothing *)
Example C03_ex_duplicate :
  tl (map fst (snd (run ex_cfg [FCall 7 b#"m" None; Back (ex_resp 0 b#"1"); Back (ex_resp 0 b#"1")])))
  = [[OComplete 7 (CResp {| rs_jsonrpc := true; rs_payload := PResult b#"1"; rs_id := IdNum 0 |})]; [OFatal FNotPending]].
Proof. vm_compute. reflexivity. Qed.

From JV Require Import Proofs.WireFacts Proofs.ClientWire.

Theorem C03_response_frame_classified : forall r : response,
  wf_response r -> classify_frame (ser_response r) = FSingle (IResp r).
Proof. exact classify_frame_response. Qed.
Print Assumptions C03_response_frame_classified.

Theorem C03_answer_completes_call : forall (s : st) (h : handle) (r : response),
  dead s = false -> dying s = None -> wf_response r ->
  req_lookup (rs_id r) (m s) = Some (KCall (Some h)) -> alive s h = true ->
  In (OComplete h (CResp r)) (snd (fst (step s (Back (ser_response r))))).
Proof. exact answer_completes_call. Qed.
Print Assumptions C03_answer_completes_call.

(* the HTTP client's single call (Model/HttpBatch.v `http_single`, `http_single_resp`: client.rs `request` after the
   body passed read_body and was parsed as one Response; `outcome_of r` = SOk result | SCall error object) *)
From JV Require Import Model.HttpBatch Proofs.HttpBatchFacts.
From JV Require Model.HttpGate.

Theorem C03_http_single_own_id : forall (i : id) (r : response),
  rs_id r = i -> http_single_resp i r = outcome_of r.
Proof. exact http_single_own_id. Qed.
Print Assumptions C03_http_single_own_id.

(* a reply bearing any other id (other number, string where a number was sent or the reverse, null) never yields Ok:
   a result is refused (NotPendingRequest); an error object is reported as the call's error whatever its id, because the
   code converts the reply to ResponseSuccess before it compares ids *)
Theorem C03_http_single_foreign_id : forall (i : id) (r : response),
  rs_id r <> i ->
  http_single_resp i r = match rs_payload r with PResult _ => SErr HNotPending | PError e => SCall e end /\
  forall raw, http_single_resp i r <> SOk raw.
Proof. exact http_single_foreign_id. Qed.
Print Assumptions C03_http_single_foreign_id.

Theorem C03_http_single_ok : forall (i : id) (body raw : bytes),
  http_single i body = SOk raw <->
  exists text single r,
    HttpGate.read_body [] [HttpGate.FData body] http_max_response = HttpGate.RbOk text single /\
    parse_response text = Some r /\ rs_id r = i /\ rs_payload r = PResult raw.
Proof. exact http_single_ok. Qed.
Print Assumptions C03_http_single_ok.

Example C03_http_single_witness :
  http_single (IdNum 1) b#"{""jsonrpc"":""2.0"",""id"":1,""result"":""a""}" = SOk b#"""a""" /\
  http_single (IdNum 1) b#"{""jsonrpc"":""2.0"",""id"":""1"",""result"":""a""}" = SErr HNotPending /\
  http_single (IdStr b#"1") b#"{""jsonrpc"":""2.0"",""id"":1,""result"":""a""}" = SErr HNotPending /\
  http_single (IdNum 1) b#"{""jsonrpc"":""2.0"",""id"":null,""result"":""a""}" = SErr HNotPending /\
  http_single (IdNum 1) b#"{""jsonrpc"":""2.0"",""id"":2,""error"":{""code"":-1,""message"":""x""}}"
    = SCall {| e_code := (-1)%Z; e_message := b#"x"; e_data := None |} /\
  http_single (IdNum 1) b#"[1]" = SErr HParse /\ http_single (IdNum 1) b#"1" = SErr HTransport.
Proof. vm_compute. repeat split. Qed.
