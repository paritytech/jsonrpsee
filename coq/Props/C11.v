(* C11 -- the property theorems and their proofs, over the lemmas of Proofs/ConnGuardFacts.v; the statements are recorded in
   tools/pinned/C11.statements.  Model: Model/ConnGuard.v (semaphore counter + per-attempt permit location). *)
From Coq Require Import List NArith Bool Lia Arith.
From JV Require Import Gen.ConnGuardGen Model.ConnGuard Proofs.ConnGuardFacts.
Import ListNotations.
Local Open Scope N_scope.

(* at every state of every trace at most max_connections attempts hold a permit (= are being served) *)
Theorem C11_bound : forall (c : cfg) (tr : list act), Forall (fun s => served s <= c_max c) (trace_states c tr).
Proof.
  intros c tr. apply Forall_forall. intros s H. pose proof (trace_counter c tr s H). lia.
Qed.
Print Assumptions C11_bound.

Theorem C11_counter_exact : forall (c : cfg) (tr : list act), Forall (fun s => s_avail s + served s = c_max c) (trace_states c tr).
Proof.
  intros c tr. apply Forall_forall. exact (trace_counter c tr).
Qed.
Print Assumptions C11_counter_exact.

(* the states listed by trace_states include the one the whole trace ends in (so the two theorems above speak about `run`) *)
Theorem C11_states_cover_run : forall (c : cfg) (tr : list act), In (run c tr) (trace_states c tr).
Proof. intros. apply last_state_in. Qed.
Print Assumptions C11_states_cover_run.

(* an attempt is refused with 429 exactly when all slots are taken at the moment it tries *)
Theorem C11_refused_iff_full : forall (c : cfg) (tr : list act) (k : kind), refused (step (run c tr) (Acquire k)) (length (s_att (run c tr))) = true <-> served (run c tr) = c_max c.
Proof.
  intros c tr k. pose proof (run_counter c tr) as I.
  set (s := run c tr) in *. unfold refused, get, step.
  destruct (N.eqb_spec (s_avail s) 0) as [E|E]; cbn [s_att]; rewrite get_app_new; cbn.
  - split; [intros _; lia | reflexivity].
  - split; [discriminate | intro; lia].
Qed.
Print Assumptions C11_refused_iff_full.

(* a refused attempt: no handler ever ran for it, and at no prefix of the trace did it hold a slot *)
Theorem C11_refused_429_no_handler : forall (c : cfg) (tr : list act) (i : nat), refused (run c tr) i = true -> handlers_of (run c tr) i = 0 /\ holds (run c tr) i = false /\ forall n : nat, holds (run c (firstn n tr)) i = false.
Proof.
  intros c tr i R. unfold refused in R. destruct (get (run c tr) i) as [x|] eqn:G; [| discriminate].
  apply N.eqb_eq in R. destruct (run_refused_ok c tr i x G R) as (P & H & _).
  unfold handlers_of, holds. rewrite G, P. repeat split; auto.
  intro n. unfold holds. destruct (get (run c (firstn n tr)) i) as [y|] eqn:Gy; [| reflexivity].
  destruct (holding (a_phase y)) eqn:Hy; [exfalso | reflexivity].
  assert (Sy : a_status y <> status_refused).
  { intro E. destruct (run_refused_ok c (firstn n tr) i y Gy E) as (Q & _). rewrite Q in Hy. discriminate. }
  destruct (run_from_status_stable (skipn n tr) _ i y Gy Sy) as (z & Gz & Sz).
  unfold run in *. rewrite <- run_from_app, firstn_skipn in Gz. rewrite G in Gz. injection Gz as <-. contradiction.
Qed.
Print Assumptions C11_refused_429_no_handler.

(* once every attempt has terminated -- by whichever exit -- all slots are free again *)
Theorem C11_no_leak : forall (c : cfg) (tr : list act), all_terminated (run c tr) = true -> s_avail (run c tr) = c_max c.
Proof.
  intros c tr T. pose proof (run_counter c tr) as I. unfold served in I.
  unfold all_terminated in T. rewrite (terminated_served0 _ T) in I. lia.
Qed.
Print Assumptions C11_no_leak.

(* ... so the limit can be reached again: after any such trace, max further attempts of any kinds all get a slot and the next one is refused *)
Theorem C11_limit_reachable_again : forall (c : cfg) (tr : list act) (ks : list kind) (k : kind), all_terminated (run c tr) = true -> length ks = N.to_nat (c_max c) -> let s := run c tr in let s' := run c (tr ++ map Acquire ks) in served s = 0 /\ served s' = c_max c /\ (forall j : nat, (j < length ks)%nat -> holds s' (length (s_att s) + j) = true /\ refused s' (length (s_att s) + j) = false) /\ refused (step s' (Acquire k)) (length (s_att s')) = true.
Proof.
  intros c tr ks k T L s s'.
  assert (A : s_avail s = c_max c) by (apply C11_no_leak; exact T).
  assert (S0 : served s = 0) by (apply terminated_served0; exact T).
  assert (E : s' = run_from s (map Acquire ks)) by (unfold s', s, run; apply run_from_app).
  destruct (acquire_many ks s) as [B C]; [rewrite L, A; lia |].
  assert (S' : served s' = c_max c).
  { pose proof (run_counter c (tr ++ map Acquire ks)) as I. fold s' in I.
    rewrite E in I |- *. rewrite B, L, A in I. lia. }
  repeat split; auto.
  - unfold holds, get. rewrite E, C, nth_error_app2 by lia.
    replace (length (s_att s) + j - length (s_att s))%nat with j by lia.
    rewrite nth_error_map. destruct (nth_error ks j) eqn:N; [reflexivity | apply nth_error_None in N; lia].
  - unfold refused, get. rewrite E, C, nth_error_app2 by lia.
    replace (length (s_att s) + j - length (s_att s))%nat with j by lia.
    rewrite nth_error_map. destruct (nth_error ks j) eqn:N; [reflexivity | reflexivity].
  - apply C11_refused_iff_full. exact S'.
Qed.
Print Assumptions C11_limit_reachable_again.

Theorem C11_finish_frees_slot : forall (s : state) (a : act) (i : nat), holds s i = true -> holds (step s a) i = false -> s_avail (step s a) = s_avail s + 1.
Proof.
  intros s a j H1 H2. unfold holds in H1, H2.
  destruct (get s j) as [x0|] eqn:G0; [| discriminate].
  assert (L : (j < length (s_att s))%nat) by (apply nth_error_Some; unfold get in G0; congruence).
  revert H2. destruct (guard_step_shape s a); try reflexivity.
  - now rewrite G0, H1.
  - unfold get in *; cbn. now rewrite nth_error_app1, G0, H1.
  - unfold get in *; cbn. now rewrite nth_error_app1, G0, H1.
  - (* the permit stays: so does `holds` *)
    rewrite get_keep. destruct (Nat.eqb_spec i j) as [-> |]; [| now rewrite G0, H1].
    rewrite G. cbn. rewrite Hf. rewrite G0 in G. injection G as <-. now rewrite H1.
Qed.
Print Assumptions C11_finish_frees_slot.

(* no lifecycle phase is a trap: from any state whatsoever attempt i can be brought to its end *)
Theorem C11_can_always_finish : forall (s : state) (i : nat), holds (run_from s (finish_acts i)) i = false.
Proof.
  intros s i. unfold finish_acts, run_from, fold_left.
  set (s5 := step _ (WsPeerGone i)).
  assert (R : (5 <= rank_at s5 i)%nat).
  { do 5 (eapply (finish_rank _ i); [reflexivity |]). apply Nat.le_0_l. }
  unfold rank_at, holds in *. destruct (get s5 i) as [y|]; [| reflexivity].
  destruct (a_phase y); cbn in R; try lia. reflexivity.
Qed.
Print Assumptions C11_can_always_finish.

(* a session whose receive loop ended for any reason other than a server stop -- the peer's Close, a receive error, the
   server's own ping/pong inactivity close -- gives its slot back in graceful_shutdown however many of its handlers are
   still running (x is arbitrary: nothing is assumed about a_pending x) *)
Theorem C11_server_close_frees_slot_despite_pending_call : forall (s : state) (i : nat) (x : attempt) (c : cause), get s i = Some x -> a_phase x = PWsSession -> c <> CStopped -> let s' := run_from s [WsEnd i c; WsFinish i] in holds s' i = false /\ s_avail s' = s_avail s + 1.
Proof.
  intros s i x c G P H. cbn [run_from fold_left].
  assert (E1 : step s (WsEnd i c) = keep s i (set_phase (PWsClosing c))) by (unfold step; now rewrite G, P).
  rewrite E1. pose proof (get_keep_same s i (set_phase (PWsClosing c)) x G) as G1.
  assert (E2 : step (keep s i (set_phase (PWsClosing c))) (WsFinish i)
               = release (keep s i (set_phase (PWsClosing c))) i (set_phase PDone)).
  { unfold step. rewrite G1. cbn [a_phase set_phase]. now rewrite not_blocked_unless_stopped. }
  rewrite E2. split.
  - unfold holds. now rewrite (get_release_same _ _ _ _ G1).
  - reflexivity.
Qed.
Print Assumptions C11_server_close_frees_slot_despite_pending_call.

(* only a server stop waits for the session's pending calls, and even then a vanished peer ends the wait *)
Theorem C11_stop_waits_only_for_pending_calls : forall (s : state) (i : nat) (x : attempt), get s i = Some x -> a_phase x = PWsClosing CStopped -> (a_pending x <> 0 -> step s (WsFinish i) = s) /\ (a_pending x = 0 -> holds (step s (WsFinish i)) i = false /\ s_avail (step s (WsFinish i)) = s_avail s + 1) /\ holds (step s (WsPeerGone i)) i = false /\ s_avail (step s (WsPeerGone i)) = s_avail s + 1.
Proof.
  intros s i x G P. repeat split.
  - intro H. unfold step. rewrite G, P. unfold shutdown_blocked, gen_waits_for_pending. cbn.
    destruct (N.eqb_spec (a_pending x) 0); [contradiction | reflexivity].
  - unfold step. rewrite G, P, (not_blocked_without_pending _ _ H).
    unfold holds. now rewrite (get_release_same _ _ _ _ G).
  - unfold step. rewrite G, P, (not_blocked_without_pending _ _ H).
    reflexivity.
  - unfold step. rewrite G, P. unfold holds. now rewrite (get_release_same _ _ _ _ G).
  - unfold step. now rewrite G, P.
Qed.
Print Assumptions C11_stop_waits_only_for_pending_calls.

Definition c1 : cfg := {| c_max := 1; c_http := true; c_ws := true |}.

(* limit 1: a WebSocket session takes the slot, an HTTP request is refused (429, its handler step is a no-op),
   the session ends, the next HTTP request is served and its handler runs *)
Example C11_witness_refuse_then_reuse :
  let tr := [Acquire KWs; Dispatch 0; Upgrade 0 true; Acquire KHttp; Dispatch 1; Handler 1; WsEnd 0 CPeer; WsFinish 0;
             Acquire KHttp; Dispatch 2; Handler 2] in
  refused (run c1 tr) 1 = true /\ handlers_of (run c1 tr) 1 = 0 /\ refused (run c1 tr) 2 = false /\ handlers_of (run c1 tr) 2 = 1
  /\ served (run c1 tr) = 1 /\ s_avail (run c1 tr) = 0
  /\ all_terminated (run c1 (tr ++ [Respond 2])) = true /\ s_avail (run c1 (tr ++ [Respond 2])) = 1.
Proof. vm_compute. repeat split. Qed.

(* every exit path gives the slot back: failed handshake, denied, failed upgrade, dropped future, normal completion *)
Example C11_witness_all_exits :
  let tr := [Acquire KWsBad; Dispatch 0; Acquire KWs; Dispatch 1; Upgrade 1 false; Acquire KHttp; Dispatch 2; DropFut 2;
             Acquire KHttpGet; Dispatch 3; Respond 3; Acquire KWs; Dispatch 4; Upgrade 4 true; Handler 4; WsEnd 4 CError; WsFinish 4] in
  all_terminated (run c1 tr) = true /\ s_avail (run c1 tr) = 1
  /\ map (fun a => a_status a) (s_att (run c1 tr)) = [200; 101; 0; 405; 101]
  /\ all_terminated (run {| c_max := 1; c_http := true; c_ws := false |} [Acquire KWs; Dispatch 0]) = true
  /\ map (fun a => a_status a) (s_att (run {| c_max := 1; c_http := true; c_ws := false |} [Acquire KWs; Dispatch 0])) = [403].
Proof. vm_compute. repeat split. Qed.

Example C11_witness_limit0 :
  refused (run {| c_max := 0; c_http := true; c_ws := true |} [Acquire KHttp]) 0 = true.
Proof. vm_compute. reflexivity. Qed.

(* limit 1, ws ping on: a session with a parked call goes silent, the server closes it for inactivity; the slot is back
   although the call is still pending (a_pending = 1), and the next connection is served *)
Example C11_witness_inactivity_close_with_pending_call :
  let tr := [Acquire KWs; Dispatch 0; Upgrade 0 true; Handler 0; WsEnd 0 CInactive; WsFinish 0; Acquire KWs; Dispatch 1] in
  pending_of (run c1 tr) 0 = 1 /\ holds (run c1 tr) 0 = false /\ refused (run c1 tr) 1 = false /\ holds (run c1 tr) 1 = true
  /\ (* whereas a server stop does wait for it *)
  holds (run c1 [Acquire KWs; Dispatch 0; Upgrade 0 true; Handler 0; WsEnd 0 CStopped; WsFinish 0]) 0 = true
  /\ holds (run c1 [Acquire KWs; Dispatch 0; Upgrade 0 true; Handler 0; WsEnd 0 CStopped; HandlerDone 0; WsFinish 0]) 0 = false.
Proof. vm_compute. repeat split. Qed.
