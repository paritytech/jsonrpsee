(* C05 -- a client subscription stream yields exactly its own notifications, in order.  The property theorems with their
   proofs; the lemmas they rest on are in Proofs/ClientMgrC05.v.  Vocabulary: Model/ClientMgr.v (`chan`, `chan_send` = SubscriptionSender::send,
   `poll_next`, `sub_deliver`, `sub_close`, `notif_deliver`, `handle_back`, `handle_front`, `do_unsubscribe`, `kill`,
   `apply`) and the specification part of Proofs/ClientMgrC05.v:
     chan_poll c            Subscription::poll_next on the channel alone;  polls c n = the results of n polls
     accepts c              not lagged, receiver alive, length buf < cap
     push_buf / set_lag     the channel with x appended / with the lagged flag set
     cop, cstep, crun       an abstract run of ONE channel (pushes, polls, either end dropped) recording what was
                            pushed, accepted and polled
     prefix a b             exists rest, a ++ rest = b
     sub_chan s sid         the channel of the subscription named sid: subs[sid] = rid, requests[rid] = KSub _ ch _
     pending_msgs s         the messages on their way to the send task (queue, then blocked senders)
     is_notif, notif_step   subscription / close / plain notifications and their effect on the state
     run_frames s frs       the read task handling the frames frs one after the other
     ungated s              gated = false, dead = false, dying = None, sendfail = false, busy = false: nothing blocks or
                            ends the send task
     frame s q w u          s with queue := q, waiting := w, unsubw := u (handle_front neither reads nor writes them)
     process s msgs         handle_front folded over msgs: final state and the concatenated outputs
     marks tags u           unsubw after the blocked senders with these tags were admitted to the queue
     wires_of o             the frames written among the outputs o  *)
From Coq Require Import List NArith ZArith Bool Lia.
From JV Require Import Base.Bytes Base.Dec Model.Wire Model.ClientMgr Proofs.ClientDispatchFacts Proofs.ClientMgrC05.
Import ListNotations.
Local Open Scope N_scope.


Theorem C05_send_accepted_iff : forall c x, snd (chan_send c x) = SentOk <-> accepts c.
Proof.
  intros c x. destruct (chan_send_cases c x) as [[Ha ->]|[[H ->]|[[H ->]|[H ->]]]]; cbn [snd].
  - split; auto.
  - split; [discriminate | intros [? _]; congruence].
  - split; [discriminate | intros [_ [? _]]; congruence].
  - split; [discriminate | intros [_ [_ ?]]; lia].
Qed.
Print Assumptions C05_send_accepted_iff.

Theorem C05_send_appends : forall c x, accepts c -> chan_send c x = (push_buf c x, SentOk).
Proof. exact chan_send_accept. Qed.
Print Assumptions C05_send_appends.

Theorem C05_send_refused : forall c x, ~ accepts c ->
  snd (chan_send c x) <> SentOk /\ c_buf (fst (chan_send c x)) = c_buf c /\
  c_rx (fst (chan_send c x)) = c_rx c /\ c_tx (fst (chan_send c x)) = c_tx c /\ c_cap (fst (chan_send c x)) = c_cap c.
Proof.
  intros c x Hn.
  destruct (chan_send_cases c x) as [[Ha _]|[[_ ->]|[[_ ->]|[_ ->]]]]; [contradiction|..]; repeat split; discriminate.
Qed.
Print Assumptions C05_send_refused.

Theorem C05_poll_head : forall c x b, c_rx c = true -> c_buf c = x :: b ->
  chan_poll c = ({| c_cap := c_cap c; c_buf := b; c_tx := c_tx c; c_rx := true; c_lag := c_lag c |}, NItem x).
Proof. intros c x b H1 H2. unfold chan_poll. rewrite H1, H2. reflexivity. Qed.
Print Assumptions C05_poll_head.

Theorem C05_poll_next_is_chan_poll : forall s sh c, chan_of s sh = Some c ->
  snd (poll_next s sh) = snd (chan_poll c) /\
  chan_of (fst (poll_next s sh)) sh = Some (fst (chan_poll c)) /\
  (forall h, h <> sh -> chan_of (fst (poll_next s sh)) h = chan_of s h) /\
  m (fst (poll_next s sh)) = m s.
Proof.
  intros s sh c H. unfold poll_next, chan_poll. rewrite H.
  destruct (c_rx c); simpl; [|auto].
  destruct (c_buf c) as [|x b]; simpl.
  - destruct (c_tx c); simpl; auto.
  - split; [reflexivity|]. split; [apply chan_of_set_same|]. split; [|reflexivity].
    intros h Hn. now apply chan_of_set_other.
Qed.
Print Assumptions C05_poll_next_is_chan_poll.

(* every run of one channel: polled is a prefix of accepted, accepted a prefix of pushed -- the whole of it as long as
   the channel is neither lagged nor dropped *)
Theorem C05_fifo : forall (cap : nat) (ops : list cop),
  let t := crun (cinit cap) ops in
  (c_rx (r_chan t) = true -> r_polled t ++ c_buf (r_chan t) = r_accepted t) /\
  prefix (r_polled t) (r_accepted t) /\
  prefix (r_accepted t) (r_pushed t) /\
  (c_lag (r_chan t) = false -> c_rx (r_chan t) = true -> r_accepted t = r_pushed t) /\
  (length (c_buf (r_chan t)) <= cap)%nat.
Proof.
  intros cap ops t. subst t. destruct (cinv_run cap ops _ (cinv_init cap)) as [_ Hlen Hlive _ Hpol Hacc Hall]. auto.
Qed.
Print Assumptions C05_fifo.


Theorem C05_lag_is_final : forall t ops, c_lag (r_chan t) = true ->
  c_lag (r_chan (crun t ops)) = true /\ r_accepted (crun t ops) = r_accepted t.
Proof.
  intros t ops; revert t. induction ops as [|o ops IH]; intros t H; [auto|].
  destruct (lag_step t o H) as [H1 H2]. destruct (IH _ H1) as [H3 H4]. simpl. rewrite H3, H4, H2. auto.
Qed.
Print Assumptions C05_lag_is_final.

Theorem C05_lagged_send_refused : forall c x, c_lag c = true -> chan_send c x = (c, SentTooSlow).
Proof. exact chan_send_lagged. Qed.
Print Assumptions C05_lagged_send_refused.

(* capacity n with n unread items: the next push is dropped and sets the flag, later pushes change nothing, and once
   the sender is gone the consumer reads the n items and then the end, reason lagged *)
Theorem C05_lag_scenario : forall c x,
  c_lag c = false -> c_rx c = true -> length (c_buf c) = c_cap c ->
  chan_send c x = (set_lag c, SentTooSlow) /\
  (forall y, chan_send (set_lag c) y = (set_lag c, SentTooSlow)) /\
  snd (polls (chan_drop_tx (set_lag c)) (S (length (c_buf c)))) = map NItem (c_buf c) ++ [NEndLagged].
Proof.
  intros c x H1 H2 H3. split; [apply chan_send_full; auto; lia|]. split.
  - intro y. now apply chan_send_lagged.
  - apply (drain_then_end (chan_drop_tx (set_lag c))); [exact H2|reflexivity].
Qed.
Print Assumptions C05_lag_scenario.

(* the same in the client state: the dropped push leaves the tables alone, sets the flag on that subscription's channel,
   sends one MSubClosed naming it towards the send task; further pushes for it change nothing; when the send task
   handles the message the sender is dropped, and the consumer drains its n items and gets NEndLagged *)
Theorem C05_lag_closes_stream : forall s sid ch c p,
  sub_chan s sid = Some ch -> chan_of s ch = Some c ->
  c_lag c = false -> c_rx c = true -> length (c_buf c) = c_cap c ->
  let s1 := sub_deliver s sid p in
  m s1 = m s /\
  chan_of s1 ch = Some (set_lag c) /\
  pending_msgs s1 = pending_msgs s ++ [MSubClosed sid] /\
  (forall q, chan_of (sub_deliver s1 sid q) ch = Some (set_lag c)) /\
  chan_of (fst (handle_front s1 (MSubClosed sid))) ch = Some (chan_drop_tx (set_lag c)) /\
  snd (polls (chan_drop_tx (set_lag c)) (S (length (c_buf c)))) = map NItem (c_buf c) ++ [NEndLagged].
Proof.
  intros s sid ch c p Hs Hc Hlag Hrx Hfull s1.
  destruct (C05_lag_scenario c p Hlag Hrx Hfull) as [Hsend [Hlater Hdrain]].
  destruct (sub_deliver_own_only s sid p) as [Hm Hown]. rewrite Hs in Hown. destruct Hown as [_ Hch].
  rewrite Hc in Hch. cbn [option_map] in Hch. rewrite Hsend in Hch. cbn [fst] in Hch. fold s1 in Hm, Hch.
  assert (Hs1 : sub_chan s1 sid = Some ch) by (rewrite (sub_chan_m s s1 sid Hm); exact Hs).
  split; [exact Hm|]. split; [exact Hch|]. split; [|split; [|split; [|exact Hdrain]]].
  - apply (refused_item_requests_unsubscribe s sid p ch c Hs Hc). rewrite Hsend. discriminate.
  - intro q. destruct (sub_deliver_own_only s1 sid q) as [_ Hown]. rewrite Hs1 in Hown. destruct Hown as [_ H].
    rewrite H, Hch. cbn [option_map]. now rewrite Hlater.
  - destruct (sub_chan_inv _ _ _ Hs1) as [rid [u [um [H1 H2]]]]. cbn [handle_front].
    destruct (do_unsubscribe_spec s1 sid rid u ch um H1 H2) as [_ [_ [_ [H _]]]]. rewrite H, Hch. reflexivity.
Qed.
Print Assumptions C05_lag_closes_stream.

(* a subscription notification never changes the tables, is the identity for an unknown id, and otherwise changes only
   the channel of the subscription it names -- by exactly `chan_send payload` *)
Theorem C05_own_only : forall s sid p,
  m (sub_deliver s sid p) = m s /\
  match sub_chan s sid with
  | None => sub_deliver s sid p = s
  | Some ch =>
    (forall h, h <> ch -> chan_of (sub_deliver s sid p) h = chan_of s h) /\
    chan_of (sub_deliver s sid p) ch = option_map (fun c => fst (chan_send c p)) (chan_of s ch)
  end.
Proof. exact sub_deliver_own_only. Qed.
Print Assumptions C05_own_only.

Theorem C05_accepted_item_is_appended : forall s sid p ch c,
  sub_chan s sid = Some ch -> chan_of s ch = Some c -> snd (chan_send c p) = SentOk ->
  sub_deliver s sid p = set_chan s ch (push_buf c p).
Proof.
  intros s sid p ch c Hs Hc Hr. rewrite sub_deliver_eq, Hs, Hc, Hr.
  apply C05_send_accepted_iff in Hr. now rewrite chan_send_accept.
Qed.
Print Assumptions C05_accepted_item_is_appended.

Theorem C05_refused_item_requests_unsubscribe : forall s sid p ch c,
  sub_chan s sid = Some ch -> chan_of s ch = Some c -> snd (chan_send c p) <> SentOk ->
  pending_msgs (sub_deliver s sid p) = pending_msgs s ++ [MSubClosed sid].
Proof. exact refused_item_requests_unsubscribe. Qed.
Print Assumptions C05_refused_item_requests_unsubscribe.

Theorem C05_own_only_notification : forall s me p,
  requests (m (notif_deliver s me p)) = requests (m s) /\
  subs (m (notif_deliver s me p)) = subs (m s) /\
  batches (m (notif_deliver s me p)) = batches (m s) /\
  match alookup bytes_eqb me (nhandlers (m s)) with
  | None => notif_deliver s me p = s
  | Some ch => forall h, h <> ch -> chan_of (notif_deliver s me p) h = chan_of s h
  end.
Proof.
  intros s me p. unfold notif_deliver.
  destruct (alookup bytes_eqb me (nhandlers (m s))) as [ch|]; [|auto].
  destruct (chan_of s ch) as [c|]; [|auto].
  destruct (chan_send c _) as [c' r].
  destruct r; rewrite ?drop_sink_m; simpl; (repeat split; try reflexivity);
    intros h Hn; rewrite ?chan_of_drop_sink_other by exact Hn; unfold chan_of; simpl; now apply (alookup_aset_other N.eqb Neqb_ok).
Qed.
Print Assumptions C05_own_only_notification.


Theorem C05_array_of_notifications : forall s ms,
  forallb is_notif ms = true -> ms <> [] -> handle_back s (FArray ms) = ROk (fold_left notif_step ms s) [].
Proof. exact array_of_notifs. Qed.
Print Assumptions C05_array_of_notifications.

Theorem C05_single_notification : forall s x, is_notif x = true -> handle_back s (FSingle x) = ROk (notif_step s x) [].
Proof. exact handle_single_notif. Qed.
Print Assumptions C05_single_notification.

(* ANY way of cutting a sequence of notifications into consecutive non-empty arrays gives the state (hence the streams)
   that one frame per notification gives *)
Theorem C05_grouping_irrelevant : forall s (parts : list (list inmsg)),
  (forall p, In p parts -> p <> [] /\ forallb is_notif p = true) ->
  run_frames s (map FArray parts) = run_frames s (map FSingle (concat parts)) /\
  run_frames s (map FArray parts) = ROk (fold_left notif_step (concat parts) s) [].
Proof.
  intros s parts H. rewrite run_arrays by exact H. split; [|reflexivity].
  rewrite run_singles; [reflexivity|].
  apply forallb_forall. intros x Hx. apply in_concat in Hx as [p [Hp Hx]].
  destruct (H p Hp) as [_ Hf]. rewrite forallb_forall in Hf. now apply Hf.
Qed.
Print Assumptions C05_grouping_irrelevant.

Theorem C05_array_classified_elementwise : forall raw ts,
  raw_array raw = Some ts -> classify_frame raw = FArray (map classify_elem ts).
Proof.
  intros raw ts H. rewrite ClientDispatchFacts.classify_frame_now.
  assert (Hd : exists r, drop_while is_ascii_ws raw = x5b :: r).
  { unfold raw_array in H. destruct (skip_ws raw) as [|c s1] eqn:E; [discriminate|].
    destruct (beqb c x5b) eqn:Ec; [|discriminate]. apply byte_eqb_eq in Ec. subst c.
    exists s1. now apply skip_ws_drop_ascii. }
  destruct Hd as [r ->]. simpl. now rewrite H.
Qed.
Print Assumptions C05_array_classified_elementwise.


(* a close / error notification for an active subscription: its sender is dropped, its entries are forgotten (so
   nothing is delivered to it any more), no other channel changes *)
Theorem C05_close_ends_stream : forall s sid rid u ch um,
  alookup subid_eqb sid (subs (m s)) = Some rid -> req_lookup rid (m s) = Some (KSub u ch um) ->
  let s' := sub_close s sid in
  alookup subid_eqb sid (subs (m s')) = None /\
  req_lookup rid (m s') = None /\
  sub_chan s' sid = None /\
  chan_of s' ch = option_map chan_drop_tx (chan_of s ch) /\
  (forall h, h <> ch -> chan_of s' h = chan_of s h).
Proof.
  intros s sid rid u ch um H1 H2 s'. subst s'. unfold sub_close. rewrite H1, H2.
  assert (E : alookup subid_eqb sid (subs (m (drop_sink (upd_m s (release_reserved u
                (set_subs (set_requests (m s) (aremove id_eqb rid (requests (m s))))
                          (aremove subid_eqb sid (subs (m s)))))) ch))) = None).
  { rewrite drop_sink_m. cbn [m upd_m]. rewrite (proj1 (release_frame _ _)). simpl. apply (alookup_aremove_same subid_eqb subid_eqb_ok). }
  split; [exact E|]. split; [|split; [|split]].
  - rewrite drop_sink_m. cbn [m upd_m]. apply release_reserved_lookup_none.
    unfold req_lookup. simpl. apply (alookup_aremove_same id_eqb id_eqb_ok).
  - unfold sub_chan. now rewrite E.
  - rewrite chan_of_drop_sink. reflexivity.
  - intros h Hn. rewrite chan_of_drop_sink_other by exact Hn. reflexivity.
Qed.
Print Assumptions C05_close_ends_stream.

Theorem C05_close_unknown_is_identity : forall s sid, alookup subid_eqb sid (subs (m s)) = None -> sub_close s sid = s.
Proof. intros s sid H. unfold sub_close. now rewrite H. Qed.
Print Assumptions C05_close_unknown_is_identity.

(* a stream whose sender is gone: the buffered items in order, then the end -- lagged iff the flag is set *)
Theorem C05_closed_stream_drains : forall c, c_rx c = true ->
  snd (polls (chan_drop_tx c) (S (length (c_buf c)))) = map NItem (c_buf c) ++ [end_reason c].
Proof. intros c H. apply (drain_then_end (chan_drop_tx c)); [exact H|reflexivity]. Qed.
Print Assumptions C05_closed_stream_drains.

(* the connection ends: every stream loses its sender (buffers stay readable), all tables are empty *)
Theorem C05_connection_end : forall s f h,
  chan_of (fst (kill s f)) h = option_map chan_drop_tx (chan_of s h) /\
  m (fst (kill s f)) = empty_mgr /\ dead (fst (kill s f)) = true.
Proof. exact kill_closes_all. Qed.
Print Assumptions C05_connection_end.


(* the send task handling MSubClosed for an active subscription writes exactly one unsubscribe request naming it
   (unless that very write fails, which ends the connection), drops the sink and forgets the id *)
Theorem C05_unsubscribe_spec : forall s sid rid u ch um,
  alookup subid_eqb sid (subs (m s)) = Some rid -> req_lookup rid (m s) = Some (KSub u ch um) ->
  let r := do_unsubscribe s sid in
  snd r = (if sendfail s then [] else [OWire (unsub_request s u um sid)]) /\
  alookup subid_eqb sid (subs (m (fst r))) = None /\
  sub_chan (fst r) sid = None /\
  chan_of (fst r) ch = option_map chan_drop_tx (chan_of s ch) /\
  (forall h, h <> ch -> chan_of (fst r) h = chan_of s h).
Proof. exact do_unsubscribe_spec. Qed.
Print Assumptions C05_unsubscribe_spec.

Theorem C05_unknown_sub_closed_is_silent : forall s sid,
  alookup subid_eqb sid (subs (m s)) = None -> handle_front s (MSubClosed sid) = (s, []).
Proof. intros s sid H. unfold handle_front, do_unsubscribe. now rewrite H. Qed.
Print Assumptions C05_unknown_sub_closed_is_silent.

(* hence a second MSubClosed for the same subscription (lag + drop, unsubscribe + lag, ...) writes nothing *)
Theorem C05_unsubscribe_at_most_once : forall s sid rid u ch um,
  alookup subid_eqb sid (subs (m s)) = Some rid -> req_lookup rid (m s) = Some (KSub u ch um) ->
  let s1 := fst (handle_front s (MSubClosed sid)) in
  snd (handle_front s (MSubClosed sid)) = (if sendfail s then [] else [OWire (unsub_request s u um sid)]) /\
  handle_front s1 (MSubClosed sid) = (s1, []).
Proof.
  intros s sid rid u ch um H1 H2 s1. subst s1. cbn [handle_front].
  destruct (do_unsubscribe_spec s sid rid u ch um H1 H2) as [Ho [Hs _]]. split; [exact Ho|].
  now apply (C05_unknown_sub_closed_is_silent _ sid).
Qed.
Print Assumptions C05_unsubscribe_at_most_once.

(* dropping the stream value: the receiver goes away and MSubClosed is queued iff the queue has room *)
Theorem C05_drop : forall s sh sid c,
  dead s = false -> alookup N.eqb sh (subkind s) = Some (inl sid) -> chan_of s sh = Some c ->
  let s' := fst (fst (apply s (FDrop sh))) in
  snd (fst (apply s (FDrop sh))) = [] /\
  m s' = m s /\
  chan_of s' sh = Some (chan_drop_rx c) /\
  (forall h, h <> sh -> chan_of s' h = chan_of s h) /\
  waiting s' = waiting s /\
  queue s' = (if Nat.ltb (length (queue s)) (qcap s) then queue s ++ [MSubClosed sid] else queue s).
Proof.
  intros s sh sid c Hd Hk Hc s'. subst s'. unfold apply. rewrite Hd. unfold close_msg_of. rewrite Hk, Hc.
  cbn [fst snd]. unfold try_enqueue. cbn [queue qcap set_chan upd_chans upd_subkind].
  destruct (Nat.ltb (length (queue s)) (qcap s)); cbn; (split; [reflexivity|]); (split; [reflexivity|]);
    (split; [apply (alookup_aset_same N.eqb Neqb_ok)|]); (split; [|auto]);
    intros h Hn; now apply (alookup_aset_other N.eqb Neqb_ok).
Qed.
Print Assumptions C05_drop.

(* ... and if it was not, the next notification for that subscription finds the receiver gone, delivers nothing, and
   sends MSubClosed itself *)
Theorem C05_next_notification_after_drop : forall s sid p ch c,
  sub_chan s sid = Some ch -> chan_of s ch = Some c -> c_rx c = false ->
  pending_msgs (sub_deliver s sid p) = pending_msgs s ++ [MSubClosed sid] /\
  option_map c_buf (chan_of (sub_deliver s sid p) ch) = Some (c_buf c).
Proof.
  intros s sid p ch c Hs Hc Hrx.
  assert (Hna : ~ accepts c) by (intros [_ [H _]]; congruence).
  destruct (C05_send_refused c p Hna) as [Hr [Hb _]]. split.
  - now apply (C05_refused_item_requests_unsubscribe s sid p ch c).
  - destruct (C05_own_only s sid p) as [_ H]. rewrite Hs in H. destruct H as [_ H].
    rewrite H, Hc. simpl. now rewrite Hb.
Qed.
Print Assumptions C05_next_notification_after_drop.


(* when nothing blocks it, the send task handles EVERY queued and blocked message, in order (state and outputs are the
   fold of handle_front over queue ++ blocked senders), and ends with an empty inbox *)
Theorem C05_drain_ungated : forall fuel s,
  ungated s -> (0 < qcap s)%nat -> (length (pending_msgs s) < fuel)%nat ->
  drain fuel s =
  (frame (fst (process s (pending_msgs s))) [] [] (marks (map snd (waiting s)) (unsubw s)),
   snd (process s (pending_msgs s))).
Proof. exact drain_ungated. Qed.
Print Assumptions C05_drain_ungated.

(* hence `settle` (run after every event, with exactly that fuel) is: handle everything pending, then complete the
   unsubscribe() futures that are done; the five flags and the capacity are preserved *)
Theorem C05_settle_ungated : forall s, ungated s -> (0 < qcap s)%nat ->
  let P := process s (pending_msgs s) in
  let D := frame (fst P) [] [] (marks (map snd (waiting s)) (unsubw s)) in
  settle s = (fst (finish_unsubs D), snd P ++ snd (finish_unsubs D)) /\
  ungated D /\ qcap D = qcap s.
Proof. exact settle_ungated. Qed.
Print Assumptions C05_settle_ungated.

Theorem C05_settle_quiescent : forall s, ungated s -> (0 < qcap s)%nat ->
  queue (fst (settle s)) = [] /\ waiting (fst (settle s)) = [] /\ ungated (fst (settle s)) /\
  qcap (fst (settle s)) = qcap s.
Proof. exact settle_quiescent. Qed.
Print Assumptions C05_settle_quiescent.

(* a push for an active subscription that its channel refuses (lagged, full, or receiver gone), arriving in a state
   whose send task is idle: within that very step exactly one frame is written, the unsubscribe request naming sid, the
   subscription is forgotten, and the inbox is empty again *)
Theorem C05_lag_unsubscribes_exactly_once : forall s raw me sid p rid u ch um c,
  ungated s -> (0 < qcap s)%nat -> queue s = [] -> waiting s = [] ->
  classify_frame raw = FSingle (ISubNotif me sid p) ->
  alookup subid_eqb sid (subs (m s)) = Some rid -> req_lookup rid (m s) = Some (KSub u ch um) ->
  chan_of s ch = Some c -> snd (chan_send c p) <> SentOk ->
  let r := fst (step s (Back raw)) in
  wires_of (snd r) = [unsub_request s u um sid] /\
  (unsubw s = [] -> snd r = [OWire (unsub_request s u um sid)]) /\
  alookup subid_eqb sid (subs (m (fst r))) = None /\
  queue (fst r) = [] /\ waiting (fst r) = [].
Proof.
  intros s raw me sid p rid u ch um c Hu Hq Hqu Hw Hcls H1 H2 Hc Hr r. subst r.
  pose proof (sub_chan_of_lookups _ _ _ _ _ _ H1 H2) as Hs.
  unfold step, apply. destruct Hu as [Hg [Hd [Hdy [Hsf Hb]]]]. rewrite Hd, Hdy, Hcls.
  rewrite ClientDispatchFacts.handle_back_now; cbn [ClientDispatchFacts.handle_back_ref ClientDispatchFacts.handle_elem_single_ref].
  rewrite (sub_deliver_refused_room s sid p ch c Hs Hc Hr Hqu Hw Hq).
  set (s1 := frame _ _ _ _).
  assert (Hu1 : ungated s1) by (unfold ungated; auto).
  pose proof (settle_sub_closed_once s1 sid rid u ch um Hu1 Hq eq_refl eq_refl H1 H2) as H.
  destruct (settle s1) as [s2 o2]. exact H.
Qed.
Print Assumptions C05_lag_unsubscribes_exactly_once.

(* explicit unsubscribe of an established subscription (its stream handle sh is its channel): exactly one unsubscribe
   frame for sid, and the caller's future completes in the same step *)
Theorem C05_explicit_unsubscribe_completes : forall s h sh sid rid u um,
  ungated s -> (0 < qcap s)%nat -> queue s = [] -> waiting s = [] ->
  alookup N.eqb sh (subkind s) = Some (inl sid) ->
  alookup subid_eqb sid (subs (m s)) = Some rid -> req_lookup rid (m s) = Some (KSub u sh um) ->
  alive s h = true ->
  let r := fst (step s (FUnsub h sh)) in
  wires_of (snd r) = [unsub_request s u um sid] /\
  In (OComplete h CDone) (snd r) /\
  (unsubw s = [] -> snd r = [OWire (unsub_request s u um sid); OComplete h CDone]) /\
  alookup subid_eqb sid (subs (m (fst r))) = None /\
  queue (fst r) = [] /\ waiting (fst r) = [].
Proof.
  intros s h sh sid rid u um Hu Hq Hqu Hw Hk H1 H2 Hal r. subst r.
  unfold step, apply. destruct Hu as [Hg [Hd [Hdy [Hsf Hb]]]]. rewrite Hd. unfold close_msg_of. rewrite Hk.
  set (s0 := upd_unsubw _ _).
  rewrite (enqueue_tagged_room s0 (MSubClosed sid) (Some h) Hqu Hw Hq).
  set (s1 := frame _ _ _ _).
  assert (Hu1 : ungated s1) by (unfold ungated; auto).
  assert (Hq1 : (0 < qcap s1)%nat) by exact Hq.
  destruct (settle_sub_closed s1 sid rid u sh um Hu1 Hq1 eq_refl eq_refl H1 H2) as [E [Hwi [Hsu [Hch Hgo]]]].
  destruct (settle_quiescent s1 Hu1 Hq1) as [Hq0 [Hw0 _]].
  set (D := frame (fst (do_unsubscribe s1 sid)) [] [] (unsubw s1)) in *.
  assert (Hdone : unsub_done D (h, sh, true) = true).
  { unfold unsub_done. rewrite Hch. destruct (chan_of s1 sh); reflexivity. }
  assert (Hcomp : complete D h CDone = [OComplete h CDone]).
  { unfold complete, alive. rewrite Hgo. change (gone s1) with (gone s). unfold alive in Hal. now rewrite Hal. }
  destruct (settle s1) as [s2 o2]. cbn [fst snd app] in *. apply (f_equal snd) in E. cbn [snd] in E. subst o2.
  split; [exact Hwi|]. split; [|split; [|auto]].
  - right. unfold finish_unsubs. cbn [snd]. apply in_flat_map. exists (h, sh, true). split.
    + apply filter_In. split; [|exact Hdone]. apply in_mark_admitted.
    + rewrite Hcomp. now left.
  - intro Hun. f_equal. unfold finish_unsubs. cbn [snd].
    assert (HU : unsubw D = [(h, sh, true)]).
    { cbn. rewrite Hun. cbn. now rewrite N.eqb_refl. }
    rewrite HU. cbn [filter]. rewrite Hdone. cbn [flat_map]. rewrite Hcomp. reflexivity.
Qed.
Print Assumptions C05_explicit_unsubscribe_completes.

(* dropping the stream while the queue has room: exactly one unsubscribe frame, in the same step *)
Theorem C05_drop_unsubscribes_exactly_once : forall s sh sid c rid u ch um,
  ungated s -> (0 < qcap s)%nat -> queue s = [] -> waiting s = [] ->
  alookup N.eqb sh (subkind s) = Some (inl sid) -> chan_of s sh = Some c ->
  alookup subid_eqb sid (subs (m s)) = Some rid -> req_lookup rid (m s) = Some (KSub u ch um) ->
  let r := fst (step s (FDrop sh)) in
  wires_of (snd r) = [unsub_request s u um sid] /\
  (unsubw s = [] -> snd r = [OWire (unsub_request s u um sid)]) /\
  alookup subid_eqb sid (subs (m (fst r))) = None /\
  queue (fst r) = [] /\ waiting (fst r) = [].
Proof.
  intros s sh sid c rid u ch um Hu Hq Hqu Hw Hk Hc H1 H2 r. subst r.
  unfold step, apply. destruct Hu as [Hg [Hd [Hdy [Hsf Hb]]]]. rewrite Hd. unfold close_msg_of. rewrite Hk, Hc.
  set (s0 := set_chan _ _ _).
  rewrite (try_enqueue_room s0 (MSubClosed sid) Hqu Hw Hq).
  set (s1 := frame _ _ _ _).
  assert (Hu1 : ungated s1) by (unfold ungated; auto).
  pose proof (settle_sub_closed_once s1 sid rid u ch um Hu1 Hq eq_refl eq_refl H1 H2) as H.
  destruct (settle s1) as [s2 o2]. exact H.
Qed.
Print Assumptions C05_drop_unsubscribes_exactly_once.

Definition sub1 : ev := FSubscribe 1 b#"sub" b#"unsub" None.
Definition sub2 : ev := FSubscribe 2 b#"sub" b#"unsub" None.
Definition ack1 : ev := Back b#"{""jsonrpc"":""2.0"",""id"":0,""result"":7}".
Definition ack2 : ev := Back b#"{""jsonrpc"":""2.0"",""id"":2,""result"":""s8""}".
Definition n7 (v : bytes) : bytes := b#"{""jsonrpc"":""2.0"",""method"":""sub"",""params"":{""subscription"":7,""result"":" ++ v ++ b#"}}".
Definition n8 (v : bytes) : bytes := b#"{""jsonrpc"":""2.0"",""method"":""sub"",""params"":{""subscription"":""s8"",""result"":" ++ v ++ b#"}}".
Definition e7 : bytes := b#"{""jsonrpc"":""2.0"",""method"":""sub"",""params"":{""subscription"":7,""error"":""bye""}}".
Definition n99 : bytes := b#"{""jsonrpc"":""2.0"",""method"":""sub"",""params"":{""subscription"":99,""result"":0}}".
Definition arr (l : list bytes) : bytes := x5b :: join [x2c] l ++ [x5d].
Definition nexts (s0 : st) (es : list ev) : list nextres :=
  flat_map (fun x => match snd x with Some r => [r] | None => [] end) (snd (run s0 es)).
Definition wires (s0 : st) (es : list ev) : list bytes :=
  flat_map (fun x => flat_map (fun o => match o with OWire w => [w] | _ => [] end) (fst x)) (snd (run s0 es)).
Definition unsub7 : bytes := b#"{""jsonrpc"":""2.0"",""id"":1,""method"":""unsub"",""params"":[7]}".
Definition subreq : bytes := b#"{""jsonrpc"":""2.0"",""id"":0,""method"":""sub""}".

(* two subscriptions, interleaved pushes and one for an unknown id: one frame each or packed in one array, each stream
   gets its own items in order *)
Example C05_witness_own_items_any_grouping :
  let s0 := init false 4 4 false in
  let pre := [sub1; ack1; sub2; ack2] in
  let polls5 := [FNext 1; FNext 1; FNext 1; FNext 2; FNext 2] in
  let singles := [Back (n7 b#"1"); Back (n8 b#"""x"""); Back n99; Back (n7 b#"2")] in
  let packed := [Back (arr [n7 b#"1"; n8 b#"""x"""; n99; n7 b#"2"])] in
  let split := [Back (arr [n7 b#"1"]); Back (arr [n8 b#"""x"""; n99; n7 b#"2"])] in
  nexts s0 (pre ++ singles ++ polls5) = [NItem b#"1"; NItem b#"2"; NPending; NItem b#"""x"""; NPending] /\
  nexts s0 (pre ++ packed ++ polls5) = nexts s0 (pre ++ singles ++ polls5) /\
  nexts s0 (pre ++ split ++ polls5) = nexts s0 (pre ++ singles ++ polls5) /\
  fst (run s0 (pre ++ packed)) = fst (run s0 (pre ++ singles)) /\
  fst (run s0 (pre ++ split)) = fst (run s0 (pre ++ singles)).
Proof. vm_compute. repeat split. Qed.

(* buffer 1: push 1 is kept, push 2 is dropped (one unsubscribe goes out), push 3 is dropped too; the stream is 1, end(lagged) *)
Example C05_witness_lag :
  let s0 := init false 4 1 false in
  let es := [sub1; ack1; Back (n7 b#"1"); Back (n7 b#"2"); Back (n7 b#"3"); FNext 1; FNext 1] in
  nexts s0 es = [NItem b#"1"; NEndLagged] /\ wires s0 es = [subreq; unsub7].
Proof. vm_compute. split; reflexivity. Qed.

(* a close notification inside an array ends the stream there; the tables are empty afterwards *)
Example C05_witness_close_in_array :
  let s0 := init false 4 4 false in
  let es := [sub1; ack1; Back (arr [n7 b#"1"; e7; n7 b#"2"]); FNext 1; FNext 1; FNext 1] in
  nexts s0 es = [NItem b#"1"; NEndClosed; NEndClosed] /\ table_sizes (fst (run s0 es)) = (0, 0, 0, 0).
Proof. vm_compute. split; reflexivity. Qed.

(* drop with room in the queue: one unsubscribe at once, none later.  Drop with a full queue (capacity 1, send task
   blocked in a write): nothing at the drop, exactly one unsubscribe at the next notification, none at the one after *)
Example C05_witness_drop :
  wires (init false 4 4 false) [sub1; ack1; FDrop 1; Back (n7 b#"1")] = [subreq; unsub7] /\
  let es := [sub1; Release; ack1; FCall 5 b#"a" None; FCall 6 b#"a" None; FDrop 1; Release; Release] in
  wires (init false 1 4 true) es
    = [subreq; b#"{""jsonrpc"":""2.0"",""id"":2,""method"":""a""}"; b#"{""jsonrpc"":""2.0"",""id"":3,""method"":""a""}"] /\
  wires (init false 1 4 true) (es ++ [Back (n7 b#"1"); Release; Back (n7 b#"2")])
    = wires (init false 1 4 true) es ++ [unsub7].
Proof. vm_compute. repeat split. Qed.

(* explicit unsubscribe: one request, the future completes, later pushes are ignored *)
Example C05_witness_unsubscribe :
  let s0 := init false 4 4 false in
  let es := [sub1; ack1; Back (n7 b#"1"); FUnsub 9 1; Back (n7 b#"2")] in
  wires s0 es = [subreq; unsub7] /\
  nth 3 (snd (run s0 es)) ([], None) = ([OWire unsub7; OComplete 9 CDone], None).
Proof. vm_compute. split; reflexivity. Qed.

From JV Require Import Base.Utf8 Proofs.WireFacts Proofs.ClientWire.

Theorem C05_push_frame_classified : forall (me : bytes) (sid : subid) (raw : bytes),
  utf8_valid me = true -> wf_subid sid -> raw_payload raw ->
  classify_frame (ser_sub_notif me sid false raw) = FSingle (ISubNotif me sid raw).
Proof. exact classify_frame_sub_notif. Qed.
Print Assumptions C05_push_frame_classified.

Theorem C05_close_frame_classified : forall (me : bytes) (sid : subid) (raw : bytes),
  utf8_valid me = true -> wf_subid sid -> raw_payload raw ->
  classify_frame (ser_sub_notif me sid true raw) = FSingle (ISubErr me sid raw).
Proof. exact classify_frame_sub_close. Qed.
Print Assumptions C05_close_frame_classified.

(* the same for an ELEMENT of an array (the reader chain of the loop is read from the source separately from the one
   of a whole message: Proofs/ClientWireElem.v) *)
From JV Require Import Proofs.ClientWireElem.
Theorem C05_push_element_classified : forall (me : bytes) (sid : subid) (raw : bytes),
  utf8_valid me = true -> wf_subid sid -> raw_payload raw ->
  classify_elem (ser_sub_notif me sid false raw) = ISubNotif me sid raw.
Proof. exact classify_elem_sub_notif. Qed.
Print Assumptions C05_push_element_classified.

Theorem C05_close_element_classified : forall (me : bytes) (sid : subid) (raw : bytes),
  utf8_valid me = true -> wf_subid sid -> raw_payload raw ->
  classify_elem (ser_sub_notif me sid true raw) = ISubErr me sid raw.
Proof. exact classify_elem_sub_close. Qed.
Print Assumptions C05_close_element_classified.

(* the dispatch of handle_recv_message is READ FROM THE SOURCE (tools/translators/client_dispatch.py ->
   Gen/ClientDispatchGen.client_dispatch; Model/ClientDispatch.v is its alphabet) and interpreted by Model/ClientMgr.v:
     classify_frame_with d / handle_back_with d    the classifier / the frame handler under the dispatch d
                                                   (classify_frame, handle_back = these at client_dispatch)
     read_with d s raw                             handle_back_with d s (classify_frame_with d raw)
     reorder_readers rs d                          d with the readers of both tables tried in the order rs, arms unchanged
     array_run s ms acc rng got                    the loop of the array arm under client_dispatch: inl (state, batch, range,
                                                   got_notif) after the last element, or inr (the value the function
                                                   returned from inside the loop) *)
From JV Require Import Model.ClientDispatch Gen.ClientDispatchGen.

(* the dependency on the ORDER of the readers is real: with Notification tried before SubscriptionResponse (everything
   else as in the source) a notification of an active subscription with room in its stream is NOT delivered to it *)
Theorem C05_dispatch_order_matters :
  let d_swapped := reorder_readers [TryResponse; TryNotification; TrySubResponse; TrySubError] client_dispatch in
  exists (s : st) (raw : bytes) (sid : subid) (ch : handle) (c : chan) (item : bytes),
    sub_chan s sid = Some ch /\ chan_of s ch = Some c /\ accepts c /\
    classify_frame raw = FSingle (ISubNotif b#"sub" sid item) /\
    (exists s1, read_with client_dispatch s raw = ROk s1 [] /\ chan_of s1 ch = Some (push_buf c item)) /\
    (exists s1, read_with client_dispatch s (x5b :: raw ++ [x5d]) = ROk s1 [] /\ chan_of s1 ch = Some (push_buf c item)) /\
    (exists s2, read_with d_swapped s raw = ROk s2 [] /\ chan_of s2 ch = Some c) /\
    (exists s2, read_with d_swapped s (x5b :: raw ++ [x5d]) = ROk s2 [] /\ chan_of s2 ch = Some c).
Proof.
  exists ow_state, ow_push, (SubNum 7), 1, (new_chan 4), b#"1".
  vm_compute. repeat split; try (eexists; split; reflexivity); auto.
Qed.
Print Assumptions C05_dispatch_order_matters.

(* a close requested while element i of an array is handled (the item was refused: C05_refused_item_requests_unsubscribe)
   is PUSHED, not returned: the elements after it are handled all the same, from the state `sub_deliver` left, with the
   batch and the range collected so far *)
Theorem C05_array_close_is_pushed : forall s pre me sid p post acc rng got,
  array_run s (pre ++ ISubNotif me sid p :: post) acc rng got =
  match array_run s pre acc rng got with
  | inl (s1, acc1, rng1, got1) => array_run (sub_deliver s1 sid p) post acc1 rng1 true
  | inr r => inr r
  end.
Proof.
  intros. unfold array_run at 1 2. rewrite array_run_with_app.
  destruct (array_run_with client_dispatch s pre acc rng got) as [[[[s1 a1] r1] g1]|r]; [|reflexivity].
  apply array_run_sub_notif.
Qed.
Print Assumptions C05_array_close_is_pushed.
