(* C14 -- the property theorems; the lemmas their proofs rest on are in Proofs/HostFilterFacts.v.  The statements are
   recorded in tools/pinned/C14.statements.
   Specification (Proofs/HostFilterFacts.v): host_matches pat h (tokens of the pattern vs. a split of the host; no routes,
   states or ranking), port_matches, valid_sel / total_sel (the choice among several accepting routes is ANY function
   that returns one of them).  Model: Model/HostFilter.v. *)
From JV Require Import Base.Bytes Gen.PortsGen Model.HostFilter Proofs.HostFilterFacts.
Local Open Scope N_scope.

(* a request is passed on only if its single authority matches some configured entry in host and in port --
   whatever route the router picks when several accept *)
Theorem C14_sound : forall sel al q, valid_sel sel -> decide_with sel (Some al) q = Forward ->
  exists a e, authority_of q = Some a /\ In e al /\ host_matches (a_host e) (a_host a) /\ port_matches (a_port e) (a_port a).
Proof. intros sel al q Hsel H. pose proof (decide_cases sel al q Hsel) as C. rewrite H in C. exact C. Qed.
Print Assumptions C14_sound.

(* the same at the service: the inner (RPC) service is called only for such requests *)
Theorem C14_service_sound : forall (inner : request -> N) sel al q, valid_sel sel -> snd (call_with inner sel (Some al) q) <> [] ->
  exists a e, authority_of q = Some a /\ In e al /\ host_matches (a_host e) (a_host a) /\ port_matches (a_port e) (a_port a).
Proof.
  intros inner sel al q Hsel H. apply (C14_sound sel al q Hsel).
  unfold call_with in H. destruct (decide_with sel (Some al) q); [reflexivity | contradiction H; reflexivity ..].
Qed.
Print Assumptions C14_service_sound.

(* the library's own choice (best Metadata, earliest thread) is such a function, and it always picks something *)
Theorem C14_library_selection_valid : valid_sel lib_select /\ total_sel lib_select.
Proof. exact (conj lib_select_valid lib_select_total). Qed.
Print Assumptions C14_library_selection_valid.

Theorem C14_no_authority_400 : forall sel filter q, decide_with sel filter q = Reject400 <-> authority_of q = None.
Proof. exact decide_400_iff. Qed.
Print Assumptions C14_no_authority_400.

(* "single authority": it comes from the Host header or the request-target, and every one of the two that parses gives it *)
Theorem C14_single_authority : forall q a, authority_of q = Some a ->
  (host_source q = Some (Some a) \/ uri_source q = Some (Some a))
  /\ (forall b, host_source q = Some (Some b) -> b = a)
  /\ (forall b, uri_source q = Some (Some b) -> b = a).
Proof.
  unfold authority_of. intros q a H.
  destruct (host_source q) as [[a1|]|], (uri_source q) as [[a2|]|]; try discriminate H.
  (* both sources parse: they are equal *)
  1: destruct (authority_eqb a1 a2) eqn:E; [apply authority_eqb_eq in E; subst a2 | discriminate H].
  (* in each of the five ways to have an authority, it is what every source that parses gives *)
  all: inversion H; subst a; intuition congruence.
Qed.
Print Assumptions C14_single_authority.

Theorem C14_disagreement_400 : forall sel filter q a1 a2,
  host_source q = Some (Some a1) -> uri_source q = Some (Some a2) -> a1 <> a2 -> decide_with sel filter q = Reject400.
Proof. intros sel filter q a1 a2 H1 H2 Hne. apply decide_400_iff. exact (authority_of_disagree q a1 a2 H1 H2 Hne). Qed.
Print Assumptions C14_disagreement_400.

(* a refusal is answered by the filter itself (403 / 400) and no handler runs *)
Theorem C14_reject_runs_nothing : forall (inner : request -> N) sel filter q,
  (decide_with sel filter q = Reject403 -> call_with inner sel filter q = (403, []))
  /\ (decide_with sel filter q = Reject400 -> call_with inner sel filter q = (400, []))
  /\ (snd (call_with inner sel filter q) = [] <-> decide_with sel filter q <> Forward).
Proof. exact reject_runs_nothing. Qed.
Print Assumptions C14_reject_runs_nothing.

Theorem C14_single_entry_complete : forall sel e q a, valid_sel sel -> total_sel sel ->
  authority_of q = Some a -> host_matches (a_host e) (a_host a) -> port_matches (a_port e) (a_port a) ->
  decide_with sel (Some [e]) q = Forward.
Proof.
  intros sel e q a Hv Ht Ha Hh Hp. unfold decide_with. rewrite Ha.
  change (mk_router [e]) with [mk_route (a_host e, [a_port e])].
  unfold wl_recognize_with, recognize_with.
  (* the one route is a candidate, so a total selection returns something, and a valid one returns that route *)
  apply (host_matches_run _ [a_port e]) in Hh.
  destruct (sel (candidates (run_threads [mk_route (a_host e, [a_port e])] (a_host a)))) as [r|] eqn:Es.
  - apply Hv, single_route_only in Es. subst r. cbn [mk_route r_ports snd existsb].
    apply port_allows_spec in Hp. rewrite Hp. reflexivity.
  - exfalso. exact (Ht _ Hh Es).
Qed.
Print Assumptions C14_single_entry_complete.

(* the default-port table read from authority.rs::default_port still says what the property assumes *)
Theorem C14_default_ports_wellknown :
  default_port (Some b#"http") = Some 80 /\ default_port (Some b#"ws") = Some 80 /\
  default_port (Some b#"https") = Some 443 /\ default_port (Some b#"wss") = Some 443 /\
  default_port None = None.
Proof. repeat split; reflexivity. Qed.
Print Assumptions C14_default_ports_wellknown.

(* hosts are cut from a URI authority and never contain '/' (the router's leading-'/' strip is unreachable) *)
Theorem C14_host_without_slash : forall s a, parse_authority s = Some a -> ~ In x2f (a_host a).
Proof. exact parse_authority_host_no_slash. Qed.
Print Assumptions C14_host_without_slash.

(* "every other request is answered 403": a single authority that matches no configured entry is refused *)
Theorem C14_no_match_403 : forall sel al q a, valid_sel sel -> authority_of q = Some a ->
  (forall e, In e al -> ~ (host_matches (a_host e) (a_host a) /\ port_matches (a_port e) (a_port a))) ->
  decide_with sel (Some al) q = Reject403.
Proof.
  intros sel al q a Hsel Ha Hno. pose proof (decide_cases sel al q Hsel) as C. rewrite Ha in C.
  destruct (decide_with sel (Some al) q); [exfalso | reflexivity | discriminate C].
  destruct C as (a' & e & Ea & He & Hm). inversion Ea; subst a'. exact (Hno e He Hm).
Qed.
Print Assumptions C14_no_match_403.

Theorem C14_trichotomy : forall sel al q, valid_sel sel ->
  (decide_with sel (Some al) q = Reject400 /\ authority_of q = None)
  \/ (decide_with sel (Some al) q = Reject403 /\ exists a, authority_of q = Some a)
  \/ (decide_with sel (Some al) q = Forward /\ exists a e, authority_of q = Some a /\ In e al /\
       host_matches (a_host e) (a_host a) /\ port_matches (a_port e) (a_port a)).
Proof.
  intros sel al q Hsel. pose proof (decide_cases sel al q Hsel) as C.
  destruct (decide_with sel (Some al) q); [right; right | right; left | left]; (split; [reflexivity | exact C]).
Qed.
Print Assumptions C14_trichotomy.

(* filter switched off (HostFilterLayer::disable): exactly the requests with a single authority are passed on *)
Theorem C14_disabled_forwards : forall sel q, decide_with sel None q = Forward <-> authority_of q <> None.
Proof. intros sel q. unfold decide_with. destruct (authority_of q); intuition congruence. Qed.
Print Assumptions C14_disabled_forwards.

(* non-vacuity: the specification, each answer of the filter, and the shadowing that limits completeness *)
Definition rq (host : bytes) (target_authority : bytes) : request := {| q_hosts := [host]; q_uri_auth := target_authority |}.

Example C14_spec_nonvacuous :
  host_matches b#"*.web3.site" b#"parity.web3.site" /\ host_matches b#"*.web3.site" b#"a.b.web3.site"
  /\ ~ host_matches b#"*.web3.site" b#"web3.site" /\ ~ host_matches b#"parity.io" b#"Parity.io"
  /\ host_matches b#"[1.:x]" b#"[1.zz.z]" /\ host_matches b#"a..b" b#"a..b" /\ ~ host_matches b#"a.*" b#"a.".
Proof.
  repeat split; try (apply (host_matches_run _ []); vm_compute; discriminate);
    (intro H; apply (host_matches_run _ []) in H; vm_compute in H; apply H; reflexivity).
Qed.

Example C14_admits_nonvacuous :
  decide (parse_all [b#"*.web3.site:*"; b#"https://parity.io:443"]) (rq b#"parity.io" []) = Forward
  /\ decide (parse_all [b#"*.web3.site:*"; b#"https://parity.io:443"]) (rq b#"x.web3.site:8180" b#"x.web3.site:8180") = Forward
  /\ decide (parse_all [b#"parity.io"]) (rq b#"parity.io:80" []) = Reject403
  /\ decide (parse_all [b#"parity.io"]) (rq b#"u:pw@h" []) = Reject400
  /\ decide (parse_all [b#"parity.io"]) (rq b#"parity.io:9999" b#"parity.io") = Reject400
  /\ decide (parse_all [b#"parity.io"]) (rq b#"bad host" b#"parity.io") = Forward.
Proof. vm_compute. repeat split; reflexivity. Qed.

(* why completeness is claimed for a single entry only: `*x.com` and `*y.com` share one route end state, the later
   insertion replaces the port list, and `q.com:1` -- which matches the first entry -- is refused *)
Example C14_shadowed_entry_witness :
  exists al q a e, parse_all [b#"*x.com:1"; b#"*y.com:2"] = Some al /\ authority_of q = Some a /\ In e al
    /\ host_matches (a_host e) (a_host a) /\ port_matches (a_port e) (a_port a) /\ decide (Some al) q = Reject403.
Proof.
  eexists. exists (rq b#"q.com:1" []). eexists. exists {| a_host := b#"*x.com"; a_port := PFixed 1 |}.
  split; [vm_compute; reflexivity|]. split; [vm_compute; reflexivity|]. split; [left; reflexivity|].
  split; [apply (host_matches_run _ []); vm_compute; discriminate|]. split; [right; reflexivity | vm_compute; reflexivity].
Qed.

(* the 403 clause is not vacuous: an empty allow-list, and a host that matches no entry *)
Example C14_no_match_nonvacuous :
  decide (Some []) (rq b#"parity.io" []) = Reject403
  /\ decide (parse_all [b#"*.web3.site:*"]) (rq b#"web3.site" []) = Reject403
  /\ decide None (rq b#"anything:1" []) = Forward /\ decide None (rq b#"u:pw@h" []) = Reject400.
Proof. vm_compute. repeat split; reflexivity. Qed.
