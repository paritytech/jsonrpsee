(* C19 -- the property theorems and their proofs, over the lemmas of Proofs/HttpGateFacts.v.  The statements are
   compared with tools/pinned/C19.statements.
   `read_body` is the repaired function (fixes/C19.patch); `read_body_old` the function before the repair. *)
From JV Require Import Base.Bytes Base.Dec Gen.HttpGateGen Gen.SniffGen Model.HttpGate Proofs.HttpGateFacts.

(* the gate: the request goes on to read_body / the RPC layer exactly when the method is POST and the first
   Content-Type value is one of the generated spellings (ASCII case ignored); otherwise 415 / 405 *)
Theorem C19_gate : forall (m : bytes) (cts : list bytes), (gate m cts = GRpc <-> m = b#"POST" /\ ct_accepted cts) /\ (gate m cts = GBadContentType <-> m = b#"POST" /\ ~ ct_accepted cts) /\ (gate m cts = GBadMethod <-> m <> b#"POST").
Proof.
  intros m cts. unfold gate. rewrite gate_method_is_POST, <- content_type_is_json_spec, <- (bytes_eqb_eq m (b#"POST")).
  destruct (bytes_eqb m (b#"POST")), (content_type_is_json cts); intuition congruence.
Qed.
Print Assumptions C19_gate.

Theorem C19_gate_outcome : forall (A : Type) (rpc : bytes -> bool -> A) (m : bytes) (cts cls : list bytes) (fs : list frame) (max : N), call_with_service A rpc m cts cls fs max = match gate m cts with GRpc => after_read_body A rpc (read_body cls fs max) | GBadContentType => Refused 415 | GBadMethod => Refused 405 end.
Proof. intros. unfold call_with_service, call_with_service_with. destruct (gate m cts); reflexivity. Qed.
Print Assumptions C19_gate_outcome.

(* anything that is not a JSON POST: 405 / 415 and the same response whatever the handlers are *)
Theorem C19_no_handler_unless_json_post : forall (A : Type) (rpc1 rpc2 : bytes -> bool -> A) (m : bytes) (cts cls : list bytes) (fs : list frame) (max : N), ~ (m = b#"POST" /\ ct_accepted cts) -> call_with_service A rpc1 m cts cls fs max = call_with_service A rpc2 m cts cls fs max /\ ((m <> b#"POST" /\ call_with_service A rpc1 m cts cls fs max = Refused 405) \/ (m = b#"POST" /\ call_with_service A rpc1 m cts cls fs max = Refused 415)).
Proof.
  intros A rpc1 rpc2 m cts cls fs max Hn. rewrite !C19_gate_outcome. destruct (C19_gate m cts) as (H1 & H2 & H3).
  destruct (gate m cts) eqn:Eg.
  - exfalso. apply Hn, H1. reflexivity.
  - split; [reflexivity|]. right. split; [apply H2; reflexivity | reflexivity].
  - split; [reflexivity|]. left. split; [apply H3; reflexivity | reflexivity].
Qed.
Print Assumptions C19_no_handler_unless_json_post.

Theorem C19_rpc_reached_iff : forall (A : Type) (rpc : bytes -> bool -> A) (m : bytes) (cts cls : list bytes) (fs : list frame) (max : N), (exists st a, call_with_service A rpc m cts cls fs max = Answered st a) <-> (m = b#"POST" /\ ct_accepted cts /\ exists body single, read_body cls fs max = RbOk body single).
Proof.
  intros A rpc m cts cls fs max. rewrite C19_gate_outcome. destruct (C19_gate m cts) as ([H1 H1'] & _). split.
  - intros (st & a & H). destruct (gate m cts); try discriminate. destruct (H1 eq_refl) as [Hm Hc].
    destruct (read_body cls fs max) as [body single| | |]; try discriminate. eauto.
  - intros (Hm & Hc & body & single & Hr). rewrite (H1' (conj Hm Hc)), Hr. cbn. eauto.
Qed.
Print Assumptions C19_rpc_reached_iff.

Theorem C19_rpc_reached_answer : forall (A : Type) (rpc : bytes -> bool -> A) (m : bytes) (cts cls : list bytes) (fs : list frame) (max : N) (st : N) (a : A), call_with_service A rpc m cts cls fs max = Answered st a -> st = 200%N /\ exists body single, read_body cls fs max = RbOk body single /\ a = rpc body single.
Proof.
  intros A rpc m cts cls fs max st a. rewrite C19_gate_outcome. destruct (gate m cts); try discriminate.
  rewrite after_read_body_status. destruct (read_body cls fs max) as [body single| | |]; try discriminate. intros [= <- <-]. eauto.
Qed.
Print Assumptions C19_rpc_reached_answer.

(* the property's three spellings, any letter case, first of duplicates, pass the generated table *)
Theorem C19_property_spellings_accepted : forall (v : bytes) (rest : list bytes), In (map ascii_lower v) [b#"application/json"; b#"application/json; charset=utf-8"; b#"application/json;charset=utf-8"] -> content_type_is_json (v :: rest) = true.
Proof.
  intros v rest H. apply content_type_is_json_spec. exists v, (map ascii_lower v). split; [reflexivity|].
  split; [|destruct H as [<- | [<- | [<- | []]]]; reflexivity].
  destruct H as [<- | [<- | [<- | []]]]; vm_compute; auto 10.
Qed.
Print Assumptions C19_property_spellings_accepted.

Theorem C19_chunking_irrelevant : forall (cls : list bytes) (fs : list frame) (max : N), (blen (payload fs) <= max)%N -> read_body cls fs max = read_body cls [FData (payload fs)] max.
Proof.
  intros cls fs max Hl. apply same_payload_same_result; [|exact Hl]. symmetry. apply app_nil_r.
Qed.
Print Assumptions C19_chunking_irrelevant.

Theorem C19_content_length_irrelevant : forall (cls : list bytes) (fs : list frame) (max : N), (blen (payload fs) <= max)%N -> cls = [] \/ cls = [print_N (blen (payload fs))] -> read_body cls fs max = read_body [] fs max.
Proof.
  intros cls fs max Hl Hc. apply content_length_within_limit_irrelevant. destruct Hc as [-> | ->]; [apply N.le_0_l|].
  unfold content_length_or_zero. rewrite content_length_of_print. destruct (_ <=? _)%N; [exact Hl | apply N.le_0_l].
Qed.
Print Assumptions C19_content_length_irrelevant.

Theorem C19_spelling_irrelevant : forall (A : Type) (rpc : bytes -> bool -> A) (m : bytes) (cts1 cts2 cls : list bytes) (fs : list frame) (max : N), ct_accepted cts1 -> ct_accepted cts2 -> call_with_service A rpc m cts1 cls fs max = call_with_service A rpc m cts2 cls fs max.
Proof.
  intros A rpc m cts1 cts2 cls fs max H1 H2. unfold call_with_service, call_with_service_with, gate.
  apply content_type_is_json_spec in H1, H2. rewrite H1, H2. reflexivity.
Qed.
Print Assumptions C19_spelling_irrelevant.

Theorem C19_answer_depends_only_on_body : forall (A : Type) (rpc : bytes -> bool -> A) (cts1 cts2 cls1 cls2 : list bytes) (fs1 fs2 : list frame) (max : N), payload fs1 = payload fs2 -> (blen (payload fs1) <= max)%N -> ct_accepted cts1 -> ct_accepted cts2 -> (cls1 = [] \/ cls1 = [print_N (blen (payload fs1))]) -> (cls2 = [] \/ cls2 = [print_N (blen (payload fs2))]) -> call_with_service A rpc (b#"POST") cts1 cls1 fs1 max = call_with_service A rpc (b#"POST") cts2 cls2 fs2 max.
Proof.
  intros A rpc cts1 cts2 cls1 cls2 fs1 fs2 max Hp Hl Hc1 Hc2 Hl1 Hl2.
  rewrite (C19_spelling_irrelevant A rpc _ cts1 cts2 cls1 fs1 max Hc1 Hc2), !C19_gate_outcome.
  rewrite (C19_content_length_irrelevant cls1 fs1 max Hl Hl1). rewrite Hp in Hl.
  rewrite (C19_content_length_irrelevant cls2 fs2 max Hl Hl2), (same_payload_same_result [] fs1 fs2 max Hp); [reflexivity|].
  rewrite Hp. exact Hl.
Qed.
Print Assumptions C19_answer_depends_only_on_body.

(* the repair changes nothing for bodies whose first frame holds the first non-whitespace byte or fills the window *)
Theorem C19_repair_conservative : forall (cls : list bytes) (d : bytes) (fs : list frame) (max : N), find_nonws http_sniff_window d 0 <> None \/ (http_sniff_window <= length d)%nat -> read_body cls (FData d :: fs) max = read_body_old cls (FData d :: fs) max.
Proof.
  intros cls d fs max H. unfold read_body, read_body_old, read_body_with.
  destruct (max <? _)%N; [reflexivity|]. cbn [read_frames].
  destruct (max <? blen d)%N; [reflexivity|].
  unfold on_data, on_data_old. cbn [is_single received sniffed rb_init]. rewrite Nat.sub_0_r.
  pose proof (find_nonws_sniff http_sniff_window d 0) as Hf.
  destruct (find_nonws http_sniff_window d 0) as [[idx c]|].
  - (* the first frame settles single/batch and leaves a non-empty buffer: from here on both loops only append *)
    destruct Hf as (k & -> & Hk). cbn [Nat.add app].
    destruct (sniff_suffix_nonempty _ _ _ _ Hk) as (t & Ht).
    destruct (Byte.eqb c http_single_byte).
    + symmetry. eapply read_frames_old_new_after_sniff; cbn [is_single received]; [reflexivity | rewrite Ht; discriminate].
    + destruct (Byte.eqb c http_batch_byte); [|reflexivity].
      symmetry. eapply read_frames_old_new_after_sniff; cbn [is_single received]; [reflexivity | rewrite Ht; discriminate].
  - destruct H as [H|H]; [congruence|].
    destruct (Nat.ltb_spec (0 + length d) http_sniff_window); [lia | reflexivity].
Qed.
Print Assumptions C19_repair_conservative.

(* the function as it stood before the repair is NOT chunking-invariant (empty first frame) *)
Theorem C19_chunking_refuted_old : exists (cls : list bytes) (fs : list frame) (max : N), (blen (payload fs) <= max)%N /\ read_body_old cls fs max <> read_body_old cls [FData (payload fs)] max.
Proof.
  exists [], [FData []; FData refuted_body], 1000%N. split; [vm_compute; discriminate|]. vm_compute. discriminate.
Qed.
Print Assumptions C19_chunking_refuted_old.

Example C19_whitespace_first_frame : read_body_old [] [FData (b#" "); FData refuted_body] 1000 = RbMalformed /\ read_body_old [] [FData (b#" " ++ refuted_body)] 1000 = RbOk refuted_body true /\ read_body [] [FData (b#" "); FData refuted_body] 1000 = RbOk refuted_body true.
Proof. vm_compute. repeat split; reflexivity. Qed.

Example C19_gate_nonvacuous : gate (b#"POST") [b#"Application/JSON; Charset=UTF-8"; b#"text/plain"] = GRpc /\ gate (b#"POST") [b#"text/plain"; b#"application/json"] = GBadContentType /\ gate (b#"POST") [] = GBadContentType /\ gate (b#"post") [b#"application/json"] = GBadMethod /\ gate (b#"POST") [b#"application/jsonx"] = GBadContentType.
Proof. vm_compute. repeat split; reflexivity. Qed.

Example C19_read_body_nonvacuous : read_body [] [FData (b#"  "); FTrailers; FData []; FData (b#" [1"); FData (b#",2]")] 8 = RbOk (b#"[1,2]") false /\ read_body [b#"9"] [FData (b#"[1,2]")] 8 = RbTooLarge /\ read_body [] [FData (b#"[1,2]"); FData (b#"    ")] 8 = RbStream /\ read_body [b#"7"; b#"9"] [FData (b#"x")] 8 = RbMalformed /\ read_body [] [] 8 = RbMalformed.
Proof. vm_compute. repeat split; reflexivity. Qed.
