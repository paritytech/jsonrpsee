(* C12 -- batch results are positional.  The property theorems with their proofs; the lemmas they rest on are in
   Proofs/ClientMgrC12.v, HttpBatchFacts.v and IdAllocFacts.v.  Vocabulary: Model/ClientMgr.v (the async/WebSocket
   client: `batch_response`, `handle_back` -- the frame handler, which interprets the dispatch read from the source,
   Gen/ClientDispatchGen.v --, `placeholder`, `id_as_number` = Id::try_parse_inner_as_number), Model/HttpBatch.v (the
   HTTP client: `http_batch`, `http_reply`, `count_ok`, `count_err`) and the specification part of Proofs/ClientMgrC12.v:
     resps ms            the responses of an array frame, in the server's order
     last_with k rs      the last response of rs whose (normalised) id is k
     entry_of lo rs j    that response for k = lo + j, or `placeholder` (error code 0, message "") when there is none
     filled_of lo n rs   the fill loop run on n placeholder slots
     ids_of_range lo n   [Some lo; ...; Some (lo+n-1)]  *)
From Coq Require Import List NArith ZArith Bool Permutation Lia.
From JV Require Import Base.Bytes Base.Dec Model.Wire Model.ClientMgr Model.HttpBatch Proofs.ClientMgrC12 Proofs.HttpBatchFacts.
From JV Require Model.HttpGate Proofs.ClientMgrInv.
Import ListNotations.
Local Open Scope N_scope.


(* the fill loop: exactly hi-lo entries; entry j is the placeholder (and then no reply carries id lo+j) or a reply whose
   id is lo+j -- never a reply with another position's id.  `batch_response` is only ever called with lo = the least id
   of rs (C12_range_exact), which is the hypothesis on the ids; C12_lower_bound_needed shows it cannot be dropped. *)
Theorem C12_filled_positional : forall s rs lo hi h,
  alookup range_eqb (lo, hi) (batches (m s)) = Some h ->
  (forall r k, In r rs -> id_as_number (rs_id r) = Some k -> lo <= k) ->
  exists s' filled,
    batch_response s rs lo hi = ROk s' (complete s h (CBatch filled)) /\
    length filled = N.to_nat (hi - lo) /\
    forall j, (j < N.to_nat (hi - lo))%nat ->
      (nth j filled placeholder = placeholder /\
         forall r, In r rs -> id_as_number (rs_id r) <> Some (lo + N.of_nat j)) \/
      (exists r, In r rs /\ id_as_number (rs_id r) = Some (lo + N.of_nat j) /\ nth j filled placeholder = r).
Proof.
  intros s rs lo hi h Hl Hge. eexists _, _. split; [apply batch_response_eq; exact Hl|].
  split; [apply filled_length|]. intros j Hj. rewrite (filled_entry lo _ rs Hge j Hj). apply entry_cases.
Qed.
Print Assumptions C12_filled_positional.

(* a complete answer set in ANY order: entry j is THE reply with id lo+j, no placeholder, and the result is the reply
   rearranged *)
Theorem C12_complete_reply_positional : forall s rs lo hi h,
  alookup range_eqb (lo, hi) (batches (m s)) = Some h ->
  Permutation (map (fun r => id_as_number (rs_id r)) rs) (ids_of_range lo (N.to_nat (hi - lo))) ->
  exists s' filled,
    batch_response s rs lo hi = ROk s' (complete s h (CBatch filled)) /\
    length filled = N.to_nat (hi - lo) /\
    (forall j r, (j < N.to_nat (hi - lo))%nat -> In r rs -> id_as_number (rs_id r) = Some (lo + N.of_nat j) ->
       nth j filled placeholder = r) /\
    (forall j, (j < N.to_nat (hi - lo))%nat ->
       exists r, In r rs /\ id_as_number (rs_id r) = Some (lo + N.of_nat j) /\ nth j filled placeholder = r) /\
    Permutation filled rs.
Proof.
  intros s rs lo hi h Hl Hp.
  destruct (filled_complete lo _ rs Hp) as [_ [H1 [H2 H3]]].
  eexists _, _. split; [apply batch_response_eq; exact Hl|].
  split; [apply filled_length|]. split; [exact H1|]. split; [exact H2|exact H3].
Qed.
Print Assumptions C12_complete_reply_positional.

(* success / failure counts are those of the returned entries *)
Theorem C12_counts_match : forall filled : list response, (count_ok filled + count_err filled = length filled)%nat.
Proof. intro l. rewrite count_err_spec. apply (filter_split_length is_success). Qed.
Print Assumptions C12_counts_match.

(* an array frame with responses that is accepted completes exactly the pending batch whose key is
   [least id, greatest id + 1) of the frame: every id of the frame lies in that batch's own range, both ends are attained,
   the batch leaves the table, and the caller gets hi-lo entries, entry j = the last reply with id lo+j or the
   placeholder *)
Theorem C12_range_exact : forall s ms s1 o,
  handle_back s (FArray ms) = ROk s1 o -> resps ms <> [] ->
  exists lo hi h,
    alookup range_eqb (lo, hi) (batches (m s)) = Some h /\ lo < hi /\
    (forall r, In r (resps ms) -> exists k, id_as_number (rs_id r) = Some k /\ lo <= k < hi) /\
    (exists r, In r (resps ms) /\ id_as_number (rs_id r) = Some lo) /\
    (exists r, In r (resps ms) /\ id_as_number (rs_id r) = Some (hi - 1)) /\
    batches (m s1) = aremove range_eqb (lo, hi) (batches (m s)) /\
    let filled := filled_of lo (N.to_nat (hi - lo)) (resps ms) in
    o = complete s h (CBatch filled) /\
    length filled = N.to_nat (hi - lo) /\
    forall j, (j < N.to_nat (hi - lo))%nat -> nth j filled placeholder = entry_of lo (resps ms) j.
Proof.
  intros s ms s1 o H Hne.
  destruct (handle_back_array s ms) as [(s' & f & E & _)|[(s' & lo & hi & E & Hk & Hall & Hlo & Hhi)|(s' & _ & Hnil)]];
    [rewrite E in H; discriminate| |contradiction].
  rewrite E in H. clear E. assert (Hb : batches (m s') = batches (m s)) by (now injection Hk). unfold rid_num in *.
  destruct (alookup range_eqb (lo, hi + 1) (batches (m s'))) as [h|] eqn:El;
    [|rewrite (batch_response_unknown _ _ _ _ El) in H; discriminate].
  rewrite (batch_response_eq _ _ _ _ _ El) in H. injection H as <- <-.
  assert (Hlh : lo <= hi). { destruct Hlo as [r [Hin Er]]. destruct (Hall r Hin) as [k [Ek Hk']]. lia. }
  exists lo, (hi + 1), h. rewrite <- Hb. split; [exact El|]. split; [lia|]. split; [|split; [|split; [|split]]].
  - intros r Hin. destruct (Hall r Hin) as [k [Ek Hk']]. exists k. split; [exact Ek|lia].
  - exact Hlo.
  - replace (hi + 1 - 1) with hi by lia. exact Hhi.
  - reflexivity.
  - cbv zeta. split; [apply complete_kept; exact Hk|]. split; [apply filled_length|].
    intros j Hj. apply filled_entry; [|exact Hj].
    intros r k Hin E. destruct (Hall r Hin) as [k' [Ek' Hk']]. unfold rid_num in E. rewrite E in Ek'.
    injection Ek' as <-. lia.
Qed.
Print Assumptions C12_range_exact.

Theorem C12_entry_cases : forall lo rs j,
  (entry_of lo rs j = placeholder /\ forall r, In r rs -> id_as_number (rs_id r) <> Some (lo + N.of_nat j)) \/
  (exists r, In r rs /\ id_as_number (rs_id r) = Some (lo + N.of_nat j) /\ entry_of lo rs j = r).
Proof. exact entry_cases. Qed.
Print Assumptions C12_entry_cases.

(* a reply whose least / greatest ids are not exactly the ends of a pending batch (first or last entry missing, a foreign
   id, two batches mixed) is fatal: nobody is answered with it *)
Theorem C12_unmatched_reply_fails : forall s ms lo hi,
  resps ms <> [] ->
  (forall r, In r (resps ms) -> exists k, id_as_number (rs_id r) = Some k /\ lo <= k <= hi) ->
  (exists r, In r (resps ms) /\ id_as_number (rs_id r) = Some lo) ->
  (exists r, In r (resps ms) /\ id_as_number (rs_id r) = Some hi) ->
  alookup range_eqb (lo, hi + 1) (batches (m s)) = None ->
  exists s1 f, handle_back s (FArray ms) = RFatal s1 [] f.
Proof.
  intros s ms lo hi Hne Hall [rl [Hl El]] [rh [Hh Eh]] Hnone.
  destruct (handle_back s (FArray ms)) as [s1 o|s1 o f] eqn:E.
  - exfalso. apply C12_range_exact in E; [|exact Hne].
    destruct E as [lo' [hi' [h [Hk [Hlt [Hall' [[r1 [H1 E1]] [[r2 [H2 E2]] _]]]]]]]].
    assert (lo' = lo).
    { destruct (Hall r1 H1) as [k [Ek Hk1]]. destruct (Hall' rl Hl) as [k' [Ek' Hk']].
      rewrite E1 in Ek. rewrite El in Ek'. injection Ek as <-. injection Ek' as <-. lia. }
    assert (hi' = hi + 1).
    { destruct (Hall r2 H2) as [k [Ek Hk1]]. destruct (Hall' rh Hh) as [k' [Ek' Hk']].
      rewrite E2 in Ek. rewrite Eh in Ek'. injection Ek as <-. injection Ek' as <-. lia. }
    subst. rewrite Hnone in Hk. discriminate.
  - apply refused_reply_answers_nobody in E as E'. destruct E' as [-> _]. eauto.
Qed.
Print Assumptions C12_unmatched_reply_fails.

(* whenever an array frame is refused no completion is emitted and no pending batch is consumed *)
Theorem C12_refused_reply_answers_nobody : forall s ms s1 o f,
  handle_back s (FArray ms) = RFatal s1 o f -> o = [] /\ batches (m s1) = batches (m s).
Proof. exact refused_reply_answers_nobody. Qed.
Print Assumptions C12_refused_reply_answers_nobody.

(* a batch result handed to a caller always has the length of the request *)
Theorem C12_never_shorter : forall s ms s1 o h filled,
  handle_back s (FArray ms) = ROk s1 o -> In (OComplete h (CBatch filled)) o ->
  exists lo hi, alookup range_eqb (lo, hi) (batches (m s)) = Some h /\ length filled = N.to_nat (hi - lo).
Proof.
  intros s ms s1 o h filled H Hin.
  destruct (handle_back_array s ms) as [(s' & f & E & _)|[(s' & lo & hi & _ & _ & _ & [r [Hr _]] & _)|(s' & E & _)]].
  - rewrite E in H. discriminate.
  - apply C12_range_exact in H; [|intro E; rewrite E in Hr; destruct Hr].
    destruct H as (lo' & hi' & h' & Hk & _ & _ & _ & _ & _ & Ho & Hlen & _). subst o.
    unfold complete in Hin. destruct (alive s h'); [|destruct Hin].
    destruct Hin as [E|[]]. injection E as <- <-. eauto.
  - (* no responses: nothing is completed *)
    rewrite E in H. injection H as <- <-. destruct Hin.
Qed.
Print Assumptions C12_never_shorter.

(* with pairwise disjoint pending ranges (`ranges_disjoint`; an invariant of the client since batch ids are reserved:
   Proofs/ClientMgrInv.v ic_rng_disj) an accepted reply that contains ANY id of a pending batch A is A's reply entirely:
   A is the batch completed, every id of the frame lies in A's range, entry j is the last reply with id loA+j *)
Theorem C12_reply_goes_to_owner : forall s ms s1 o r k loA hiA,
  handle_back s (FArray ms) = ROk s1 o -> ranges_disjoint (batches (m s)) ->
  In r (resps ms) -> id_as_number (rs_id r) = Some k ->
  In (loA, hiA) (map fst (batches (m s))) -> loA <= k < hiA ->
  exists h,
    alookup range_eqb (loA, hiA) (batches (m s)) = Some h /\
    (forall r', In r' (resps ms) -> exists k', id_as_number (rs_id r') = Some k' /\ loA <= k' < hiA) /\
    batches (m s1) = aremove range_eqb (loA, hiA) (batches (m s)) /\
    let filled := filled_of loA (N.to_nat (hiA - loA)) (resps ms) in
    o = complete s h (CBatch filled) /\
    length filled = N.to_nat (hiA - loA) /\
    forall j, (j < N.to_nat (hiA - loA))%nat -> nth j filled placeholder = entry_of loA (resps ms) j.
Proof.
  intros s ms s1 o r k loA hiA H Hd Hin Ek HA Hk.
  apply C12_range_exact in H; [|intro E; rewrite E in Hin; destruct Hin].
  destruct H as [lo [hi [h [Hl [Hlt [Hall [_ [_ [Hb Hrest]]]]]]]]].
  assert (E : (lo, hi) = (loA, hiA)).
  { destruct (Hd (lo, hi) (loA, hiA) (ClientDispatchFacts.in_key _ _ _ (ClientDispatchFacts.alookup_In range_eqb ClientDispatchFacts.range_eqb_ok _ _ _ Hl)) HA) as [E|E]; [exact E|exfalso].
    destruct (Hall r Hin) as [k' [Ek' Hk']]. rewrite Ek in Ek'. injection Ek' as <-. simpl in E. lia. }
  injection E as -> ->. exists h. split; [exact Hl|]. split; [exact Hall|]. split; [exact Hb|exact Hrest].
Qed.
Print Assumptions C12_reply_goes_to_owner.

(* ... and a reply mixing ids of two pending batches is refused: neither caller is answered *)
Theorem C12_mixed_reply_fails : forall s ms r1 r2 k1 k2 lo1 hi1 lo2 hi2,
  ranges_disjoint (batches (m s)) ->
  In r1 (resps ms) -> id_as_number (rs_id r1) = Some k1 -> In (lo1, hi1) (map fst (batches (m s))) -> lo1 <= k1 < hi1 ->
  In r2 (resps ms) -> id_as_number (rs_id r2) = Some k2 -> In (lo2, hi2) (map fst (batches (m s))) -> lo2 <= k2 < hi2 ->
  (lo1, hi1) <> (lo2, hi2) ->
  exists s1 f, handle_back s (FArray ms) = RFatal s1 [] f.
Proof.
  intros s ms r1 r2 k1 k2 lo1 hi1 lo2 hi2 Hd Hi1 E1 HA1 Hk1 Hi2 E2 HA2 Hk2 Hne.
  destruct (handle_back s (FArray ms)) as [s1 o|s1 o f] eqn:E.
  - exfalso.
    destruct (C12_reply_goes_to_owner _ _ _ _ _ _ _ _ E Hd Hi1 E1 HA1 Hk1) as [_ [_ [Hall _]]].
    destruct (Hall r2 Hi2) as [k' [Ek' Hk']]. rewrite E2 in Ek'. injection Ek' as <-.
    destruct (Hd _ _ HA1 HA2) as [Heq|Hdis]; [contradiction|]. simpl in Hdis. lia.
  - apply C12_refused_reply_answers_nobody in E as E'. destruct E' as [-> _]. eauto.
Qed.
Print Assumptions C12_mixed_reply_fails.

(* the premise holds in every reachable state (invariant `Inv` of Proofs/ClientMgrInv.v: init_inv, run_inv) ... *)
Theorem C12_reachable_ranges_disjoint : forall idstr qc bc gate es,
  ranges_disjoint (batches (m (fst (run (init idstr qc bc gate) es)))).
Proof.
  intros idstr qc bc gate es r1 r2 H1 H2.
  destruct (ClientMgrInv.inv_core _ (ClientMgrInv.run_inv es _ (ClientMgrInv.init_inv idstr qc bc gate))) as [Hids _].
  destruct (ClientMgrInv.ic_rng_disj _ _ _ _ _ Hids r1 r2) as [E|E].
  - apply in_or_app. now left.
  - apply in_or_app. now left.
  - now left.
  - right. exact E.
Qed.
Print Assumptions C12_reachable_ranges_disjoint.

(* ... so for every configuration and every history the two theorems hold without it *)
Theorem C12_reply_goes_to_owner_reachable : forall idstr qc bc gate es ms s1 o r k loA hiA,
  let s := fst (run (init idstr qc bc gate) es) in
  handle_back s (FArray ms) = ROk s1 o ->
  In r (resps ms) -> id_as_number (rs_id r) = Some k ->
  In (loA, hiA) (map fst (batches (m s))) -> loA <= k < hiA ->
  exists h,
    alookup range_eqb (loA, hiA) (batches (m s)) = Some h /\
    (forall r', In r' (resps ms) -> exists k', id_as_number (rs_id r') = Some k' /\ loA <= k' < hiA) /\
    batches (m s1) = aremove range_eqb (loA, hiA) (batches (m s)) /\
    let filled := filled_of loA (N.to_nat (hiA - loA)) (resps ms) in
    o = complete s h (CBatch filled) /\
    length filled = N.to_nat (hiA - loA) /\
    forall j, (j < N.to_nat (hiA - loA))%nat -> nth j filled placeholder = entry_of loA (resps ms) j.
Proof.
  intros idstr qc bc gate es ms s1 o r k loA hiA s H. 
  exact (C12_reply_goes_to_owner s ms s1 o r k loA hiA H (C12_reachable_ranges_disjoint idstr qc bc gate es)).
Qed.
Print Assumptions C12_reply_goes_to_owner_reachable.

Theorem C12_mixed_reply_fails_reachable : forall idstr qc bc gate es ms r1 r2 k1 k2 lo1 hi1 lo2 hi2,
  let s := fst (run (init idstr qc bc gate) es) in
  In r1 (resps ms) -> id_as_number (rs_id r1) = Some k1 -> In (lo1, hi1) (map fst (batches (m s))) -> lo1 <= k1 < hi1 ->
  In r2 (resps ms) -> id_as_number (rs_id r2) = Some k2 -> In (lo2, hi2) (map fst (batches (m s))) -> lo2 <= k2 < hi2 ->
  (lo1, hi1) <> (lo2, hi2) ->
  exists s1 f, handle_back s (FArray ms) = RFatal s1 [] f.
Proof.
  intros idstr qc bc gate es ms r1 r2 k1 k2 lo1 hi1 lo2 hi2 s.
  exact (C12_mixed_reply_fails s ms r1 r2 k1 k2 lo1 hi1 lo2 hi2 (C12_reachable_ranges_disjoint idstr qc bc gate es)).
Qed.
Print Assumptions C12_mixed_reply_fails_reachable.


Theorem C12_http_positional : forall lo n rs filled,
  http_batch lo n rs = Some filled ->
  length filled = N.to_nat n /\
  (forall r, In r rs -> exists k, id_as_number (rs_id r) = Some k /\ lo <= k < lo + n) /\
  forall j, (j < N.to_nat n)%nat ->
    nth j filled placeholder = entry_of lo rs j /\
    ((nth j filled placeholder = placeholder /\
        forall r, In r rs -> id_as_number (rs_id r) <> Some (lo + N.of_nat j)) \/
     (exists r, In r rs /\ id_as_number (rs_id r) = Some (lo + N.of_nat j) /\ nth j filled placeholder = r)).
Proof.
  intros lo n rs filled H. apply http_batch_some in H as [HF ->].
  split; [apply filled_length|]. split; [exact HF|]. intros j Hj.
  assert (E : nth j (filled_of lo (N.to_nat n) rs) placeholder = entry_of lo rs j).
  { apply filled_entry; [|exact Hj]. intros r k Hin Ek. destruct (HF r Hin) as [k' [Ek' Hk']].
    unfold rid_num in Ek. rewrite Ek in Ek'. injection Ek' as <-. lia. }
  split; [exact E|]. rewrite E. apply C12_entry_cases.
Qed.
Print Assumptions C12_http_positional.

Theorem C12_http_never_shorter : forall lo n rs filled,
  http_batch lo n rs = Some filled -> length filled = N.to_nat n.
Proof. intros lo n rs filled H. now apply C12_http_positional in H. Qed.
Print Assumptions C12_http_never_shorter.

(* the whole call fails exactly when some reply has no slot: a null / non-numeric id, or an id outside lo .. lo+n *)
Theorem C12_http_fails_iff : forall lo n rs,
  http_batch lo n rs = None <->
  exists r, In r rs /\
    (id_as_number (rs_id r) = None \/ exists k, id_as_number (rs_id r) = Some k /\ ~ (lo <= k < lo + n)).
Proof.
  intros lo n rs. split.
  - unfold http_batch, http_batch_r.
    destruct (http_fill lo n rs (repeat placeholder (N.to_nat n))) as [out|e] eqn:E; [discriminate|]. intros _.
    apply http_fill_err in E as [pre [r [post [-> [_ Hc]]]]]. exists r.
    split; [apply in_or_app; right; now left|]. destruct Hc as [[_ H]|[_ H]]; auto.
  - intros [r [Hin Hc]]. destruct (http_batch lo n rs) as [filled|] eqn:E; [|reflexivity]. exfalso.
    apply http_batch_some in E as [HF _]. destruct (HF r Hin) as [k [Ek Hk]].
    destruct Hc as [Hn|[k' [Ek' Hk']]]; [congruence|]. rewrite Ek in Ek'. injection Ek' as <-. auto.
Qed.
Print Assumptions C12_http_fails_iff.

Theorem C12_http_complete_reply : forall lo n rs,
  Permutation (map (fun r => id_as_number (rs_id r)) rs) (ids_of_range lo (N.to_nat n)) ->
  exists filled,
    http_batch lo n rs = Some filled /\ length filled = N.to_nat n /\
    (forall j r, (j < N.to_nat n)%nat -> In r rs -> id_as_number (rs_id r) = Some (lo + N.of_nat j) ->
       nth j filled placeholder = r) /\
    (forall j, (j < N.to_nat n)%nat ->
       exists r, In r rs /\ id_as_number (rs_id r) = Some (lo + N.of_nat j) /\ nth j filled placeholder = r) /\
    Permutation filled rs.
Proof.
  intros lo n rs Hp. destruct (filled_complete lo _ rs Hp) as [Hin [H1 [H2 H3]]].
  exists (filled_of lo (N.to_nat n) rs). split; [|split; [apply filled_length|split; [exact H1|split; [exact H2|exact H3]]]].
  apply http_batch_some. split; [|reflexivity]. intros r Hr.
  assert (Hi : In (rid_num r) (ids_of_range lo (N.to_nat n))).
  { apply (Permutation_in _ Hp). now apply (in_map rid_num). }
  apply in_ids_of_range in Hi as [j [Hj Ej]]. exists (lo + N.of_nat j). split; [exact Ej|lia].
Qed.
Print Assumptions C12_http_complete_reply.

Theorem C12_http_counts : forall lo n rs filled,
  http_batch lo n rs = Some filled ->
  (count_ok filled + count_err filled = N.to_nat n)%nat /\
  count_ok filled = length (filter is_success filled) /\
  count_err filled = length (filter (fun r => negb (is_success r)) filled).
Proof.
  intros lo n rs filled H. apply C12_http_never_shorter in H.
  rewrite C12_counts_match, H. split; [reflexivity|]. split; [reflexivity|apply count_err_spec].
Qed.
Print Assumptions C12_http_counts.

Theorem C12_http_reply_ok : forall lo n body filled,
  http_reply lo n body = HOk filled ->
  exists text single ts rs,
    HttpGate.read_body [] [HttpGate.FData body] http_max_response = HttpGate.RbOk text single /\
    raw_array text = Some ts /\ parse_all ts = Some rs /\ http_batch lo n rs = Some filled.
Proof.
  intros lo n body filled H. unfold http_reply in H.
  destruct (HttpGate.read_body [] [HttpGate.FData body] http_max_response) as [text single| | |] eqn:Eb; try discriminate.
  unfold http_parse in H.
  destruct (raw_array text) as [ts|] eqn:Ea; [|discriminate].
  destruct (parse_all ts) as [rs|] eqn:Ep; [|discriminate].
  exists text, single, ts, rs. repeat split; auto. unfold http_batch. now rewrite H.
Qed.
Print Assumptions C12_http_reply_ok.

Definition mA : bytes := b#"a".
Definition rOk (i : id) (raw : bytes) : response := {| rs_jsonrpc := true; rs_payload := PResult raw; rs_id := i |}.
Definition rErr (i : id) (c : Z) (msg : bytes) : response :=
  {| rs_jsonrpc := true; rs_payload := PError {| e_code := c; e_message := msg; e_data := None |}; rs_id := i |}.
Definition batch3 : ev := FBatch 1 [(mA, None); (mA, None); (mA, None)].
Definition last_outs (es : list ev) : list out := fst (last (snd (run (init false 4 4 false) es)) ([], None)).

(* permuted reply, one id as a numeric string, one error: positions restored *)
Example C12_witness_ws_permuted :
  last_outs [batch3; Back b#"[{""jsonrpc"":""2.0"",""id"":2,""result"":""c""},{""jsonrpc"":""2.0"",""id"":0,""error"":{""code"":-1,""message"":""x""}},{""jsonrpc"":""2.0"",""id"":""1"",""result"":""b""}]"]
  = [OComplete 1 (CBatch [rErr (IdNum 0) (-1) b#"x"; rOk (IdStr b#"1") b#"""b"""; rOk (IdNum 2) b#"""c"""])].
Proof. vm_compute. reflexivity. Qed.

(* entry 1 unanswered, id 2 repeated: 3 entries, entry 1 is the placeholder error, the last duplicate wins *)
Example C12_witness_ws_missing_and_repeated :
  last_outs [batch3; Back b#"[{""jsonrpc"":""2.0"",""id"":2,""result"":""c""},{""jsonrpc"":""2.0"",""id"":2,""result"":""d""},{""jsonrpc"":""2.0"",""id"":0,""result"":""a""}]"]
  = [OComplete 1 (CBatch [rOk (IdNum 0) b#"""a"""; placeholder; rOk (IdNum 2) b#"""d"""])].
Proof. vm_compute. reflexivity. Qed.

(* first entry unanswered: ids 1..2 are nobody's key, the connection is torn down, the call fails *)
Example C12_witness_ws_first_missing :
  last_outs [batch3; Back b#"[{""jsonrpc"":""2.0"",""id"":1,""result"":""c""},{""jsonrpc"":""2.0"",""id"":2,""result"":""d""}]"]
  = [OFatal FNotPending; OComplete 1 (CErr EDisconnected)].
Proof. vm_compute. reflexivity. Qed.

(* the lower bound on the ids in C12_filled_positional is needed (unreachable through handle_back) *)
Example C12_lower_bound_needed :
  batch_response (st_with_batch 1 2 7) [resp_of 0] 1 2
  = ROk (upd_m (st_with_batch 1 2 7) (set_batches (m (st_with_batch 1 2 7)) [])) [OComplete 7 (CBatch [resp_of 0])].
Proof. vm_compute. reflexivity. Qed.

Example C12_witness_http :
  http_reply 0 3 b#"[{""jsonrpc"":""2.0"",""id"":2,""result"":""c""},{""jsonrpc"":""2.0"",""id"":0,""error"":{""code"":-1,""message"":""x""}},{""jsonrpc"":""2.0"",""id"":""1"",""result"":""b""}]"
    = HOk [rErr (IdNum 0) (-1) b#"x"; rOk (IdStr b#"1") b#"""b"""; rOk (IdNum 2) b#"""c"""] /\
  http_reply 0 3 b#"[{""jsonrpc"":""2.0"",""id"":1,""result"":""c""}]" = HOk [placeholder; rOk (IdNum 1) b#"""c"""; placeholder] /\
  http_reply 0 3 b#"[{""jsonrpc"":""2.0"",""id"":3,""result"":""c""}]" = HErr HNotPending /\
  http_reply 0 3 b#"[{""jsonrpc"":""2.0"",""id"":null,""result"":""c""}]" = HErr HBadId /\
  http_reply 0 3 b#"[5]" = HErr HParse /\
  http_reply 0 3 b#"5" = HErr HTransport /\
  (count_ok [placeholder; rOk (IdNum 1) b#"""c"""; placeholder], count_err [placeholder; rOk (IdNum 1) b#"""c"""; placeholder]) = (1, 2)%nat.
Proof. vm_compute. repeat split. Qed.

(* REAL threads on the request-id allocator
   `RequestIdManager` (core/src/client/mod.rs) is one shared counter reached through `&self` by every front-end call of the
   async/WebSocket client and of the HTTP client, possibly from different threads.  HOW `next_request_id` and
   `next_batch_id_range` touch the counter is read from the source on every check (tools/translators/id_alloc.py ->
   Gen/IdAllocGen.id_alloc_gen): RAtomicRmw = one atomic read-modify-write, the ids computed from the value it returned;
   RLoadThenStore = load, validate, then advance.  Model/IdAlloc.v interprets the record as a transition system over the
   counter whose steps are the ATOMIC actions of each path; a schedule is a list of (thread, step) -- `SReserve r`: the
   thread starts reservation r (an RAtomicRmw path completes it in that step), `SFinish`: the thread performs the second
   step of its pending two-step reservation; steps that a sequential thread cannot take stutter, so EVERY list is a
   schedule of some number of threads each performing some sequence of single-id and batch reservations.
   Vocabulary: `total sc` the ids asked for, `reservations sc` the (thread, amount) pairs in schedule order, `handed` the
   ranges [lo, hi) returned, `on_one_thread sc` the same steps all on thread 0; specification part of
   Proofs/IdAllocFacts.v: `ev_reqs` / `hist_reqs` (the reservations behind the events of Model/ClientMgr.v, from the
   generated front_takes_gen), `apply_with` / `fed_run` (ClientMgr's apply / run taking ids from a supply list). *)
From JV Require Import Model.IdAlloc Gen.IdAllocGen Proofs.IdAllocFacts.

(* every generated path is ONE atomic RMW, HENCE for every interleaving (while fewer than 2^64 ids have been taken): no id
   belongs to two of the ranges handed out, the counter ends at start + total, no thread is left between two steps, no
   reservation fails, every reservation (in schedule order, with its thread) got a range of the length it asked for inside
   [start, start+total), and the ranges are those of the same reservations made in the same order on ONE thread.  With a
   load-then-store path the first conjunct is false by computation and the proof does not build. *)
Theorem C12_id_ranges_disjoint_under_interleaving :
  (single_path id_alloc_gen = RAtomicRmw /\ batch_path id_alloc_gen = RAtomicRmw) /\
  forall (start : N) (sc : list (thread * alloc_step)), start + total sc < 2 ^ counter_bits id_alloc_gen ->
    let st := alloc_run id_alloc_gen (alloc_init start) sc in
    (forall i j t1 lo1 hi1 t2 lo2 hi2 k, i <> j ->
       nth_error (handed st) i = Some (t1, (lo1, hi1)) -> nth_error (handed st) j = Some (t2, (lo2, hi2)) ->
       ~ (lo1 <= k < hi1 /\ lo2 <= k < hi2)) /\
    counter st = start + total sc /\ pend st = [] /\ failed st = [] /\
    map (fun x : thread * (N * N) => (fst x, snd (snd x) - fst (snd x))) (handed st) = reservations sc /\
    (forall t lo hi, In (t, (lo, hi)) (handed st) -> start <= lo /\ lo <= hi /\ hi <= start + total sc) /\
    map snd (handed st) = map snd (handed (alloc_run id_alloc_gen (alloc_init start) (on_one_thread sc))).
Proof. split; [exact id_alloc_gen_atomic | exact (atomic_ranges_disjoint id_alloc_gen id_alloc_gen_atomic)]. Qed.
Print Assumptions C12_id_ranges_disjoint_under_interleaving.

(* thread 0 and thread 1 each reserve a batch; both load before either advances *)
Definition race_witness : sched :=
  [(0%nat, SReserve (QBatch 3)); (1%nat, SReserve (QBatch 2)); (0%nat, SFinish); (1%nat, SFinish)].

(* "validate the batch range first, then take it" (batch path = RLoadThenStore, either way of advancing): two threads, one
   batch each, both load before either advances -> both are handed a range starting at 0 (id 0 belongs to both); with
   `store` the counter even ends below start + total; the generated allocator hands out (0,3),(3,5) on the same schedule,
   and on ONE thread the two-step allocator does too (the change is invisible there) *)
Theorem C12_load_then_store_refuted :
  exists sc : list (thread * alloc_step),
    (forall x, In x sc -> fst x = 0%nat \/ fst x = 1%nat) /\
    reservations sc = [(0%nat, 3); (1%nat, 2)] /\
    (forall adv, let st := alloc_run (id_alloc_load_then_store adv) (alloc_init 0) sc in
       pend st = [] /\ failed st = [] /\ handed st = [(0%nat, (0, 3)); (1%nat, (0, 2))] /\
       exists k, 0 <= k < 3 /\ 0 <= k < 2) /\
    counter (alloc_run (id_alloc_load_then_store AdvFetchAdd) (alloc_init 0) sc) = 5 /\
    counter (alloc_run (id_alloc_load_then_store AdvStore) (alloc_init 0) sc) = 2 /\
    handed (alloc_run id_alloc_gen (alloc_init 0) sc) = [(0%nat, (0, 3)); (1%nat, (3, 5))] /\
    (forall adv, handed (alloc_run (id_alloc_load_then_store adv) (alloc_init 0)
                   [(0%nat, SReserve (QBatch 3)); (0%nat, SFinish); (0%nat, SReserve (QBatch 2)); (0%nat, SFinish)])
                 = [(0%nat, (0, 3)); (0%nat, (3, 5))]).
Proof.
  exists race_witness. split.
  - intros x H. cbn in H. repeat (destruct H as [<- | H]; [cbn; auto|]). destruct H.
  - split; [reflexivity|]. split.
    + intros adv. destruct adv; vm_compute; (repeat split; try reflexivity); exists 0; vm_compute; repeat split; discriminate.
    + split; [vm_compute; reflexivity|]. split; [vm_compute; reflexivity|]. split; [vm_compute; reflexivity|].
      intros adv; destruct adv; vm_compute; reflexivity.
Qed.
Print Assumptions C12_load_then_store_refuted.

(* the ids Model/ClientMgr.v's FCall / FNotify / FBatch / FSubscribe events take by arithmetic on `next_id` are exactly
   what the generated allocator hands out along the ONE-thread schedule of the reservations behind the history: the run
   fed by that supply IS the run (nothing of the supply is left), the model's counter is the allocator's, and event by
   event `apply` is `apply_with` on the allocator's answer (from any state, unless the counter would wrap).  Together with
   the last conjunct of C12_id_ranges_disjoint_under_interleaving (every thread-level schedule hands out the ranges of
   its one-thread linearisation) the id sequences of the model are those of thread-level executions *)
Theorem C12_sequential_allocation_is_an_interleaving : forall (s : st) (es : list ev),
  let sc := seq_sched 0%nat (hist_reqs s es) in
  next_id s + total sc < 2 ^ counter_bits id_alloc_gen ->
  let a := alloc_run id_alloc_gen (alloc_init (next_id s)) sc in
  fed_run s es (map snd (handed a)) = Some (run s es, []) /\
  next_id (fst (run s es)) = counter a /\
  (forall e, apply s e = apply_with s e (map snd (handed (alloc_run id_alloc_gen (alloc_init (next_id s)) (seq_sched 0%nat (ev_reqs s e)))))
             \/ 2 ^ counter_bits id_alloc_gen <= next_id s + total_reqs (ev_reqs s e)).
Proof.
  intros s es sc H a.
  assert (H' : next_id s + total_reqs (hist_reqs s es) < modulus id_alloc_gen) by (unfold sc in H; rewrite total_seq_sched in H; exact H).
  destruct (alloc_seq_sched id_alloc_gen 0%nat (next_id s) (hist_reqs s es) id_alloc_gen_atomic H') as [E1 E2].
  fold sc in E1, E2. fold a in E1, E2. split; [|split].
  - rewrite E1. rewrite <- (app_nil_r (seq_ranges _ _)). apply fed_run_seq.
  - rewrite E2. apply nx_run.
  - intro e. destruct (N.lt_ge_cases (next_id s + total_reqs (ev_reqs s e)) (2 ^ counter_bits id_alloc_gen)) as [L | L]; [left | right; exact L].
    destruct (alloc_seq_sched id_alloc_gen 0%nat (next_id s) (ev_reqs s e) id_alloc_gen_atomic L) as [E _].
    rewrite E. apply apply_is_apply_with.
Qed.
Print Assumptions C12_sequential_allocation_is_an_interleaving.

(* non-vacuity: three threads, singles and batches interleaved, on the generated allocator *)
Example C12_witness_interleaved_allocation :
  let sc := [(0%nat, SReserve (QBatch 3)); (2%nat, SReserve QSingle); (1%nat, SReserve (QBatch 2)); (0%nat, SFinish);
             (2%nat, SReserve QSingle); (1%nat, SReserve QSingle)] in
  let st := alloc_run id_alloc_gen (alloc_init 7) sc in
  handed st = [(0%nat, (7, 10)); (2%nat, (10, 11)); (1%nat, (11, 13)); (2%nat, (13, 14)); (1%nat, (14, 15))] /\
  counter st = 15 /\ total sc = 8 /\
  reservations sc = [(0%nat, 3); (2%nat, 1); (1%nat, 2); (2%nat, 1); (1%nat, 1)] /\
  hist_reqs (init false 4 4 false) [batch3; FCall 2 mA None; FSubscribe 3 mA b#"u" None; FNotify mA None; FBatch 4 []]
  = [QBatch 3; QSingle; QSingle; QSingle; QSingle] /\
  front_takes_gen = mkFront [TSingle] [TSingle] [TBatchLen] [TSingle; TSingle].
Proof. vm_compute. repeat split. Qed.

(* a batch whose range (5,8) was handed out after other threads had taken ids 0..4: positions are restored from ids 5..7 *)
Example C12_witness_fed_by_interleaved_supply :
  match fed_run (init false 4 4 false)
          [batch3; Back b#"[{""jsonrpc"":""2.0"",""id"":7,""result"":""c""},{""jsonrpc"":""2.0"",""id"":5,""result"":""a""},{""jsonrpc"":""2.0"",""id"":6,""result"":""b""}]"]
          [(5, 8); (8, 9)] with
  | Some ((_, outs), rest) => (fst (last outs ([], None)), rest)
  | None => ([], [])
  end = ([OComplete 1 (CBatch [rOk (IdNum 5) b#"""a"""; rOk (IdNum 6) b#"""b"""; rOk (IdNum 7) b#"""c"""])], [(8, 9)]).
Proof. vm_compute. reflexivity. Qed.
