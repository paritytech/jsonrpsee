(* C18 -- the property theorems with their proofs; the lemmas the proofs rest on are in Proofs/ClientMgrInv.v, Proofs/ClientMgrC03.v and
   Proofs/ClientMgrC18.v.
   Vocabulary: Model/ClientMgr.v and the specification parts of Proofs/ClientMgrInv.v, Proofs/ClientMgrC18.v:
     Inv s            the invariant (preserved by every step); Spelled s restates it in the model's own terms (I1-I5)
     refs k           the other id a table entry refers to: reserved unsubscribe id of KPendSub/KSub, tombstone id of KUnsubP
     qmsgs s, qids    queued front-to-back messages (queue ++ waiting) and the ids they carry
     quiet s          alive, not dying, ungated, idle send task, no injected fault, empty queue and waiting, qcap >= 1
     cycle s es       es is one of the closed cycles (a)-(f) started in s; cycles s es: any sequence of them
     issued_batch     es = es1 ++ FBatch h entries :: es2 issued in a live state, range = next_id .. next_id + length entries
     ncompl h o       number of `OComplete h _` in o;  outs_of tr: all outputs of a trace *)
From Coq Require Import List NArith Lia.
From JV Require Import Base.Bytes Base.Dec Model.Wire Model.ClientMgr Proofs.ClientDispatchFacts Proofs.ClientMgrInv Proofs.ClientMgrC03
                       Proofs.ClientMgrC18.
Import ListNotations.
Local Open Scope N_scope.

Theorem C18_invariant_init : forall (idstr : bool) (qc bc : nat) (gate : bool), Inv (init idstr qc bc gate).
Proof. exact init_inv. Qed.
Print Assumptions C18_invariant_init.

Theorem C18_invariant_step : forall (s : st) (e : ev), Inv s -> Inv (fst (fst (step s e))).
Proof. exact step_inv. Qed.
Print Assumptions C18_invariant_step.

Theorem C18_invariant : forall (idstr : bool) (qc bc : nat) (gate : bool) (es : list ev), Inv (fst (run (init idstr qc bc gate) es)).
Proof. intros idstr qc bc gate es. apply run_inv, init_inv. Qed.
Print Assumptions C18_invariant.

Theorem C18_invariant_spelled : forall (idstr : bool) (qc bc : nat) (gate : bool) (es : list ev),
  Spelled (fst (run (init idstr qc bc gate) es)).
Proof. intros idstr qc bc gate es. apply Inv_spelled, C18_invariant. Qed.
Print Assumptions C18_invariant_spelled.

(* once every call has been answered and every subscription has ended (no waiter-bearing entry, no subscription,
   no pending unsubscribe), nothing per-request and nothing per-subscription is retained *)
Theorem C18_quiescent_empty : forall (idstr : bool) (qc bc : nat) (gate : bool) (es : list ev),
  let s := fst (run (init idstr qc bc gate) es) in
  (forall i k, In (i, k) (requests (m s)) -> k = KCall None) -> requests (m s) = [] /\ subs (m s) = [].
Proof.
  intros idstr qc bc gate es. cbv zeta. exact (InvC_quiescent _ _ _ _ _ (inv_core _ (C18_invariant idstr qc bc gate es))).
Qed.
Print Assumptions C18_quiescent_empty.

(* the same, with "every unsubscribe acknowledged" expressed by the history variable *)
Theorem C18_quiescent_empty_unacked : forall (idstr : bool) (qc bc : nat) (gate : bool) (es : list ev),
  let s := fst (run (init idstr qc bc gate) es) in
  (forall i k, In (i, k) (requests (m s)) -> match k with KCall (Some _) | KPendSub _ _ _ | KSub _ _ _ => False | _ => True end) ->
  unacked s = [] -> requests (m s) = [] /\ subs (m s) = [].
Proof.
  intros idstr qc bc gate es. cbv zeta. intros Hk Hu. pose proof (inv_core _ (C18_invariant idstr qc bc gate es)) as C.
  apply (InvC_quiescent _ _ _ _ _ C). intros i k Hi. pose proof (Hk i k Hi) as X.
  destruct k as [[w|]| | |j]; try contradiction; auto.
  destruct C as (_ & T & _). apply (tc_unsubp _ _ _ _ _ _ _ T) in Hi. rewrite Hu in Hi. contradiction.
Qed.
Print Assumptions C18_quiescent_empty_unacked.

(* every entry of `batches` is a batch call issued earlier (its range is the ids that call reserved) that has not
   been completed so far *)
Theorem C18_batches_exact : forall (idstr : bool) (qc bc : nat) (gate : bool) (es : list ev) (lo hi : N) (h : handle),
  NoDup (front_handles es) ->
  In ((lo, hi), h) (batches (m (fst (run (init idstr qc bc gate) es)))) ->
  issued_batch idstr qc bc gate es h lo hi /\ ncompl h (outs_of (snd (run (init idstr qc bc gate) es))) = 0%nat.
Proof.
  intros idstr qc bc gate es lo hi h N Hi. split.
  - apply (proj2 (origin idstr qc bc gate es)). left. exact Hi.
  - pose proof (completions_bound idstr qc bc gate es h N). pose proof (pot_batch _ lo hi h Hi). lia.
Qed.
Print Assumptions C18_batches_exact.

(* ... and such an entry disappears only through an array reply from the server (batch_response) or at shutdown *)
Theorem C18_batch_leaves : forall (s : st) (e : ev) (x : (N * N) * handle),
  In x (batches (m s)) -> ~ In x (batches (m (fst (fst (step s e))))) ->
  (exists raw ms, e = Back raw /\ classify_frame raw = FArray ms) \/ dead (fst (fst (step s e))) = true.
Proof.
  intros s e x Hx Hn. destruct (step_keep s e) as [A | [K | K]]; [left; exact A | exfalso; exact (Hn (K x Hx)) | right; exact K].
Qed.
Print Assumptions C18_batch_leaves.

(* each closed cycle, started in any quiet state satisfying the invariant, returns all four tables (hence table_sizes),
   the invariant and quietness *)
Theorem C18_cycles_return : forall (s : st) (es : list ev), Inv s -> quiet s -> cycle s es ->
  let s' := fst (run s es) in
  Inv s' /\ quiet s' /\ table_sizes s' = table_sizes s /\
  requests (m s') = requests (m s) /\ subs (m s') = subs (m s) /\ batches (m s') = batches (m s) /\ nhandlers (m s') = nhandlers (m s).
Proof.
  intros s es I QT CY. cbv zeta. pose proof (cycle_returns s es I QT CY) as C. pose proof (Closed_sizes _ _ C) as T.
  destruct C as (a & b & c & d & e & f & g). split; [exact a|]. split; [exact b|]. split; [exact T|]. auto.
Qed.
Print Assumptions C18_cycles_return.

Theorem C18_no_growth : forall (s : st) (es : list ev), Inv s -> quiet s -> cycles s es ->
  table_sizes (fst (run s es)) = table_sizes s.
Proof. intros s es I QT CS. apply Closed_sizes, cycles_return; auto. Qed.
Print Assumptions C18_no_growth.

(* identifiers of finished work never capture a later message: a key that leaves `requests` and is not kept as the
   reference of a remaining entry was allocated below the counter, is never a key again, is never queued again, and an
   answer bearing it is NotPending (fatal), delivered to nobody *)
Theorem C18_no_capture : forall (idstr : bool) (qc bc : nat) (gate : bool) (es1 : list ev) (e : ev) (es2 : list ev) (i : id),
  let s := fst (run (init idstr qc bc gate) es1) in
  let s1 := fst (fst (step s e)) in
  let s2 := fst (run s1 es2) in
  In i (map fst (requests (m s))) -> ~ In i (map fst (requests (m s1))) ->
  (forall j k, In (j, k) (requests (m s1)) -> refs k <> Some i) ->
  (exists n, n < next_id s /\ i = mk_id s n) /\
  ~ In i (map fst (requests (m s2))) /\ ~ In i (qids (qmsgs s2)) /\
  forall r, rs_id r = i -> single_response s2 r = RFatal s2 [] FNotPending.
Proof.
  intros idstr qc bc gate es1 e es2 i. cbv zeta. intros K NK NR. pose proof (C18_invariant idstr qc bc gate es1) as I.
  set (s := fst (run (init idstr qc bc gate) es1)) in *.
  pose proof (step_good s e I) as (I1 & X1).
  pose proof (removed_retired s _ i I X1 K NK NR) as R1.
  pose proof (retired_ext _ _ i (proj2 (run_good es2 _ I1)) R1) as R2.
  destruct (inv_core _ I) as (C & _ & _).
  split; [|split; [|split]].
  - destruct (ic_lt_ids _ _ _ _ _ C i) as (n & Hn & ->); [apply in_app_iff; auto|]. exists n. auto.
  - intros H. apply (proj2 R2). left. exact H.
  - intros H. apply (proj2 R2). right; left. exact H.
  - intros r E. eapply retired_not_pending; eauto.
Qed.
Print Assumptions C18_no_capture.

(* while an unsubscribe is unacknowledged the kept subscribe id is a waiter-less tombstone (or already gone): a late
   duplicate of the subscribe answer is absorbed, delivered to nobody *)
Theorem C18_tombstone_absorbs : forall (s : st) (u rid : id) (r : response),
  Inv s -> In (u, KUnsubP rid) (requests (m s)) -> rs_id r = rid ->
  rres_out (single_response s r) = [] /\ (req_lookup rid (m s) = Some (KCall None) \/ req_lookup rid (m s) = None).
Proof.
  intros s u rid r I Hu E. destruct (inv_core _ I) as (_ & T & _).
  destruct (tc_res _ _ _ _ _ _ _ T _ _ _ Hu eq_refl) as (_ & _ & _ & UK).
  assert (L : req_lookup rid (m s) = Some (KCall None) \/ req_lookup rid (m s) = None).
  { destruct (req_lookup rid (m s)) as [k|] eqn:L; auto. left. apply (alookup_In id_eqb id_eqb_ok) in L. apply UK in L. subst; auto. }
  split; auto. unfold single_response. rewrite E. destruct L as [-> | ->]; reflexivity.
Qed.
Print Assumptions C18_tombstone_absorbs.

Definition ex_cfg : st := init false 4 4 false.
Definition ex_resp (i : N) (v : bytes) : bytes := b#"{""jsonrpc"":""2.0"",""id"":" ++ print_N i ++ b#",""result"":" ++ v ++ b#"}".
Definition ex_sub : ev := FSubscribe 7 b#"s" b#"u" None.

(* a subscription cycle: subscribe, accepted with subscription id 5, unsubscribe, acknowledged *)
Example C18_ex_sub_cycle :
  map (fun es => table_sizes (fst (run ex_cfg es)))
      [[ex_sub]; [ex_sub; Back (ex_resp 0 b#"5")]; [ex_sub; Back (ex_resp 0 b#"5"); FUnsub 8 7];
       [ex_sub; Back (ex_resp 0 b#"5"); FUnsub 8 7; Back (ex_resp 1 b#"true")]]
  = [(2, 0, 0, 0); (2, 1, 0, 0); (2, 0, 0, 0); (0, 0, 0, 0)].
Proof. vm_compute. reflexivity. Qed.

(* the hypotheses of the cycle theorem are satisfiable: this history is cycle (b) from the initial state *)
Example C18_ex_cycle_b : cycle ex_cfg [ex_sub; Back (ex_resp 0 b#"5"); FUnsub 8 7; Back (ex_resp 1 b#"true")].
Proof.
  eapply (cy_sub_unsub ex_cfg 7 b#"s" b#"u" None (ex_resp 0 b#"5") _ b#"5" (SubNum 5) 8 (ex_resp 1 b#"true") _);
    try (vm_compute; reflexivity).
  vm_compute. tauto.
Qed.

(* a batch of two, answered in reverse order, and a notification-method cycle *)
Example C18_ex_batch_cycle :
  map (fun es => table_sizes (fst (run ex_cfg es)))
      [[FBatch 7 [(b#"a", None); (b#"b", None)]];
       [FBatch 7 [(b#"a", None); (b#"b", None)]; Back (b#"[" ++ ex_resp 1 b#"1" ++ b#"," ++ ex_resp 0 b#"2" ++ b#"]")];
       [FSubMethod 7 b#"n"]; [FSubMethod 7 b#"n"; FUnsub 8 7]]
  = [(0, 0, 1, 0); (0, 0, 0, 0); (0, 0, 0, 1); (0, 0, 0, 0)].
Proof. vm_compute. reflexivity. Qed.

(* a late duplicate of the subscribe answer hits the tombstone and is absorbed; after the acknowledgement the same
   answer is NotPending *)
Example C18_ex_tombstone :
  map fst (snd (run ex_cfg [ex_sub; Back (ex_resp 0 b#"5"); FUnsub 8 7; Back (ex_resp 0 b#"5"); Back (ex_resp 1 b#"true"); Back (ex_resp 0 b#"5")]))
  = map fst (snd (run ex_cfg [ex_sub; Back (ex_resp 0 b#"5"); FUnsub 8 7])) ++ [[]; []; [OFatal FNotPending]].
Proof. vm_compute. reflexivity. Qed.

(* REFUTED (of the model, hence of the code): "every KPendSub/KSub u has requests[u] = KCall None" -- a server that
   answers the reserved unsubscribe id before it was ever sent removes the reservation; only "KCall None or absent" holds *)
Example C18_reserved_strict_refuted :
  requests (m (fst (run ex_cfg [ex_sub; Back (ex_resp 1 b#"true")]))) = [(IdNum 0, KPendSub (IdNum 1) 7 b#"u")].
Proof. vm_compute. reflexivity. Qed.

(* REFUTED: "a key removed from requests is never inserted again" without the proviso of C18_no_capture -- the reserved
   unsubscribe id removed by that premature answer is still referred to by the subscription and comes back at unsubscribe *)
Example C18_no_capture_literal_refuted :
  map (fun es => map fst (requests (m (fst (run ex_cfg es)))))
      [[ex_sub]; [ex_sub; Back (ex_resp 1 b#"true")]; [ex_sub; Back (ex_resp 1 b#"true"); Back (ex_resp 0 b#"5")];
       [ex_sub; Back (ex_resp 1 b#"true"); Back (ex_resp 0 b#"5"); FUnsub 8 7]]
  = [[IdNum 1; IdNum 0]; [IdNum 0]; [IdNum 0]; [IdNum 1; IdNum 0]].
Proof. vm_compute. reflexivity. Qed.
