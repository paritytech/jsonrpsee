(* C20 -- the property theorems; the lemmas they rest on are in Proofs/BuilderFacts.v.  The statements are compared with
   tools/pinned/C20.statements on every run.
   Vocabulary (Model/Builder.v): a value handed to a builder is `SOk t` (its Serialize impl wrote the text t) or
   `SFail p` (it wrote p, then returned Err); `sres_valid` = the text is UTF-8 and the strict reader parses it with one
   nesting level to spare (`value_of t`); `raw_valid t` = `raw_text t = Some t` (what a RawValue holds);
   `values` / `members` = the values of the successful inserts, in order; insert/insert_named model the REPAIRED code. *)
From JV Require Import Base.Bytes Base.Utf8 Json.Json Json.JsonSer Json.JsonParse Model.Builder Proofs.BuilderFacts.

Theorem C20_positional : forall ops : list sres,
  Forall sres_valid ops ->
  snd (inserts positional ops) = map sres_is_ok ops /\
  (values ops = [] -> build (fst (inserts positional ops)) = BNone) /\
  (values ops <> [] -> exists t, build (fst (inserts positional ops)) = BSome t /\
                                  parse_text t = Some (JArr (values ops)) /\ raw_valid t).
Proof.
  intros ops Hv. unfold positional. rewrite inserts_empty. cbn [fst snd]. split; [reflexivity|].
  destruct (values_texts ops Hv) as [|t v ts vs Ht HT].
  - split; [intros _; reflexivity | congruence].
  - destruct (array_text_good _ _ (Forall2_cons _ _ Ht HT)) as [HR HP]; [discriminate|].
    rewrite build_state, HR by discriminate. split; [discriminate|].
    intros _. eexists. split; [reflexivity|]. split; [exact HP | exact HR].
Qed.
Print Assumptions C20_positional.

Theorem C20_named : forall ops : list (bytes * sres),
  Forall (fun kv => utf8_valid (fst kv) = true /\ sres_valid (snd kv)) ops ->
  snd (inserts_named named ops) = map (fun kv => sres_is_ok (snd kv)) ops /\
  (members ops = [] -> build (fst (inserts_named named ops)) = BNone) /\
  (members ops <> [] -> exists t, build (fst (inserts_named named ops)) = BSome t /\
                                   parse_text t = Some (JObj (members ops)) /\ raw_valid t).
Proof.
  intros ops Hv. rewrite inserts_named_entries. unfold named. rewrite inserts_empty, entries_texts, entries_ok.
  cbn [fst snd]. split; [reflexivity|].
  destruct (members_pieces ops Hv) as [|kt kv kts kvs Ht HT].
  - split; [intros _; reflexivity | congruence].
  - destruct (object_text_good _ _ (Forall2_cons _ _ Ht HT)) as [HR HP]; [discriminate|].
    rewrite build_state, HR by discriminate. split; [discriminate|].
    intros _. eexists. split; [reflexivity|]. split; [exact HP | exact HR].
Qed.
Print Assumptions C20_named.

Theorem C20_empty_is_none :
  build positional = BNone /\ build named = BNone /\
  (forall ps, build (fst (inserts positional (map SFail ps))) = BNone) /\
  (forall kps, build (fst (inserts_named named (map (fun kp => (fst kp, SFail (snd kp))) kps))) = BNone).
Proof.
  split; [reflexivity|]. split; [reflexivity|]. split.
  - intro ps. unfold positional. rewrite inserts_empty.
    replace (ok_texts (map SFail ps)) with (@nil bytes) by (induction ps; [reflexivity | assumption]). reflexivity.
  - intro kps. rewrite inserts_named_entries. unfold named. rewrite inserts_empty, entries_texts.
    replace (ok_pieces (map (fun kp => (fst kp, SFail (snd kp))) kps)) with (@nil (bytes * bytes))
      by (induction kps; [reflexivity | assumption]). reflexivity.
Qed.
Print Assumptions C20_empty_is_none.

Theorem C20_failed_insert_harmless : forall (b : builder) (partial : bytes),
  insert b (SFail partial) = (b, false) /\ (forall k, insert_named b k (SFail partial) = (b, false)).
Proof. intros b p. split; [apply insert_fail | intro k; apply insert_named_fail]. Qed.
Print Assumptions C20_failed_insert_harmless.

Theorem C20_insert_reports : forall (b : builder) (v : sres) (k : bytes),
  snd (insert b v) = sres_is_ok v /\ snd (insert_named b k v) = sres_is_ok v.
Proof.
  intros b [t|p] k; cbn [sres_is_ok]; [split; reflexivity|]. rewrite insert_fail, insert_named_fail. split; reflexivity.
Qed.
Print Assumptions C20_insert_reports.

Theorem C20_total : forall ops : list sres,
  Forall sres_raw_valid ops ->
  build (fst (inserts positional ops)) <> BPanic /\
  (forall t, build (fst (inserts positional ops)) = BSome t -> raw_valid t) /\
  (build (fst (inserts positional ops)) = BNone <-> forallb (fun v => negb (sres_is_ok v)) ops = true).
Proof.
  intros ops Hv. unfold positional. apply total_of_raw. intro N. apply raw_text_array; [apply raw_valid_texts, Hv | exact N].
Qed.
Print Assumptions C20_total.

Theorem C20_total_named : forall ops : list (bytes * sres),
  Forall (fun kv => utf8_valid (fst kv) = true /\ sres_raw_valid (snd kv)) ops ->
  build (fst (inserts_named named ops)) <> BPanic /\
  (forall t, build (fst (inserts_named named ops)) = BSome t -> raw_valid t) /\
  (build (fst (inserts_named named ops)) = BNone <-> forallb (fun kv => negb (sres_is_ok (snd kv))) ops = true).
Proof.
  intros ops Hv. rewrite inserts_named_entries, <- entries_failed. unfold named. apply total_of_raw.
  rewrite entries_texts. intro N. apply raw_text_object; [apply raw_valid_pieces, Hv|].
  intro E. apply N. rewrite E. reflexivity.
Qed.
Print Assumptions C20_total_named.

Theorem C20_tuples_slices_arrays : forall es : list sres,
  Forall sres_valid es ->
  (all_ok es = false -> seq_to_rpc_params es = TErr) /\
  (all_ok es = true -> exists t, seq_to_rpc_params es = TOk (Some t) /\
                                 parse_text t = Some (JArr (values es)) /\ raw_valid t).
Proof.
  intros es Hv. split; intro H; unfold seq_to_rpc_params.
  - unfold ser_seq. destruct (seq_body_fail es true H) as [p ->]. reflexivity.
  - rewrite (ser_seq_ok es H). cbn [to_raw_value].
    destruct (values_texts es Hv) as [|t v ts vs Ht HT].
    + eexists. split; [reflexivity|]. split; reflexivity.
    + destruct (array_text_good _ _ (Forall2_cons _ _ Ht HT)) as [HR HP]; [discriminate|].
      eexists. split; [reflexivity|]. split; [exact HP | exact HR].
Qed.
Print Assumptions C20_tuples_slices_arrays.

Theorem C20_maps : forall es : list (bytes * sres),
  Forall (fun kv => utf8_valid (fst kv) = true /\ sres_valid (snd kv)) es ->
  (forallb (fun kv => sres_is_ok (snd kv)) es = false -> map_to_rpc_params es = TErr) /\
  (forallb (fun kv => sres_is_ok (snd kv)) es = true ->
     exists t, map_to_rpc_params es = TOk (Some t) /\ parse_text t = Some (JObj (members es)) /\ raw_valid t).
Proof.
  intros es Hv. split; intro H; unfold map_to_rpc_params.
  - unfold ser_map. destruct (map_body_fail es true H) as [p ->]. reflexivity.
  - rewrite (ser_map_ok es H). cbn [to_raw_value].
    destruct (members_pieces es Hv) as [|kt kv kts kvs Ht HT].
    + eexists. split; [reflexivity|]. split; reflexivity.
    + destruct (object_text_good _ _ (Forall2_cons _ _ Ht HT)) as [HR HP]; [discriminate|].
      eexists. split; [reflexivity|]. split; [exact HP | exact HR].
Qed.
Print Assumptions C20_maps.

Theorem C20_rpc_params_macro : forall vs : list sres,
  rpc_params vs = if all_ok vs then Some (fst (inserts positional vs)) else None.
Proof.
  intro vs. unfold rpc_params, all_ok, inserts. generalize positional as b.
  induction vs as [|[t|p] vs IH]; intro b; [reflexivity| |]; cbn [rpc_params_from inserts_with forallb sres_is_ok andb].
  - assert (Hs : snd (insert b (SOk t)) = true) by reflexivity. destruct (insert b (SOk t)) as [b1 ok]. cbn [snd] in Hs. subst ok.
    rewrite IH. destruct (inserts_with insert b1 vs). reflexivity.
  - rewrite insert_fail. reflexivity.
Qed.
Print Assumptions C20_rpc_params_macro.

Theorem C20_batch : forall (l : batch) (es : list (bytes * tres)),
  batch_inserts l es = (l ++ batch_entries es, map (fun e => outcome_of (snd e)) es).
Proof.
  intros l es. revert l.
  induction es as [|[m [p| |]] es IH]; intro l; cbn [batch_inserts batch_insert batch_entries flat_map map snd fst outcome_of].
  - rewrite app_nil_r. reflexivity.
  - rewrite IH. unfold batch_entries. rewrite <- app_assoc. reflexivity.
  - rewrite IH. reflexivity.
  - rewrite IH. reflexivity.
Qed.
Print Assumptions C20_batch.

(* the code before the repair (insert_old): a serialiser that wrote `{"a":` and failed makes build() panic *)
Theorem C20_failed_insert_refuted_old :
  exists partial : bytes,
    snd (insert_old positional (SFail partial)) = false /\
    build (fst (insert_old positional (SFail partial))) = BPanic.
Proof. exists b#"{""a"":". vm_compute. split; reflexivity. Qed.
Print Assumptions C20_failed_insert_refuted_old.

(* [1, <failing struct>, "x\n", {"k":[true,null]}] -> Ok Err Ok Ok, and the text built *)
Example C20_positional_witness :
  let ops := [SOk b#"1"; SFail b#"{""a"":"; SOk b#"""x\n"""; SOk b#"{""k"":[true,null]}"] in
  Forall sres_valid ops /\
  inserts positional ops =
    ({| buf := b#"[1,""x\n"",{""k"":[true,null]},"; b_start := x5b; b_end := x5d |}, [true; false; true; true]) /\
  build (fst (inserts positional ops)) = BSome b#"[1,""x\n"",{""k"":[true,null]}]" /\
  values ops = [JNum (NPos 1); JStr [x78; x0a]; JObj [(b#"k", JArr [JBool true; JNull])]].
Proof.
  cbv zeta. split; [repeat constructor; vm_compute; discriminate|]. vm_compute. repeat split; reflexivity.
Qed.

Example C20_named_witness :
  let ops := [(b#"a", SOk b#"1"); (b#"q""", SFail b#"[1,"); (b#"a", SOk b#"[ ]")] in
  Forall (fun kv => utf8_valid (fst kv) = true /\ sres_valid (snd kv)) ops /\
  build (fst (inserts_named named ops)) = BSome b#"{""a"":1,""a"":[ ]}" /\
  members ops = [(b#"a", JNum (NPos 1)); (b#"a", JArr [])].
Proof.
  cbv zeta. split; [repeat constructor; vm_compute; discriminate|]. vm_compute. split; reflexivity.
Qed.

(* before the repair: same inserts, build() panics; and a failed `1` followed by `2` silently built [12] *)
Example C20_old_witnesses :
  build (fst (inserts_with insert_old positional [SOk b#"1"; SFail b#"{""a"":"; SOk b#"2"])) = BPanic /\
  build (fst (inserts_with insert_old positional [SFail b#"1"; SOk b#"2"])) = BSome b#"[12]" /\
  build (fst (inserts_with insert_old positional [SFail []])) = BSome b#"[]" /\
  build (fst (inserts_named_with insert_named_old named [(b#"a", SOk b#"1"); (b#"b", SFail b#"[")])) = BPanic.
Proof. vm_compute. repeat split; reflexivity. Qed.

(* the depth hypothesis of sres_valid is needed: 127 nested arrays are a valid RawValue, the built text is valid
   raw JSON, but the strict reader (recursion limit 128) cannot read it back *)
Example C20_depth_boundary :
  let deep := repeat x5b 127 ++ repeat x5d 127 in
  raw_valid deep /\ value_of deep = None /\
  (exists t, build (fst (inserts positional [SOk deep])) = BSome t /\ raw_valid t /\ parse_text t = None).
Proof.
  cbv zeta. set (deep := repeat x5b 127 ++ repeat x5d 127).
  assert (R : raw_valid deep) by (vm_compute; reflexivity).
  split; [exact R|]. split; [vm_compute; reflexivity|].
  (* what is built and its raw validity follow from R; only the strict reader has to be run again *)
  assert (T : raw_valid (x5b :: join [x2c] [deep] ++ [x5d])).
  { apply raw_text_array; [|discriminate]. constructor; [apply raw_valid_piece, R | constructor]. }
  exists (x5b :: deep ++ [x5d]). split; [|split; [exact T | vm_compute; reflexivity]].
  unfold positional. rewrite inserts_empty. cbn [fst ok_texts]. rewrite build_state, T by discriminate. reflexivity.
Qed.
