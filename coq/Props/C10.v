(* C10 -- the property theorems and their proofs, over the lemmas of Proofs/StopFacts.v; the statements are recorded in
   tools/pinned/C10.statements.
   Model: coq/Model/Stop.v (LTS of accept loop, connection tasks, completion tokens, WS reader / per-message tasks /
   writer, hyper's graceful shutdown); `run (init_cap cap) tr` ranges over ALL finite traces, `effective s a` says that action a is
   enabled in s (a disabled action leaves the state unchanged). *)
From Coq Require Import List NArith Bool Arith Lia.
From JV Require Import Model.Stop Proofs.StopFacts.
Import ListNotations.

(* Once `stopped` has resolved, on every connection the client did not leave, each call is on the wire exactly as
   many times as its handler started (handlers started before the stop signal included): started => answered, once --
   for every queue capacity, i.e. also for answers that had to wait for room in the bounded outgoing queue. *)
Theorem C10_started_calls_answered : forall (cap : nat) (tr : list action) (c : nat) (k : N) (x : conn), s_resolved (run (init_cap cap) tr) = true -> nth_error (s_conns (run (init_cap cap) tr)) c = Some x -> c_closed x = false -> count_occ N.eq_dec (c_wire x) k = starts (init_cap cap) tr c k.
Proof.
  intros cap tr c k x R H C.
  pose proof (run_sinv tr cap) as I.
  rewrite <- (in_flight_done x k (Forall_nth_error _ _ _ _ _ (sinv_conns _ I) H) (all_dropped_nth _ _ _ (sinv_resolved _ I R) H) C).
  rewrite (run_in_flight tr (init_cap cap) c k x (sinv_init cap) H C). unfold in_flight_at. simpl. destruct c; reflexivity.
Qed.
Print Assumptions C10_started_calls_answered.

(* The property as worded: a handler that started while the server had not been told to stop, on a connection the
   client did not leave, has its reply on the wire once `stopped` has resolved. *)
Theorem C10_started_before_stop_answered : forall (cap : nat) (pre post : list action) (c : nat) (k : N) (x : conn), sig (run (init_cap cap) pre) = false -> effective (run (init_cap cap) pre) (Conn c (CStart k)) = true -> let tr := pre ++ Conn c (CStart k) :: post in s_resolved (run (init_cap cap) tr) = true -> nth_error (s_conns (run (init_cap cap) tr)) c = Some x -> c_closed x = false -> In k (c_wire x).
Proof.
  intros cap pre post c k x _ E tr R H C.
  apply (count_occ_In N.eq_dec).
  rewrite (C10_started_calls_answered cap tr c k x R H C).
  unfold tr. rewrite starts_app. simpl. rewrite Nat.eqb_refl, N.eqb_refl, E. simpl. lia.
Qed.
Print Assumptions C10_started_before_stop_answered.

(* `stopped` can only resolve when start_inner has returned and, for every connection, its task has ended, its
   completion token is dropped, its send task is finished with an empty queue, and (client still there) no call is
   pending -- in particular none whose answer is parked waiting for room in the bounded queue (state TRet). *)
Theorem C10_stopped_after_all : forall (cap : nat) (tr : list action), effective (run (init_cap cap) tr) StoppedResolves = true -> s_accept (run (init_cap cap) tr) = ADone /\ Forall (fun x => c_phase x = PDone /\ c_tok x = false /\ c_writer x = WFin /\ c_queue x = [] /\ (c_closed x = false -> c_tasks x = [])) (s_conns (run (init_cap cap) tr)).
Proof.
  intros cap tr E. pose proof (run_sinv tr cap) as I. set (s := run (init_cap cap) tr) in *.
  pose proof (sinv_conns s I) as I1.
  assert (D : all_dropped s = true).
  { unfold effective, step in E. destruct (s_handles s); simpl in E; try discriminate.
    destruct (all_dropped s); auto. }
  apply all_dropped_iff in D as [A F]. split; [exact A |]. pose proof (sinv_tok s I A) as I3.
  rewrite Forall_forall in *. intros x Hx.
  destruct (done_conn x (I1 _ Hx) (F _ Hx)) as (W & Q & T & _). auto.
Qed.
Print Assumptions C10_stopped_after_all.

(* After `stopped` resolved no connection is accepted, and a handler can only still start for a message that was
   sent before that point (id below the id counter at that point) on a WebSocket connection whose client has gone. *)
Theorem C10_nothing_after_stopped : forall (cap : nat) (tr1 tr2 : list action), s_resolved (run (init_cap cap) tr1) = true -> (forall kd, effective (run (init_cap cap) (tr1 ++ tr2)) (Connect kd) = false) /\ (forall c k, effective (run (init_cap cap) (tr1 ++ tr2)) (Conn c (CStart k)) = true -> (k < s_next (run (init_cap cap) tr1))%N /\ exists x, nth_error (s_conns (run (init_cap cap) (tr1 ++ tr2))) c = Some x /\ c_kind x = KWs /\ c_closed x = true).
Proof.
  intros cap tr1 tr2 R. rewrite stop_run_app. pose proof (run_sinv tr1 cap) as I. set (s1 := run (init_cap cap) tr1) in *.
  assert (Q : stopped_quiet (s_next s1) s1).
  { constructor; [exact I | exact (sinv_resolved s1 I R) |].
    eapply Forall_impl; [| exact (sinv_ids s1 I)]. intros x [_ B]. exact B. }
  destruct (run_stable _ (stopped_quiet_step (s_next s1)) tr2 _ Q) as [I2 D T]. set (s2 := run s1 tr2) in *.
  pose proof (sinv_conns s2 I2) as I1.
  split.
  - intros kd. unfold effective, step. apply all_dropped_iff in D as [-> _]. reflexivity.
  - intros c k E. rewrite effective_conn in E.
    destruct (nth_error (s_conns s2) c) as [x|] eqn:N1; try discriminate.
    unfold cstep in E. destruct (set_first (k, TSpawned) (k, TExec) (c_tasks x)) eqn:SF; try discriminate.
    pose proof (set_first_in _ _ _ _ SF) as In1.
    split.
    + pose proof (Forall_nth_error _ _ _ _ _ T N1) as B. simpl in B. rewrite Forall_forall in B. apply (B _ In1).
    + exists x. split; [reflexivity |].
      destruct (done_conn x (Forall_nth_error _ _ _ _ _ I1 N1) (all_dropped_nth _ _ _ D N1)) as (_ & _ & _ & K & _).
      apply K. intro Z. rewrite Z in In1. destruct In1.
Qed.
Print Assumptions C10_nothing_after_stopped.

(* stop() in any state: a second stop changes nothing, the outcome is Ok / AlreadyStopped / (no handle left), never
   anything else; AlreadyStopped exactly when every token is gone; nothing but the stop flag is touched. *)
Theorem C10_idempotent : forall s : state, let s1 := fst (step s Stop) in fst (step s1 Stop) = s1 /\ s_conns s1 = s_conns s /\ s_accept s1 = s_accept s /\ s_handles s1 = s_handles s /\ s_resolved s1 = s_resolved s /\ s_next s1 = s_next s /\ (snd (step s Stop) = OStopOk \/ snd (step s Stop) = OStopAlready \/ snd (step s Stop) = ONoHandle) /\ (snd (step s Stop) = OStopAlready <-> (s_handles s <> 0 /\ all_dropped s = true)) /\ (snd (step s1 Stop) = OStopOk \/ snd (step s1 Stop) = OStopAlready \/ snd (step s1 Stop) = ONoHandle).
Proof.
  intros s. unfold step. destruct (s_handles s) eqn:Hn; simpl.
  - rewrite Hn. simpl. intuition (try discriminate; try congruence).
  - destruct (all_dropped s) eqn:D; simpl; rewrite ?Hn; simpl.
    + rewrite D. simpl. intuition (try discriminate; try congruence).
    + unfold all_dropped, accept_done in *. simpl. rewrite D. simpl. intuition (try discriminate; try congruence).
Qed.
Print Assumptions C10_idempotent.

Theorem C10_drop_handle : forall s : state, let s1 := fst (step s DropHandle) in s_conns s1 = s_conns s /\ s_accept s1 = s_accept s /\ s_stop s1 = s_stop s /\ s_resolved s1 = s_resolved s /\ s_handles s1 = pred (s_handles s) /\ (snd (step s DropHandle) = OOk \/ snd (step s DropHandle) = ONoHandle) /\ (s_handles s = 1 -> sig s1 = true).
Proof.
  intros s. unfold step. destruct (s_handles s) eqn:Hn; simpl; repeat split; auto; try discriminate.
  intros E. inversion E; subst. unfold sig. simpl. apply orb_true_r.
Qed.
Print Assumptions C10_drop_handle.

Theorem C10_signal_stays : forall (s : state) (a : action), sig s = true -> sig (fst (step s a)) = true.
Proof.
  intros s a H. destruct (stop_step_shape s a); try exact H; unfold sig in *; cbn.
  - reflexivity.
  - rewrite Hn in H. exact H.
  - (* a handle was left, so the signal was up because of a stop *)
    rewrite Hn, orb_false_r in H. now rewrite H.
Qed.
Print Assumptions C10_signal_stays.

(* in every continuation of a run the stop signal is still up, and `stopped`, once resolved, stays resolved (so
   "after `stopped` resolved" is a suffix-closed notion) *)
Theorem C10_stop_monotone : forall (cap : nat) (tr1 tr2 : list action), (sig (run (init_cap cap) tr1) = true -> sig (run (init_cap cap) (tr1 ++ tr2)) = true) /\ (s_resolved (run (init_cap cap) tr1) = true -> s_resolved (run (init_cap cap) (tr1 ++ tr2)) = true).
Proof.
  intros cap tr1 tr2. rewrite stop_run_app.
  split; [apply (run_stable (fun s => sig s = true) C10_signal_stays) | apply (run_stable (fun s => s_resolved s = true) resolved_mono)].
Qed.
Print Assumptions C10_stop_monotone.

(* never stuck: in every reachable state with the stop signal up and some token still held, a step of the server's
   own tasks (or a handler returning) is enabled ... *)
Theorem C10_no_hang : forall (cap : nat) (tr : list action), 1 <= cap -> let s := run (init_cap cap) tr in sig s = true -> all_dropped s = false -> exists a, internal a = true /\ effective s a = true.
Proof.
  intros cap tr Cp s Sg D.
  destruct (run_stable _ (step_capinv cap) tr (init_cap cap)) as [_ CI]; [split; [reflexivity | constructor] |].
  pose proof (sinv_conns _ (run_sinv tr cap)) as I1. fold s in I1, CI.
  assert (Pr : forall n x, nth_error (s_conns s) n = Some x -> phase_done x = false ->
               exists a, internal a = true /\ effective s a = true).
  { intros n x N1 P.
    destruct (conn_progress x (Forall_nth_error _ _ _ _ _ I1 N1)) as (a & Ia & St).
    - rewrite (Forall_nth_error _ _ _ _ _ CI N1). exact Cp.
    - intro Z. unfold phase_done in P. rewrite Z in P. discriminate.
    - exists (Conn n a). rewrite internal_conn. split; auto. rewrite effective_conn, N1, Sg.
      destruct (cstep true x a); auto; congruence. }
  destruct (s_accept s) eqn:A.
  - exists AcceptSeeStop. split; auto. unfold effective, step. rewrite A, Sg. reflexivity.
  - (* draining *)
    destruct (forallb phase_done (s_conns s)) eqn:F.
    + destruct (forallb (fun x => negb (c_tok x)) (s_conns s)) eqn:T.
      * exists AcceptDone. split; auto. unfold effective, step. rewrite A, T. reflexivity.
      * destruct (forallb_false_nth _ _ _ T) as (n & x & N1 & P).
        exists (Conn n CHyperDone). split; auto. rewrite effective_conn, N1.
        assert (Dn : c_phase x = PDone).
        { pose proof (forallb_nth _ _ _ _ _ F N1) as Z. unfold phase_done in Z. now destruct (c_phase x). }
        destruct (done_conn x (Forall_nth_error _ _ _ _ _ I1 N1) Dn) as (_ & _ & _ & _ & K).
        unfold cstep. destruct (c_kind x).
        -- rewrite (K eq_refl) in P. discriminate.
        -- destruct (c_tok x); auto; discriminate.
    + destruct (forallb_false_nth _ _ _ F) as (n & x & N1 & P). exact (Pr n x N1 P).
  - (* accept loop has returned: some connection is not done *)
    unfold all_dropped, accept_done in D. rewrite A in D. simpl in D.
    destruct (forallb_false_nth _ _ _ D) as (n & x & N1 & P). exact (Pr n x N1 P).
Qed.
Print Assumptions C10_no_hang.

(* ... every such step strictly decreases a natural-number measure (so they cannot go on for ever) ... *)
Theorem C10_internal_steps_terminate : forall (s : state) (a : action), internal a = true -> effective s a = true -> mu (fst (step s a)) < mu s.
Proof.
  intros s a Ia E. revert E. unfold mu.
  destruct (stop_step_shape s a); intros Ef;
    try discriminate Ef; try discriminate Ia; cbn.
  - rewrite internal_conn in Ia. pose proof (csum_upd _ _ _ _ E (cstep_decreases _ _ _ _ Ia St)). lia.
  - rewrite A. lia.
  - rewrite A. lia.
  - rewrite R. lia.
Qed.
Print Assumptions C10_internal_steps_terminate.

(* ... and when every token is gone `stopped` does resolve for whoever holds a handle. *)
Theorem C10_stopped_enabled : forall s : state, all_dropped s = true -> s_resolved s = false -> s_handles s <> 0 -> effective s StoppedResolves = true.
Proof. intros s D R H. unfold effective, step. destruct (s_handles s); try congruence. rewrite D, R. reflexivity. Qed.
Print Assumptions C10_stopped_enabled.

Definition ws_trace : list action :=
  [Connect KWs; ClientSend 0; Conn 0 CRead; Conn 0 (CStart 0%N); Stop; Stop; Conn 0 CSeeStop; AcceptSeeStop;
   Conn 0 CHyperDone; AcceptDone].
Definition ws_tail : list action :=
  [Conn 0 (CFinish 0%N); Conn 0 (CEnqueue 0%N); Conn 0 CGracefulEnd; Conn 0 CWrite; Conn 0 CWriterStop; Conn 0 CBgDone;
   StoppedResolves].

(* a WS call executing at the stop: `stopped` is not enabled while it runs; afterwards it resolves and the reply is on the wire *)
Example C10_ws_witness : effective (run init ws_trace) StoppedResolves = false /\ s_resolved (run init (ws_trace ++ ws_tail)) = true /\ option_map c_wire (nth_error (s_conns (run init (ws_trace ++ ws_tail))) 0) = Some [0%N] /\ starts init (ws_trace ++ ws_tail) 0 0%N = 1 /\ snd (step (run init (ws_trace ++ ws_tail)) Stop) = OStopAlready /\ effective (run init (ws_trace ++ ws_tail)) (Connect KHttp) = false.
Proof. vm_compute. repeat split; reflexivity. Qed.

(* the same over HTTP, with a second request pipelined behind the executing one: it is never run *)
Example C10_http_witness : let tr := [Connect KHttp; ClientSend 0; Conn 0 CRead; Conn 0 (CStart 0%N); ClientSend 0; Stop; Conn 0 CSeeStop; AcceptSeeStop; Conn 0 (CFinish 0%N); Conn 0 CWrite; AcceptDone; StoppedResolves; Conn 0 CRead] in s_resolved (run init tr) = true /\ option_map c_wire (nth_error (s_conns (run init tr)) 0) = Some [0%N] /\ option_map c_inbox (nth_error (s_conns (run init tr)) 0) = Some [1%N] /\ starts init tr 0 1%N = 0.
Proof. vm_compute. repeat split; reflexivity. Qed.

(* a message not yet taken by the reader when the stop is observed is discarded, not run *)
Example C10_unread_is_dropped : let tr := [Connect KWs; ClientSend 0; Stop; Conn 0 CSeeStop; Conn 0 CRead; Conn 0 (CStart 0%N)] in starts init tr 0 0%N = 0 /\ option_map c_inbox (nth_error (s_conns (run init tr)) 0) = Some [].
Proof. vm_compute. split; reflexivity. Qed.

(* the exemption in C10_nothing_after_stopped is needed: the client left, `stopped` resolved, the spawned task still starts *)
Example C10_start_after_stopped_when_client_gone : let tr := [Connect KWs; ClientSend 0; Conn 0 CRead; Conn 0 CDisconnect; Conn 0 CReaderClosed; Conn 0 CWriterFail; Conn 0 CBgDone; Conn 0 CHyperDone; Stop; AcceptSeeStop; AcceptDone; StoppedResolves] in s_resolved (run init tr) = true /\ effective (run init tr) (Conn 0 (CStart 0%N)) = true.
Proof. vm_compute. split; reflexivity. Qed.

(* back-pressure: capacity 1, three calls executing at the stop and returning together.  The second answer cannot be
   queued (CEnqueue disabled: parked, token held), so graceful shutdown cannot end and `stopped` cannot resolve;
   once the writer makes room everything is delivered, and only then does `stopped` resolve. *)
Definition bp_trace : list action :=
  [Connect KWs; ClientSend 0; ClientSend 0; ClientSend 0; Conn 0 CRead; Conn 0 CRead; Conn 0 CRead;
   Conn 0 (CStart 0%N); Conn 0 (CStart 1%N); Conn 0 (CStart 2%N); Stop; Conn 0 CSeeStop; AcceptSeeStop; Conn 0 CHyperDone; AcceptDone;
   Conn 0 (CFinish 0%N); Conn 0 (CFinish 1%N); Conn 0 (CFinish 2%N); Conn 0 (CEnqueue 0%N)].
Definition bp_tail : list action :=
  [Conn 0 CWrite; Conn 0 (CEnqueue 2%N); Conn 0 CWrite; Conn 0 (CEnqueue 1%N); Conn 0 CGracefulEnd; Conn 0 CWrite;
   Conn 0 CWriterStop; Conn 0 CBgDone; StoppedResolves].
Example C10_backpressure_witness : effective (run (init_cap 1) bp_trace) (Conn 0 (CEnqueue 1%N)) = false /\ effective (run (init_cap 1) bp_trace) (Conn 0 CGracefulEnd) = false /\ effective (run (init_cap 1) bp_trace) StoppedResolves = false /\ effective (run (init_cap 2) bp_trace) (Conn 0 (CEnqueue 1%N)) = true /\ s_resolved (run (init_cap 1) (bp_trace ++ bp_tail)) = true /\ option_map c_wire (nth_error (s_conns (run (init_cap 1) (bp_trace ++ bp_tail))) 0) = Some [0%N; 2%N; 1%N].
Proof. vm_compute. repeat split; reflexivity. Qed.
