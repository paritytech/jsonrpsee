(* C02 -- server: a batch is answered by one array with exactly one reply per call entry.
   The property theorems, proved here from the lemmas of Proofs/ServerFacts.v about Model/Server.v; their statements
   are recorded in tools/pinned/C02.statements.

   Vocabulary (Proofs/ServerFacts.v, Model/Server.v):
     sniff t b = Some (false, body)   the message is sniffed as a batch
     batch_elems body                 the entries (raw spans) as serde_json::from_slice::<Vec<&RawValue>> yields them
     admitted c body es               batching enabled, the entries are es, es <> [], not longer than the limit
     entry_response t c e             the response of entry e (None: a notification); entry_responses: those of all entries, in order
     entry_directs t c es             frames the entries' callbacks write to the connection themselves
     array_of rs                      '[' r1 ',' ... ',' rk ']'
     KnownClass_C02_sub reg t es      KNOWN FINDING ws-batch-entry-calls-subscription-method: WebSocket and some entry is a valid
                                      call to a subscription method *)
From JV Require Import Base.Bytes Base.Dec Base.Utf8 Json.Json Json.JsonSer Json.JsonParse Json.JsonWf Model.Wire Model.RespSize
  Model.Server Gen.BatchGateGen Proofs.JsonFacts Proofs.WireFacts Proofs.ServerFacts.
Local Open Scope N_scope.

Theorem C02_gate : forall reg h t c b body, sniff t b = Some (false, body) -> (sc_batch c = BDisabled -> o_frames (handle reg h t c b) = [mk_response IdNull (PError batches_not_supported)] /\ o_log (handle reg h t c b) = []) /\ (forall n es, sc_batch c = BLimit n -> batch_elems body = Some es -> n < N.of_nat (length es) -> o_frames (handle reg h t c b) = [mk_response IdNull (PError (too_big_batch_request n))] /\ o_log (handle reg h t c b) = []) /\ (sc_batch c <> BDisabled -> batch_elems body = Some [] -> o_frames (handle reg h t c b) = [mk_response IdNull (PError invalid_request)] /\ o_log (handle reg h t c b) = []) /\ (sc_batch c <> BDisabled -> batch_elems body = None -> o_frames (handle reg h t c b) = [mk_response IdNull (PError parse_error)] /\ o_log (handle reg h t c b) = []).
Proof.
  intros reg h t c b body S. split; [|split; [|split]].
  - intro H. apply (frames_plain reg h t c b body _ S). rewrite rpc_batch_eq, H. reflexivity.
  - intros n es H He Hn. apply (frames_plain reg h t c b body _ S).
    rewrite rpc_batch_eq, H, (gate_reference_too_long n body es He Hn). reflexivity.
  - intros H He. destruct (handle_batch reg h t c b body S) as [L F].
    rewrite L, F, rpc_batch_eq, gate_reference_enabled, He by exact H.
    (* no limit is below the length of the empty array: it reaches the epilogue, whose builder holds only '[' *)
    assert (O : over_limit (sc_batch c) (length (@nil bytes)) = None)
      by (unfold over_limit; destruct (sc_batch c) as [|[|l]|]; reflexivity).
    rewrite O. destruct t; split; reflexivity.
  - intros H He. apply (frames_plain reg h t c b body _ S).
    rewrite rpc_batch_eq, gate_reference_enabled, He by exact H. reflexivity.
Qed.
Print Assumptions C02_gate.

Theorem C02_array_shape : forall reg h t c b body es, sniff t b = Some (false, body) -> admitted c body es -> let rs := entry_responses reg h t c es in (rs = [] -> replies t (handle reg h t c b) = [] /\ (t = Http -> o_status (handle reg h t c b) = Some 200 /\ o_frames (handle reg h t c b) = [null_text])) /\ (rs <> [] -> blen (array_of rs) <= sc_max_response c -> o_frames (handle reg h t c b) = entry_directs reg h t c es ++ [array_of rs] /\ o_log (handle reg h t c b) = entry_logs reg h t c es).
Proof.
  intros reg h t c b body es S A. cbv zeta. destruct (handle_batch reg h t c b body S) as [L F].
  pose proof A as (_ & _ & Hne & _). split.
  - intro Hrs. unfold replies.
    rewrite F, (rpc_batch_admitted reg h t c body es A), (batch_tail_silent reg h t c es Hne Hrs).
    destruct t; cbn [m_direct ws_own m_kind m_json app filter]; (split; [reflexivity|]); intro Ht; try discriminate Ht.
    split; [|reflexivity]. unfold handle. rewrite S. reflexivity.
  - intros Hrs Hfit. rewrite L, F, (rpc_batch_admitted reg h t c body es A), (batch_tail_fits reg h t c es Hrs Hfit).
    cbn [m_direct ws_own m_kind m_json m_log]. split; [|reflexivity].
    destruct t; [rewrite entry_directs_http|]; reflexivity.
Qed.
Print Assumptions C02_array_shape.

Theorem C02_array_reads_back : forall reg h t c es, handlers_wf h -> panics_only_blocking reg h -> let rs := entry_responses reg h t c es in rs <> [] -> array_elems (array_of rs) = Some rs /\ Forall wellformed_response rs.
Proof.
  intros reg h t c es Hw _. cbv zeta. intro Hne.
  destruct (Forall_and_inv _ _ (entry_responses_ok reg h t c es Hw)) as [A1 A2].
  split; [exact (array_elems_ser _ Hne A1) | exact A2].
Qed.
Print Assumptions C02_array_reads_back.

Theorem C02_entries_classified_as_singles : forall e, (is_object_text e = true -> classify_entry e = entry_of_class (classify e)) /\ (is_object_text e = false -> classify_entry e = EInvalid IdNull).
Proof.
  intro e. unfold classify_entry. destruct (is_object_text e); split; intro H; try discriminate H; reflexivity.
Qed.
Print Assumptions C02_entries_classified_as_singles.

Theorem C02_entry_equals_single : forall reg h t c e, is_object_text e = true -> (forall r, classify e = Call r -> entry_response reg h t c e = Some (mk_response (rq_id r) (call_payload reg h t c r)) /\ replies t (handle reg h t c e) = [mk_response (rq_id r) (call_payload reg h t c r)]) /\ (forall i, classify e = Invalid i -> entry_response reg h t c e = Some (mk_response i (PError invalid_request)) /\ replies t (handle reg h t c e) = [mk_response i (PError invalid_request)]) /\ (classify e = Notif -> entry_response reg h t c e = None /\ replies t (handle reg h t c e) = []).
Proof.
  intros reg h t c e Ho. pose proof (sniff_object_text t e Ho) as S.
  rewrite entry_response_eq. unfold classify_entry. rewrite Ho, (replies_single reg h t c e e S). split; [|split].
  - intros r E. rewrite E. split; reflexivity.
  - intros i E. rewrite E. split; reflexivity.
  - intro E. rewrite E. split; reflexivity.
Qed.
Print Assumptions C02_entry_equals_single.

Theorem C02_one_response_per_entry : forall reg h t c es, (length (entry_responses reg h t c es) = length (filter answered es) /\ (forall es1 e es2, es = es1 ++ e :: es2 -> entry_responses reg h t c es = entry_responses reg h t c es1 ++ opt_list (entry_response reg h t c e) ++ entry_responses reg h t c es2)) /\ (forall e, (entry_response reg h t c e = None <-> classify_entry e = ENotif) /\ (answered e = false <-> classify_entry e = ENotif)).
Proof.
  intros reg h t c es. split; [split|].
  - induction es as [|e es IH]; [reflexivity|]. unfold entry_responses in *. cbn [flat_map filter].
    rewrite app_length, IH, entry_response_eq. unfold answered. destruct (classify_entry e); reflexivity.
  - intros es1 e es2 ->. unfold entry_responses. rewrite flat_map_app. reflexivity.
  - intro e. rewrite entry_response_eq. unfold answered.
    destruct (classify_entry e); split; split; intro H; try reflexivity; discriminate H.
Qed.
Print Assumptions C02_one_response_per_entry.

Theorem C02_only_size_limit_replaces_array : forall reg h t c b body es, sniff t b = Some (false, body) -> admitted c body es -> let rs := entry_responses reg h t c es in rs <> [] -> let own := m_json (rpc_batch reg h t c body) in In own (o_frames (handle reg h t c b)) /\ ((own = array_of rs /\ blen (array_of rs) <= sc_max_response c) \/ (own = too_big_batch (sc_max_response c) /\ sc_max_response c < blen (array_of rs))).
Proof.
  intros reg h t c b body es S A. cbv zeta. intro Hrs. destruct (handle_batch reg h t c b body S) as [_ F].
  rewrite F, (rpc_batch_admitted reg h t c body es A).
  destruct (N.leb_spec (blen (array_of (entry_responses reg h t c es))) (sc_max_response c)) as [Hle|Hgt].
  - rewrite (batch_tail_fits reg h t c es Hrs Hle). cbn [m_json m_direct ws_own m_kind].
    split; [|left; split; [reflexivity | exact Hle]].
    destruct t; [left; reflexivity | apply in_or_app; right; left; reflexivity].
  - destruct (batch_tail_overflow reg h t c es Hrs Hgt) as [J K]. split; [|right; split; [exact J | exact Hgt]].
    destruct t; [left; reflexivity|]. apply in_or_app. right. unfold ws_own. rewrite K. left. reflexivity.
Qed.
Print Assumptions C02_only_size_limit_replaces_array.

Theorem C02_nothing_outside_array : forall reg h t c b body, sniff t b = Some (false, body) -> (forall es, batch_elems body = Some es -> ~ KnownClass_C02_sub reg t es) -> (length (o_frames (handle reg h t c b)) <= 1)%nat /\ o_frames (handle reg h t c b) = match t with Ws => ws_own (rpc_batch reg h t c body) | Http => [m_json (rpc_batch reg h t c body)] end.
Proof.
  intros reg h t c b body S Hk. destruct (handle_batch reg h t c b body S) as [_ F]. rewrite F.
  destruct t; [split; [cbn [length]; lia | reflexivity]|].
  rewrite (batch_direct_nil reg h Ws c body Hk). cbn [app]. split; [|reflexivity].
  unfold ws_own. destruct (m_kind _); cbn [length]; lia.
Qed.
Print Assumptions C02_nothing_outside_array.

(* KNOWN FINDING ws-batch-entry-calls-subscription-method: the response to the subscribe call is written to the
   connection by accept() and appended to the array as well *)
Theorem C02_sub_refuted : exists reg h c b body es, sniff Ws b = Some (false, body) /\ batch_elems body = Some es /\ KnownClass_C02_sub reg Ws es /\ o_frames (handle reg h Ws c b) = [ex_sub_resp; array_of [ex_sub_resp]].
Proof.
  exists ex_reg, ex_h, ex_cfg, ex_sub_batch, ex_sub_batch, [ex_sub_call].
  split; [vm_compute; reflexivity|]. split; [vm_compute; reflexivity|]. split; [|vm_compute; reflexivity].
  split; [reflexivity|]. exists ex_sub_call, {| rq_id := IdNum 1; rq_method := b#"sub"; rq_params := None |}.
  split; [left; reflexivity|]. split; vm_compute; reflexivity.
Qed.
Print Assumptions C02_sub_refuted.

(* /repo before its commit "fix: only JSON objects are read as batch entries" (the reading classify_entry_old keeps):
   the unguarded loop read an ARRAY entry through the sequence form of the derived struct visitors and ran the call *)
Theorem C02_seq_refuted_old : exists e r, is_object_text e = false /\ classify_entry_old e = ECall r /\ rq_method r = b#"echo" /\ KnownClass_C02_seq [e] /\ classify_entry e = EInvalid IdNull.
Proof.
  exists b#"[""2.0"",5,""echo"",[1]]", {| rq_id := IdNum 5; rq_method := b#"echo"; rq_params := Some b#"[1]" |}.
  split; [reflexivity|]. split; [vm_compute; reflexivity|]. split; [reflexivity|]. split; [|vm_compute; reflexivity].
  exists b#"[""2.0"",5,""echo"",[1]]". split; [left; reflexivity|]. split; [reflexivity|]. vm_compute. discriminate.
Qed.
Print Assumptions C02_seq_refuted_old.

(* the batch prologue / epilogue are INTERPRETED lists read from handle_rpc_call, RpcService::batch and
   BatchResponseBuilder::finish on every check (tools/translators/batch_gate.py, Gen/BatchGateGen.v): the order-sensitive
   facts the theorems above rest on, stated on the generated lists themselves:
   (1) a server with batching disabled answers its fixed error whatever the body is -- nothing has been parsed when
       that is decided (with the parse first, an unparseable body would get the parse error instead);
   (2) with batching enabled an unparseable array gets the parse error;
   (3) a limit n is exceeded exactly by more than n entries (`len > n`), and the batch is then REJECTED: no entry is
       admitted, so no entry is classified or executed (the length check precedes every entry processing);
   (4) everything else is admitted with exactly the entries of the array -- `[]` included: the prologue has no
       check for the empty array;
   (5) after the loop: only notifications (nothing appended, at least one notification) -> no reply, decided before the
       builder is finished; nothing appended otherwise (the empty array) -> BatchResponseBuilder::finish's error;
       else the closed array. *)
Theorem C02_gate_order : forall bc body, (bc = BDisabled -> run_gate batch_gate bc body = GReject batches_not_supported) /\ (bc <> BDisabled -> batch_elems body = None -> run_gate batch_gate bc body = GReject parse_error) /\ (forall n es, bc = BLimit n -> batch_elems body = Some es -> n < N.of_nat (length es) -> run_gate batch_gate bc body = GReject (too_big_batch_request n)) /\ (forall es, bc <> BDisabled -> batch_elems body = Some es -> (forall n, bc = BLimit n -> N.of_nat (length es) <= n) -> run_gate batch_gate bc body = GAdmit es) /\ (forall buf got_notification, run_epilogue batch_epilogue buf got_notification = if (Nat.leb (length buf) 1) && got_notification then Some FinSilent else Some (FinJson (match buf with [_] => mk_response IdNull (PError invalid_request) | _ => removelast buf ++ [x5d] end))).
Proof.
  intros bc body. rewrite run_batch_gate. split; [|split; [|split; [|split]]].
  - intros ->. reflexivity.
  - intros Hb He. rewrite gate_reference_enabled, He by exact Hb. reflexivity.
  - intros n es -> He Hn. exact (gate_reference_too_long n body es He Hn).
  - intros es Hb He Hl. rewrite gate_reference_enabled, He by exact Hb. unfold over_limit.
    destruct bc as [|l|]; [congruence | | reflexivity].
    specialize (Hl l eq_refl). destruct (N.ltb_spec l (N.of_nat (length es))); [lia | reflexivity].
  - intros buf gn. rewrite run_batch_epilogue. unfold epilogue_reference, finish. reflexivity.
Qed.
Print Assumptions C02_gate_order.

Example C02_batch_example : o_frames (handle ex_reg ex_h Http ex_cfg b#"[{""jsonrpc"":""2.0"",""id"":1,""method"":""echo"",""params"":[1]}, {""jsonrpc"":""2.0"",""method"":""echo""}, 7, {""id"":""x""}, [""2.0"",5,""echo"",[1]]]") = [b#"[{""jsonrpc"":""2.0"",""id"":1,""result"":[1]},{""jsonrpc"":""2.0"",""id"":null,""error"":{""code"":-32600,""message"":""Invalid request""}},{""jsonrpc"":""2.0"",""id"":""x"",""error"":{""code"":-32600,""message"":""Invalid request""}},{""jsonrpc"":""2.0"",""id"":null,""error"":{""code"":-32600,""message"":""Invalid request""}}]"] /\ o_log (handle ex_reg ex_h Http ex_cfg b#"[{""jsonrpc"":""2.0"",""id"":1,""method"":""echo"",""params"":[1]}, {""jsonrpc"":""2.0"",""method"":""echo""}, 7]") = [(b#"echo", Some b#"[1]")].
Proof. split; vm_compute; reflexivity. Qed.

Example C02_gates_example : o_frames (handle ex_reg ex_h Ws {| sc_max_response := 10485760; sc_batch := BLimit 1 |} b#"[1,2]") = [b#"{""jsonrpc"":""2.0"",""id"":null,""error"":{""code"":-32010,""message"":""The batch request was too large"",""data"":""Exceeded max limit of 1""}}"] /\ o_frames (handle ex_reg ex_h Ws {| sc_max_response := 10485760; sc_batch := BDisabled |} b#"[1,2]") = [b#"{""jsonrpc"":""2.0"",""id"":null,""error"":{""code"":-32005,""message"":""Batched requests are not supported by this server""}}"] /\ o_frames (handle ex_reg ex_h Ws ex_cfg b#"[ ]") = [b#"{""jsonrpc"":""2.0"",""id"":null,""error"":{""code"":-32600,""message"":""Invalid request""}}"] /\ o_frames (handle ex_reg ex_h Ws ex_cfg b#"[{""jsonrpc"":""2.0"",""method"":""echo""}]") = [] /\ o_frames (handle ex_reg ex_h Ws {| sc_max_response := 50; sc_batch := BUnlimited |} b#"[{""jsonrpc"":""2.0"",""id"":1,""method"":""echo""},{""jsonrpc"":""2.0"",""id"":2,""method"":""echo""}]") = [b#"{""jsonrpc"":""2.0"",""id"":null,""error"":{""code"":-32011,""message"":""The batch response was too large"",""data"":""Exceeded max limit of 50""}}"].
Proof. repeat split; vm_compute; reflexivity. Qed.

Example C02_admitted_nonvacuous : admitted ex_cfg ex_sub_batch [ex_sub_call] /\ ~ KnownClass_C02_sub ex_reg Http [ex_sub_call].
Proof.
  split.
  - split; [discriminate|]. split; [vm_compute; reflexivity|]. split; [discriminate | reflexivity].
  - intros [H _]. discriminate H.
Qed.
