(* C17 -- the property theorems; the lemmas they rest on are in Proofs/MacroApiFacts.v and Proofs/MacroApiFamilyFacts.v.
   The statements are compared with tools/pinned/C17.statements on every run.
   Vocabulary (coq/Model/MacroApi.v, the code EMITTED by the rpc proc-macro as a function of an API description):
     ty / val / enc / dec   the Rust argument, result and item types, their values, and serde's value codec (parameters:
                            `enc t v` is the JSON value Serialize writes, `dec t j` what Deserialize reads; user types)
     val_ok t v             v round-trips at t: enc t v is well-formed JSON nested < 127 deep and dec t (enc t v) = Some v
     args_ok ps args        one argument per parameter; an Option parameter takes None or Some v with enc v <> null
     client_params k ps args        what the generated client method hands to request()/subscribe(): ArrayParams in declaration
                            order, ObjectParams under the (renamed) names for param_kind = map, nothing for no parameters
     server_decode ps p     the generated server closure on Params p: by name through the derived ParamsObject when p is an
                            object, else seq.next()/optional_next() per parameter; DOk tuple or DErr code
     args_json / args_members       the JSON values of the arguments (None = null), alone / with the wire names
     presents ps args ms    the member list ms gives every argument under one of its three keys (rename, snake_case,
                            lowerCamelCase), in any order, among members no parameter owns; absent optionals left out or null
     params_distinct ps     no two parameters share a wire name / snake_case alias / lowerCamelCase alias
     resolve a n            Methods::method(n) on the RpcModule built by the generated into_rpc (Model/Registry.v)
     registered_names a     every name into_rpc registers: namespaced method / subscribe / unsubscribe names, aliases as written
     stub_request / server_receive   the request text the stub sends; what the server does with a request text (RCall b args:
                            the trait method behind binding b runs with args)
     server_response / client_result / item_notification / client_item   the answer and subscription items on the wire *)
From Coq Require Import ZArith List Lia.
From JV Require Import Base.Bytes Base.Utf8 Json.Json Json.JsonSer Json.JsonParse.
From JV Require Model.Params Model.Builder Model.Wire Model.Registry Proofs.WireFacts.
From JV Require Import Model.MacroApi Proofs.MacroApiFacts Gen.MacroApiGen Proofs.MacroApiFamilyFacts.
Import ListNotations.

(* what the stub encodes, the generated server closure decodes to the same tuple: both param kinds, every parameter list *)
Theorem C17_args_roundtrip : forall (ty val : Type) (enc : ty -> val -> json) (dec : ty -> json -> option val) (k : pkind) (ps : list (param ty)) (args : list (option val)), args_ok ty val enc dec ps args -> (k = PMap -> params_distinct ps = true /\ names_utf8 ty ps) -> exists p, client_params ty val enc k ps args = Builder.TOk p /\ server_decode ty val dec ps (Params.params_new p) = DOk args.
Proof.
  intros ty val enc dec k ps args H Hk.
  destruct (stub_params_decode ty val enc dec k ps args H Hk) as (p & Hc & Hd & _). exists p. split; assumption.
Qed.
Print Assumptions C17_args_roundtrip.

(* the text the stub puts on the wire is exactly the compact JSON array / object of the arguments *)
Theorem C17_client_params_text : forall (ty val : Type) (enc : ty -> val -> json) (dec : ty -> json -> option val) (ps : list (param ty)) (args : list (option val)), ps <> [] -> args_ok ty val enc dec ps args -> client_params ty val enc PArray ps args = Builder.TOk (Some (ser (JArr (args_json ty val enc ps args)))) /\ (names_utf8 ty ps -> client_params ty val enc PMap ps args = Builder.TOk (Some (ser (JObj (args_members ty val enc ps args))))).
Proof.
  intros ty val enc dec ps args N H.
  split; [exact (client_params_array ty val enc dec ps args N H) | intro U; exact (client_params_map ty val enc dec ps args N U H)].
Qed.
Print Assumptions C17_client_params_text.

(* positional calls however they are written: any whitespace, surplus elements are not read *)
Theorem C17_positional_any_text : forall (ty val : Type) (enc : ty -> val -> json) (dec : ty -> json -> option val) (ps : list (param ty)) (args : list (option val)) (raw : bytes) (extra : list json), args_ok ty val enc dec ps args -> parse_text raw = Some (JArr (args_json ty val enc ps args ++ extra)) -> server_decode ty val dec ps (Params.params_new (Some raw)) = DOk args.
Proof. exact positional_any_text. Qed.
Print Assumptions C17_positional_any_text.

(* trailing Option parameters passed (None goes as null), left out of the array, or no params at all: the same tuple *)
Theorem C17_optional_tail : forall (ty val : Type) (enc : ty -> val -> json) (dec : ty -> json -> option val) (pf : list (param ty)) (af : list (option val)) (pt : list (param ty)) (raw_full raw_short : bytes), args_ok ty val enc dec pf af -> Forall (fun p => p_opt p = true) pt -> parse_text raw_full = Some (JArr (args_json ty val enc (pf ++ pt) (af ++ repeat None (length pt)))) -> parse_text raw_short = Some (JArr (args_json ty val enc pf af)) -> server_decode ty val dec (pf ++ pt) (Params.params_new (Some raw_full)) = DOk (af ++ repeat None (length pt)) /\ server_decode ty val dec (pf ++ pt) (Params.params_new (Some raw_short)) = DOk (af ++ repeat None (length pt)) /\ (pf = [] -> server_decode ty val dec (pf ++ pt) (Params.params_new None) = DOk (af ++ repeat None (length pt))).
Proof.
  intros ty val enc dec pf af pt raw_full raw_short H Hp P1 P2.
  assert (Hall : args_ok ty val enc dec (pf ++ pt) (af ++ repeat None (length pt))).
  { apply Forall2_app; [exact H|]. clear -Hp. induction Hp as [|p pt Hp _ IH]; [constructor|].
    cbn [length repeat]. constructor; [exact Hp | exact IH]. }
  split; [|split].
  - rewrite <- (app_nil_r (args_json _ _ _ _ _)) in P1. apply (positional_any_text ty val enc dec _ _ _ [] Hall P1).
  - rewrite (server_decode_array ty val dec (pf ++ pt) raw_short _ P2). apply (collect_spec_omitted ty val enc dec); assumption.
  - intros ->. inversion H; subst. cbn [app]. rewrite server_decode_absent. apply (collect_exhausted ty val dec), Hp.
Qed.
Print Assumptions C17_optional_tail.

(* by-name calls however they are written: any of the three keys per parameter, any order, unknown members, absent
   optionals left out or null (no distinctness hypothesis: `presents` speaks about the field that owns each member) *)
Theorem C17_named_any_presentation : forall (ty val : Type) (enc : ty -> val -> json) (dec : ty -> json -> option val) (ps : list (param ty)) (args : list (option val)) (raw : bytes) (ms : list (bytes * json)), args_ok ty val enc dec ps args -> parse_text raw = Some (JObj ms) -> presents ty val enc ps args ms -> server_decode ty val dec ps (Params.params_new (Some raw)) = DOk args.
Proof.
  intros ty val enc dec ps args raw ms H P Hp. rewrite (server_decode_object ty val dec ps raw ms P).
  apply (decode_members_presents ty val enc dec); assumption.
Qed.
Print Assumptions C17_named_any_presentation.

(* with distinct keys the object the stub builds presents its arguments *)
Theorem C17_canonical_presents : forall (ty val : Type) (enc : ty -> val -> json) (dec : ty -> json -> option val) (ps : list (param ty)) (args : list (option val)), params_distinct ps = true -> args_ok ty val enc dec ps args -> presents ty val enc ps args (args_members ty val enc ps args).
Proof. exact canonical_presents. Qed.
Print Assumptions C17_canonical_presents.

(* every declared name -- namespaced method, subscribe and unsubscribe names, aliases as written -- resolves to its own
   handler, and no other name resolves; hypothesis: the registered names are pairwise distinct (the macro rejects a clash) *)
Theorem C17_names_resolve : forall (ty : Type) (a : api ty), NoDup (registered_names a) -> (forall i m, nth_error (a_methods a) i = Some m -> resolve a (rpc_identifier a (m_name m)) = Some (method_binding i m) /\ (forall al, In al (m_aliases m) -> resolve a al = Some (method_binding i m))) /\ (forall j s, nth_error (a_subs a) j = Some s -> resolve a (rpc_identifier a (s_name s)) = Some (sub_binding a j) /\ resolve a (rpc_identifier a (unsub_name s)) = Some (unsub_binding a j) /\ (forall al, In al (s_aliases s) -> resolve a al = Some (sub_binding a j)) /\ (forall al, In al (s_unsub_aliases s) -> resolve a al = Some (unsub_binding a j))) /\ (forall n, ~ In n (registered_names a) -> resolve a n = None).
Proof. exact names_resolve. Qed.
Print Assumptions C17_names_resolve.

(* the table into_rpc builds is exactly the declared one, in registration order *)
Theorem C17_registry_expected : forall (ty : Type) (a : api ty), NoDup (registered_names a) -> registry a = expected_table a.
Proof. exact registry_expected. Qed.
Print Assumptions C17_registry_expected.

(* the value / the error object the trait method returned is what the stub's future resolves to *)
Theorem C17_result_passthrough : forall (ty val : Type) (enc : ty -> val -> json) (dec : ty -> json -> option val) (i : Wire.id) (rt : ty) (v : val), WireFacts.wf_id i -> val_ok ty val enc dec rt v -> client_result ty val dec rt (server_response ty val enc i rt (HOk v)) = Some (i, COk v).
Proof.
  intros ty val enc dec i rt v Wi (W & D & R). unfold client_result, server_response.
  rewrite WireFacts.response_roundtrip; cbn [Wire.rs_id Wire.rs_payload]; [|exact Wi | apply WireFacts.raw_payload_ser, W].
  rewrite JsonFacts.parse_text_ser, R; [reflexivity | exact W | unfold depth_limit; lia].
Qed.
Print Assumptions C17_result_passthrough.

Theorem C17_error_passthrough : forall (ty val : Type) (enc : ty -> val -> json) (dec : ty -> json -> option val) (i : Wire.id) (rt : ty) (e : Wire.errobj), WireFacts.wf_id i -> WireFacts.wf_errobj e -> client_result ty val dec rt (server_response ty val enc i rt (HErr e)) = Some (i, CErr e).
Proof.
  intros ty val enc dec i rt e Wi We. unfold client_result, server_response.
  rewrite WireFacts.response_roundtrip; cbn [Wire.rs_id Wire.rs_payload]; [reflexivity | exact Wi | exact We].
Qed.
Print Assumptions C17_error_passthrough.

(* a subscription item sent by the trait method is the item the client's stream yields, typed at the item type *)
Theorem C17_item_passthrough : forall (ty val : Type) (enc : ty -> val -> json) (dec : ty -> json -> option val) (name : bytes) (sid : Wire.subid) (it : ty) (v : val), utf8_valid name = true -> WireFacts.wf_subid sid -> val_ok ty val enc dec it v -> client_item ty val dec it (item_notification ty val enc name sid it v) = Some (name, sid, Some v).
Proof.
  intros ty val enc dec name sid it v Un Ws (W & D & R). unfold client_item, item_notification.
  rewrite (WireFacts.sub_notif_roundtrip name sid false _ Un Ws (WireFacts.raw_payload_ser _ W)).
  rewrite JsonFacts.parse_text_ser, R; [reflexivity | exact W | unfold depth_limit; lia].
Qed.
Print Assumptions C17_item_passthrough.

(* end to end: the request the generated client method sends makes the trait method of that name run with equal arguments *)
Theorem C17_stub_call_reaches_method : forall (ty val : Type) (enc : ty -> val -> json) (dec : ty -> json -> option val) (a : api ty) (i : nat) (m : method ty) (id : Wire.id) (args : list (option val)), NoDup (registered_names a) -> nth_error (a_methods a) i = Some m -> WireFacts.wf_id id -> utf8_valid (rpc_identifier a (m_name m)) = true -> args_ok ty val enc dec (m_params m) args -> (m_pkind m = PMap -> params_distinct (m_params m) = true /\ names_utf8 ty (m_params m)) -> exists text, stub_request ty val enc id (rpc_identifier a (m_name m)) (m_pkind m) (m_params m) args = Some text /\ server_receive ty val dec a text = RCall (method_binding i m) args.
Proof.
  intros ty val enc dec a i m id args ND Hm Wi Un H Hk. destruct (names_resolve ty a ND) as (R1 & _ & _).
  apply (request_reaches ty val enc dec a id _ _ _ _ (method_binding i m)); try assumption.
  - apply (proj1 (R1 i m Hm)).
  - apply params_of_method, Hm.
Qed.
Print Assumptions C17_stub_call_reaches_method.

Theorem C17_stub_call_reaches_subscription : forall (ty val : Type) (enc : ty -> val -> json) (dec : ty -> json -> option val) (a : api ty) (j : nat) (s : subscription ty) (id : Wire.id) (args : list (option val)), NoDup (registered_names a) -> nth_error (a_subs a) j = Some s -> WireFacts.wf_id id -> utf8_valid (rpc_identifier a (s_name s)) = true -> args_ok ty val enc dec (s_params s) args -> (s_pkind s = PMap -> params_distinct (s_params s) = true /\ names_utf8 ty (s_params s)) -> exists text, stub_request ty val enc id (rpc_identifier a (s_name s)) (s_pkind s) (s_params s) args = Some text /\ server_receive ty val dec a text = RCall (sub_binding a j) args.
Proof.
  intros ty val enc dec a j s id args ND Hs Wi Un H Hk. destruct (names_resolve ty a ND) as (_ & R2 & _).
  apply (request_reaches ty val enc dec a id _ _ _ _ (sub_binding a j)); try assumption.
  - apply (proj1 (R2 j s Hs)).
  - apply params_of_sub, Hs.
Qed.
Print Assumptions C17_stub_call_reaches_subscription.

(* the hypotheses are needed: colliding keys (a_b / aB) make the stub's own by-name call fail with -32602 ... *)
Theorem C17_collision_refuted : exists (ps : list (param jty)) (args : list (option json)) (t : bytes), args_ok jty json jenc jdec ps args /\ names_utf8 jty ps /\ params_distinct ps = false /\ client_params jty json jenc PMap ps args = Builder.TOk (Some t) /\ server_decode jty json jdec ps (Params.params_new (Some t)) = DErr (-32602)%Z.
Proof.
  (* collide(a_b: u8, aB: u8): snake_case(aB) = a_b and lowerCamelCase(a_b) = aB, every key is owned by the first field *)
  exists [Param b#"a_b" None false (TyUInt 255); Param b#"aB" None false (TyUInt 255)], [Some (JNum (NPos 1)); Some (JNum (NPos 2))].
  eexists. split; [|split; [|split; [|split]]].
  - constructor; [|constructor; [|constructor]];
      (split; [split; [reflexivity | split; [cbn; lia | reflexivity]] | discriminate]).
  - repeat constructor.
  - vm_compute. reflexivity.
  - vm_compute. reflexivity.
  - vm_compute. reflexivity.
Qed.
Print Assumptions C17_collision_refuted.

(* ... and an Option parameter whose payload serialises to null (Option<Option<u8>>: Some(None)) arrives as None *)
Theorem C17_null_payload_refuted : exists (ps : list (param jty)) (v : json) (t : bytes), ps = [Param b#"a" None true (TyOption (TyUInt 255))] /\ val_ok jty json jenc jdec (TyOption (TyUInt 255)) v /\ client_params jty json jenc PArray ps [Some v] = Builder.TOk (Some t) /\ server_decode jty json jdec ps (Params.params_new (Some t)) = DOk [None].
Proof.
  eexists. exists JNull. eexists. split; [reflexivity|]. split; [|split].
  - split; [reflexivity|]. split; [cbn; lia | reflexivity].
  - vm_compute. reflexivity.
  - vm_compute. reflexivity.
Qed.
Print Assumptions C17_null_payload_refuted.

(* the compiled family, by name: Gen.MacroApiGen.family_keys lists per API, trait function and parameter the member key the
   generated CLIENT writes and the keys the generated SERVER accepts, each derived by the translator with the rule it reads
   from its own proc-macro source (render_client.rs / render_server.rs).  For every function of every API: the client's key is
   the model's p_name, the server's keys are the model's keys_of, the client's key is one of the server's keys, and no key is
   accepted for two parameters (except in the labelled negative example collide(a_b, aB)) *)
Theorem C17_by_name_keys_agree : Forall2 (fun (a : japi) (ks : list (list (bytes * list bytes))) => Forall2 (fun (ps : list (param jty)) (kps : list (bytes * list bytes)) => Forall2 (fun (p : param jty) (kp : bytes * list bytes) => fst kp = p_name p /\ snd kp = keys_of p /\ In (fst kp) (snd kp)) ps kps /\ (map p_name ps = [b#"a_b"; b#"aB"] \/ keys_disjoint (map snd kps))) (item_params a) ks) family family_keys.
Proof. apply (family_keys_ok_sound [b#"a_b"; b#"aB"]). vm_compute. reflexivity. Qed.
Print Assumptions C17_by_name_keys_agree.

(* the compiled family, optional parameters: Gen.MacroApiGen.family_options lists per API, trait function and parameter the
   path segments of the declared type AS SPELLED in the trait and the decision of helpers::is_option on that spelling, computed
   by the translator with the rule it reads from proc-macros/src/helpers.rs on every run.  The decision is the p_opt the model's
   decoders run on, and every parameter whose type is one of the standard spellings of std's Option (`Option`, `option::Option`,
   `std::option::Option`, `core::option::Option`, with or without a leading `::`) is decided optional *)
Theorem C17_option_spellings_are_optional : Forall2 (fun (a : japi) (rs : list (list (list bytes * bool))) => Forall2 (fun (ps : list (param jty)) (r : list (list bytes * bool)) => Forall2 (fun (p : param jty) (x : list bytes * bool) => snd x = p_opt p /\ (is_std_option (fst x) = true -> p_opt p = true)) ps r) (item_params a) rs) family family_options.
Proof.
  (* a rule in helpers.rs that forgets one of the spellings used in the family makes family_options_ok false *)
  apply family_options_ok_sound. vm_compute. reflexivity.
Qed.
Print Assumptions C17_option_spellings_are_optional.

(* the compiled family: coq/Gen/MacroApiGen.v, read from harness/src/bin/macroapi.rs *)

(* every API of the family satisfies the name hypothesis *)
Example C17_family_names_distinct :
  forallb (fun a => distinctb (registered_names a)) family = true /\
  forall a, In a family -> NoDup (registered_names a).
Proof.
  assert (E : forallb (fun a => distinctb (registered_names a)) family = true) by (vm_compute; reflexivity).
  split; [exact E|]. intros a H. apply distinctb_nodup. rewrite forallb_forall in E. apply E, H.
Qed.

(* every method of the family satisfies the parameter-key hypothesis, except the labelled negative example *)
Example C17_family_params_distinct :
  forallb (fun a : japi => forallb (fun m => params_distinct (m_params m)) (a_methods a) && forallb (fun s => params_distinct (s_params s)) (a_subs a)) [api_Plain; api_Ns; api_Dot; api_Glue; api_Raw; api_Spell; api_Ren] = true /\
  map (fun m : method jty => params_distinct (m_params m)) (a_methods api_Neg) = [false; true].
Proof.
  split; [|vm_compute; reflexivity].
  (* evaluated on the key lists, each computed once *)
  rewrite (forallb_eq _ (fun a : japi => forallb (fun m => disjointb (map keys_of (m_params m))) (a_methods a) &&
                                         forallb (fun s => disjointb (map keys_of (s_params s))) (a_subs a))).
  - vm_compute. reflexivity.
  - intro a. f_equal; apply forallb_eq; intro; apply params_distinct_keys.
Qed.

(* namespaces, separators, aliases (not namespaced), subscription names of the family *)
Example C17_witness_names :
  resolve api_Ns b#"ns_mapOpt" = Some (Registry.Bind 2 Registry.KSync) /\
  resolve api_Ns b#"plainAlias" = Some (Registry.Bind 2 Registry.KSync) /\
  resolve api_Ns b#"ns_plainAlias" = None /\
  resolve api_Ns b#"mapOpt" = None /\
  resolve api_Ns b#"ns_subscribeItems" = Some (Registry.Bind 5 Registry.KSub) /\
  resolve api_Ns b#"subAlias" = Some (Registry.Bind 5 Registry.KSub) /\
  resolve api_Ns b#"ns_unsubscribeItems" = Some (Registry.Bind 5 Registry.KUnsub) /\
  resolve api_Ns b#"unsubAlias" = Some (Registry.Bind 5 Registry.KUnsub) /\
  resolve api_Ns b#"ns_syncUnsub" = Some (Registry.Bind 6 Registry.KUnsub) /\
  resolve api_Dot b#"svc.v1.get" = Some (Registry.Bind 0 Registry.KAsync) /\
  resolve api_Dot b#"get" = Some (Registry.Bind 0 Registry.KAsync) /\
  resolve api_Dot b#"svc.v1_get" = None /\
  resolve api_Glue b#"echo" = Some (Registry.Bind 0 Registry.KAsync).
Proof.
  (* each table is built once, the look-ups run on the tables *)
  unfold resolve. set (ns := registry api_Ns). set (dot := registry api_Dot). set (glue := registry api_Glue).
  vm_compute in ns, dot, glue. vm_compute. repeat split; reflexivity.
Qed.

Example C17_witness_heck :
  snake_case b#"XMLHttpReq" = b#"xml_http_req" /\ lower_camel_case b#"XMLHttpReq" = b#"xmlHttpReq" /\
  snake_case b#"halfType" = b#"half_type" /\ lower_camel_case b#"param_a" = b#"paramA" /\
  snake_case b#"x-y z" = b#"x_y_z" /\ lower_camel_case b#"x-y z" = b#"xYZ" /\
  snake_case b#"_lead" = b#"lead" /\ snake_case b#"a1b2" = b#"a1b2" /\ lower_camel_case b#"camelCaseX" = b#"camelCaseX".
Proof. vm_compute. repeat split; reflexivity. Qed.

(* one call through the whole model: Ns::renamed(type = 256, halfType = true), param_kind = map, returning [true,256] *)
Example C17_witness_call :
  run_stub api_Ns false 1 [JNum (NPos 256); JBool true] (BReturn (JArr [JBool true; JNum (NPos 256)])) =
    CaseOut (Some (b#"ns_renamed", Some b#"{""type"":256,""halfType"":true}"))
            (Some (Registry.Bind 1 Registry.KSync))
            (Some [Some (JNum (NPos 256)); Some (JBool true)])
            (VOk (JArr [JBool true; JNum (NPos 256)])).
Proof. vm_compute. reflexivity. Qed.

(* by name with alias keys, shuffled, an unknown member, an optional left out; positional with the tail omitted *)
Example C17_witness_raw :
  co_args (run_raw api_Ns b#"plainAlias" (Some b#" { ""zz"":[1], ""c"" : [1,2] , ""a"":7 } ") (BReturn JNull) []) =
    Some [Some (JNum (NPos 7)); None; Some (JArr [JNum (NPos 1); JNum (NPos 2)])] /\
  co_args (run_raw api_Plain b#"opt2" (Some b#"[""s""]") (BReturn JNull) []) = Some [Some (JStr b#"s"); None; None] /\
  co_args (run_raw api_Plain b#"opt2" (Some b#"[""s"", null , null ]") (BReturn JNull) []) = Some [Some (JStr b#"s"); None; None] /\
  co_client (run_raw api_Plain b#"one_u8" (Some b#"[256]") (BReturn JNull) []) = VErr (err_invalid_params (-32602)%Z) /\
  co_handler (run_raw api_Plain b#"one_u8" (Some b#"[256]") (BReturn JNull) []) = None.
Proof. vm_compute. repeat split; reflexivity. Qed.

(* raw identifiers and underscore / digit names: the text of the identifier is the key, `r#` included; heck splits at `#` *)
Example C17_witness_raw_identifiers :
  nth_error family_keys 5 = Some
    [ [(b#"r#type", [b#"r#type"; b#"r_type"; b#"rType"]); (b#"r#ref", [b#"r#ref"; b#"r_ref"; b#"rRef"])];
      [(b#"r#type", [b#"r#type"; b#"r_type"; b#"rType"]); (b#"r#ref", [b#"r#ref"; b#"r_ref"; b#"rRef"])];
      [(b#"type", [b#"type"; b#"type"; b#"type"]); (b#"r#match", [b#"r#match"; b#"r_match"; b#"rMatch"])];
      [(b#"r#move", [b#"r#move"; b#"r_move"; b#"rMove"]); (b#"r#loop", [b#"r#loop"; b#"r_loop"; b#"rLoop"])];
      [(b#"_lead", [b#"_lead"; b#"lead"; b#"lead"]); (b#"trail_", [b#"trail_"; b#"trail"; b#"trail"]);
       (b#"mid1dle", [b#"mid1dle"; b#"mid1dle"; b#"mid1dle"]); (b#"r#type_", [b#"r#type_"; b#"r_type"; b#"rType"])];
      [(b#"r#fn", [b#"r#fn"; b#"r_fn"; b#"rFn"]); (b#"r#in", [b#"r#in"; b#"r_in"; b#"rIn"])];
      [(b#"r#type", [b#"r#type"; b#"r_type"; b#"rType"]); (b#"r#ref", [b#"r#ref"; b#"r_ref"; b#"rRef"])];
      [(b#"r#type", [b#"r#type"; b#"r_type"; b#"rType"]); (b#"r#while", [b#"r#while"; b#"r_while"; b#"rWhile"])] ] /\
  run_stub api_Raw false 0 [JNum (NPos 7); JStr b#"q"] (BReturn (JArr [JNum (NPos 7); JStr b#"q"])) =
    CaseOut (Some (b#"raw_mapRaw", Some b#"{""r#type"":7,""r#ref"":""q""}"))
            (Some (Registry.Bind 0 Registry.KAsync))
            (Some [Some (JNum (NPos 7)); Some (JStr b#"q")])
            (VOk (JArr [JNum (NPos 7); JStr b#"q"])) /\
  co_args (run_raw api_Raw b#"raw_mapRaw" (Some b#"{""rRef"":""q"",""r_type"":7}") (BReturn JNull) []) = Some [Some (JNum (NPos 7)); Some (JStr b#"q")] /\
  co_client (run_raw api_Raw b#"raw_mapRaw" (Some b#"{""type"":7,""ref"":""q""}") (BReturn JNull) []) = VErr (err_invalid_params (-32602)%Z) /\
  co_args (run_raw api_Raw b#"raw_mapRawOpt" (Some b#"{""r#move"":1}") (BReturn JNull) []) = Some [Some (JNum (NPos 1)); None].
Proof. vm_compute. repeat split; reflexivity. Qed.

(* every standard spelling of Option occurs in the family (trait Spell), each is decided optional, and a positional call with
   such a tail omitted reaches the method / subscription with None -- also when only the first of several is given, when
   nothing but the required head is given, and with no params at all when every parameter is optional *)
Example C17_witness_option_spellings :
  nth_error family_options 6 = Some
    [ [([b#"u32"], false); ([b#"std"; b#"option"; b#"Option"], true)];
      [([b#"u8"], false); ([b#"core"; b#"option"; b#"Option"], true)];
      [([b#"String"], false); ([b#"core"; b#"option"; b#"Option"], true)];
      [([b#"i16"], false); ([b#"option"; b#"Option"], true)];
      [([b#"u32"], false); ([b#"Option"], true); ([b#"std"; b#"option"; b#"Option"], true); ([b#"core"; b#"option"; b#"Option"], true); ([b#"core"; b#"option"; b#"Option"], true)];
      [([b#"core"; b#"option"; b#"Option"], true); ([b#"option"; b#"Option"], true); ([b#"Option"], true)];
      [([b#"core"; b#"option"; b#"Option"], true); ([b#"u16"], false)];
      [([b#"u32"], false); ([b#"core"; b#"option"; b#"Option"], true); ([b#"core"; b#"option"; b#"Option"], true); ([b#"std"; b#"option"; b#"Option"], true)];
      [([b#"String"], false); ([b#"option"; b#"Option"], true); ([b#"core"; b#"option"; b#"Option"], true)];
      [([b#"u32"], false); ([b#"core"; b#"option"; b#"Option"], true); ([b#"core"; b#"option"; b#"Option"], true)];
      [([b#"u32"], false); ([b#"std"; b#"option"; b#"Option"], true)] ] /\
  map is_std_option [[b#"Option"]; [b#"option"; b#"Option"]; [b#"std"; b#"option"; b#"Option"]; [b#"core"; b#"option"; b#"Option"]; [b#"settings"; b#"Option"]; [b#"Vec"]; []] =
    [true; true; true; true; false; false; false] /\
  co_args (run_raw api_Spell b#"sp_stdTail" (Some b#"[7]") (BReturn JNull) []) = Some [Some (JNum (NPos 7)); None] /\
  co_args (run_raw api_Spell b#"sp_coreTail" (Some b#"[7]") (BReturn JNull) []) = Some [Some (JNum (NPos 7)); None] /\
  co_args (run_raw api_Spell b#"sp_globalTail" (Some b#"[""s""]") (BReturn JNull) []) = Some [Some (JStr b#"s"); None] /\
  co_args (run_raw api_Spell b#"sp_modTail" (Some b#"[-1]") (BReturn JNull) []) = Some [Some (JNum (NNeg 1)); None] /\
  co_args (run_raw api_Spell b#"sp_coreTail" (Some b#"[7,null]") (BReturn JNull) []) = Some [Some (JNum (NPos 7)); None] /\
  co_args (run_raw api_Spell b#"sp_coreTail" (Some b#"[7,""x""]") (BReturn JNull) []) = Some [Some (JNum (NPos 7)); Some (JStr b#"x")] /\
  co_args (run_raw api_Spell b#"sp_mixTail" (Some b#"[1]") (BReturn JNull) []) = Some [Some (JNum (NPos 1)); None; None; None; None] /\
  co_args (run_raw api_Spell b#"sp_mixTail" (Some b#"[1,2,null,""d""]") (BReturn JNull) []) = Some [Some (JNum (NPos 1)); Some (JNum (NPos 2)); None; Some (JStr b#"d"); None] /\
  co_args (run_raw api_Spell b#"sp_allSpell" None (BReturn JNull) []) = Some [None; None; None] /\
  co_args (run_raw api_Spell b#"spellAlias" (Some b#"[4]") (BReturn (JArr [])) b#"sp_unsubscribeSpell") = Some [Some (JNum (NPos 4)); None; None] /\
  co_handler (run_raw api_Spell b#"sp_coreTail" (Some b#"[7]") (BReturn JNull) []) = Some (Registry.Bind 1 Registry.KAsync) /\
  co_client (run_raw api_Spell b#"sp_coreMid" (Some b#"[""a""]") (BReturn JNull) []) = VErr (err_invalid_params (-32602)%Z).
Proof. vm_compute. repeat split; reflexivity. Qed.

(* parameters renamed to wire names that JSON must escape or that are not identifiers (trait Ren: a backslash, double quotes, a
   tab, a single space, non-ASCII letters): every wire name of the family is valid UTF-8 (the hypothesis names_utf8 of the
   round-trip theorems); the aliases heck derives from such names (backslash, double quote, tab and space separate words; U+00B5 MICRO SIGN
   capitalises to U+039C; a name without any alphanumeric has the EMPTY alias); the stub writes the key through the string
   serialiser, so the member key on the wire is the escaped spelling and the server finds its field; any other JSON spelling of
   the same key is accepted as well, the key that a raw (unescaped) `dir\name` would be read as is not *)
Example C17_witness_escaped_names :
  forallb (fun a : japi => forallb (forallb (fun p => utf8_valid (p_name p))) (item_params a)) family = true /\
  keys_of (Param b#"dir" (Some b#"dir\name") false TyStr) = [b#"dir\name"; b#"dir_name"; b#"dirName"] /\
  keys_of (Param b#"quoted" (Some b#"say ""hi""") false TyStr) = [b#"say ""hi"""; b#"say_hi"; b#"sayHi"] /\
  keys_of (Param b#"size" (Some [x67; x72; xc3; xb6; xc3; x9f; x65; x20; x69; x6e; x20; xc2; xb5; x6d]) false TyStr) =
    [ [x67; x72; xc3; xb6; xc3; x9f; x65; x20; x69; x6e; x20; xc2; xb5; x6d];
      [x67; x72; xc3; xb6; xc3; x9f; x65; x5f; x69; x6e; x5f; xc2; xb5; x6d];
      [x67; x72; xc3; xb6; xc3; x9f; x65; x49; x6e; xce; x9c; x6d] ] /\
  keys_of (Param b#"column" (Some [x63; x6f; x6c; x09; x75; x6d; x6e]) true TyStr) = [[x63; x6f; x6c; x09; x75; x6d; x6e]; b#"col_umn"; b#"colUmn"] /\
  keys_of (Param b#"blank" (Some b#" ") false TyStr) = [b#" "; []; []] /\
  run_stub api_Ren false 0 [JStr b#"x\y"; JNum (NPos 5)] (BReturn (JArr [JNum (NPos 5); JStr b#"x\y"])) =
    CaseOut (Some (b#"ren_mapBackslash", Some b#"{""dir\\name"":""x\\y"",""plain"":5}"))
            (Some (Registry.Bind 0 Registry.KSync))
            (Some [Some (JStr b#"x\y"); Some (JNum (NPos 5))])
            (VOk (JArr [JNum (NPos 5); JStr b#"x\y"])) /\
  co_wire (run_stub api_Ren false 1 [JNum (NPos 3); JBool true] (BReturn JNull)) = Some (b#"ren_mapQuote", Some b#"{""say \""hi\"""":3,""plain"":true}") /\
  co_args (run_stub api_Ren false 1 [JNum (NPos 3); JBool true] (BReturn JNull)) = Some [Some (JNum (NPos 3)); Some (JBool true)] /\
  co_wire (run_stub api_Ren false 3 [JNum (NPos 3); JNum (NPos 7)] (BReturn JNull)) = Some (b#"ren_mapTab", Some b#"{""plain"":3,""col\tumn"":7}") /\
  co_args (run_stub api_Ren false 3 [JNum (NPos 3); JNum (NPos 7)] (BReturn JNull)) = Some [Some (JNum (NPos 3)); Some (JNum (NPos 7))] /\
  co_wire (run_stub api_Ren false 2 [JNum (NPos 1); JNull] (BReturn JNull)) =
    Some (b#"ren_mapUnicode", Some (b#"{""" ++ [x67; x72; xc3; xb6; xc3; x9f; x65; x20; x69; x6e; x20; xc2; xb5; x6d] ++ b#""":1,""plain"":null}")) /\
  co_args (run_stub api_Ren false 4 [JStr b#"s"; JNum (NPos 7)] (BReturn JNull)) = Some [Some (JStr b#"s"); Some (JNum (NPos 7))] /\
  co_args (run_stub api_Ren true 0 [JStr b#"d"; JNum (NPos 1); JNull] (BReturn (JArr []))) = Some [Some (JStr b#"d"); Some (JNum (NPos 1)); None] /\
  co_args (run_raw api_Ren b#"ren_mapBackslash" (Some b#"{""plain"":5,""dir\u005cname"":""x""}") (BReturn JNull) []) = Some [Some (JStr b#"x"); Some (JNum (NPos 5))] /\
  co_args (run_raw api_Ren b#"ren_mapBackslash" (Some b#"{""plain"":5,""\u0064ir\\n\u0061me"":""x""}") (BReturn JNull) []) = Some [Some (JStr b#"x"); Some (JNum (NPos 5))] /\
  co_args (run_raw api_Ren b#"ren_mapBackslash" (Some b#"{""plain"":5,""dirName"":""x""}") (BReturn JNull) []) = Some [Some (JStr b#"x"); Some (JNum (NPos 5))] /\
  co_client (run_raw api_Ren b#"ren_mapBackslash" (Some b#"{""plain"":5,""dir\name"":""x""}") (BReturn JNull) []) = VErr (err_invalid_params (-32602)%Z) /\
  co_client (run_raw api_Ren b#"ren_mapBackslash" (Some b#"{""plain"":5,""dir\\\\name"":""x""}") (BReturn JNull) []) = VErr (err_invalid_params (-32602)%Z) /\
  co_args (run_raw api_Ren b#"ren_mapSpace" (Some b#"{""\u0020"":""s"",""plain"":1}") (BReturn JNull) []) = Some [Some (JStr b#"s"); Some (JNum (NPos 1))] /\
  co_args (run_raw api_Ren b#"ren_mapSpace" (Some b#"{"""":""s"",""plain"":1}") (BReturn JNull) []) = Some [Some (JStr b#"s"); Some (JNum (NPos 1))] /\
  co_client (run_raw api_Ren b#"ren_mapSpace" (Some b#"{""  "":""s"",""plain"":1}") (BReturn JNull) []) = VErr (err_invalid_params (-32602)%Z) /\
  co_args (run_raw api_Ren b#"ren_mapTab" (Some b#"{""plain"":1,""col\u0009umn"":2}") (BReturn JNull) []) = Some [Some (JNum (NPos 1)); Some (JNum (NPos 2))] /\
  co_args (run_raw api_Ren b#"ren_mapTab" (Some b#"{""plain"":1,""col umn"":2}") (BReturn JNull) []) = Some [Some (JNum (NPos 1)); None] /\
  co_args (run_raw api_Ren b#"ren_mapUnicode" (Some b#"{""gr\u00f6\u00dfe in \u00b5m"":1}") (BReturn JNull) []) = Some [Some (JNum (NPos 1)); None] /\
  co_args (run_raw api_Ren b#"ren_mapUnicode" (Some b#"{""gr\u00f6\u00dfeIn\u039cm"":1}") (BReturn JNull) []) = Some [Some (JNum (NPos 1)); None] /\
  co_client (run_raw api_Ren b#"ren_mapUnicode" (Some b#"{""gr\u00f6\u00dfeIn\u00b5m"":1}") (BReturn JNull) []) = VErr (err_invalid_params (-32602)%Z) /\
  co_args (run_raw api_Ren b#"ren_mapQuoteOnly" (Some b#"{""\"""":1}") (BReturn JNull) []) = Some [Some (JNum (NPos 1)); None] /\
  co_args (run_raw api_Ren b#"ren_mapQuoteOnly" (Some b#"{""\u0022"":1}") (BReturn JNull) []) = Some [Some (JNum (NPos 1)); None].
Proof. vm_compute. repeat split; reflexivity. Qed.
