(* C04 -- a subscription's notifications are its own, ordered, and stop at close.
   The property theorems with their proofs; statements are held in tools/pinned/C04.statements.  Those about the
   subscription LTS read the invariant of Proofs/SubBookFacts.v (`reach_inv`, `Mono`); those of the two queue blocks
   below are derived from the facts about all histories in Proofs/SinkQueueFacts.v and Proofs/ConnQueueFacts.v.
   `reach caps base meth tr` is the state and the observations after ANY trace tr of the subscription LTS
   (Model/SubBook.v: all interleavings of handler steps, unsubscribe calls, writer steps, disconnects, server stop,
   over any number of connections with capacities `caps`).  `sent cn` = frames written ++ frames still queued. *)
From Coq Require Import List NArith ZArith Bool Lia.
From JV Require Import Model.SubBook Proofs.SubBookFacts.
Import ListNotations.

Theorem C04_own_id_and_method : forall caps base meth tr c cn f, let s := fst (reach caps base meth tr) in nth_error (conns s) c = Some cn -> In f (sent cn) -> is_notif f = true -> exists h b, nth_error (subs s) h = Some b /\ s_conn b = c /\ frame_sid f = s_id b /\ frame_meth f = s_meth b /\ s_meth b = notif_meth s /\ s_id b = (id_base s + N.of_nat h)%N /\ s_state b = SActive.
Proof.
  intros caps base meth tr c cn f s Hc Hf Hn. destruct (reach_inv caps base meth tr) as [I _].
  destruct (inv_frames _ I _ _ _ Hc Hf Hn) as [h [b [Hb [E1 [E2 [E3 E4]]]]]].
  pose proof (inv_sub _ I _ _ Hb) as Hok. exists h, b. repeat split; auto; [exact (ok_meth Hok) | exact (ok_id Hok)].
Qed.
Print Assumptions C04_own_id_and_method.

Theorem C04_after_accept : forall caps base meth tr c cn, nth_error (conns (fst (reach caps base meth tr))) c = Some cn -> notif_after_accept (sent cn) /\ notif_after_accept (c_wire cn).
Proof.
  intros caps base meth tr c cn Hc. destruct (reach_inv caps base meth tr) as [I _].
  pose proof (inv_order _ I _ _ Hc) as H. split; [assumption | eapply naa_prefix; exact H].
Qed.
Print Assumptions C04_after_accept.

Theorem C04_fifo_per_subscription : forall caps base meth tr h b cn, let s := fst (reach caps base meth tr) in nth_error (subs s) h = Some b -> nth_error (conns s) (s_conn b) = Some cn -> filter_map (plain_item (s_id b)) (sent cn) = log_of h (snd (reach caps base meth tr)) /\ exists pending, log_of h (snd (reach caps base meth tr)) = filter_map (plain_item (s_id b)) (c_wire cn) ++ pending.
Proof.
  intros caps base meth tr h b cn s Hb Hc. destruct (reach_inv caps base meth tr) as [_ [IO _]].
  pose proof (io_fifo _ _ IO _ _ _ Hb Hc) as E. split; [assumption|].
  exists (filter_map (plain_item (s_id b)) (c_queue cn)). rewrite <- E. unfold sent. apply filter_map_app.
Qed.
Print Assumptions C04_fifo_per_subscription.

Theorem C04_rejected_is_silent : forall caps base meth tr h b, let s := fst (reach caps base meth tr) in nth_error (subs s) h = Some b -> ~ accepted b -> (forall c cn f, nth_error (conns s) c = Some cn -> In f (sent cn) -> is_notif f = true -> frame_sid f <> s_id b) /\ s_ret b = None.
Proof.
  intros caps base meth tr h b s Hb Na. destruct (reach_inv caps base meth tr) as [I _]. split.
  - intros c cn f Hc Hf Hn E. apply Na. right. exact (proj2 (frame_owner I Hc Hf Hn Hb E)).
  - apply (ok_idle (inv_sub _ I _ _ Hb)). intro E. apply Na. right. assumption.
Qed.
Print Assumptions C04_rejected_is_silent.

Theorem C04_send_after_close_fails : forall caps base meth tr1 a tr2 h b, let s0 := fst (reach caps base meth tr1) in let s2 := fst (reach caps base meth (tr1 ++ a :: tr2)) in nth_error (subs s0) h = Some b -> s_state b = SActive -> closes s0 a b -> exists b2, nth_error (subs s2) h = Some b2 /\ s_state b2 = SActive /\ sink_closed s2 b2 = true /\ forall k x, In k (s_sinks b2) -> step s2 (IsClosed h k) = (s2, [OClosed h k true]) /\ (~ In k (map fst (s_inflight b2)) -> step s2 (SendCheck h k x) = (s2, [OSendResult h k x false])).
Proof.
  intros caps base meth tr1 a tr2 h b s0 s2 Hb Ha Hcl.
  destruct (reach_inv caps base meth tr1) as [I [IO St]]. fold s0 in I, St.
  destruct (closes_closed s0 _ a h b I IO St Hb Ha Hcl) as [b1 [Hb1 [Ha1 Hc1]]].
  destruct (reach_cons_mono caps base meth tr1 a tr2) as [M2a M2b]. fold s0 s2 in M2a, M2b.
  destruct (reach_inv caps base meth (tr1 ++ a :: tr2)) as [_ [_ St2]]. fold s2 in St2.
  destruct (M2b _ _ Hb1) as [b2 [Hb2 [[S1 _] [Hact _]]]]. destruct (Hact Ha1) as [Ha2 Hu2].
  assert (Hc2 : sink_closed s2 b2 = true).
  { unfold sink_closed in *. rewrite S1. apply orb_true_iff in Hc1. apply orb_true_iff. destruct Hc1 as [Hc1 | Hc1].
    - left. apply negb_true_iff in Hc1. apply negb_true_iff. destruct (conn_open s2 (s_conn b1)) eqn:Eo; [|reflexivity].
      apply M2a in Eo. congruence.
    - right. auto. }
  exists b2. split; [assumption|]. split; [assumption|]. split; [assumption|].
  intros k x Hk. eapply closed_fails; eassumption.
Qed.
Print Assumptions C04_send_after_close_fails.

Theorem C04_close_notification_at_most_once_and_only_if_accepted : forall caps base meth tr h b cn, let s := fst (reach caps base meth tr) in nth_error (subs s) h = Some b -> nth_error (conns s) (s_conn b) = Some cn -> count_closing (s_id b) (sent cn) <= 1 /\ (1 <= count_closing (s_id b) (sent cn) -> s_state b = SActive /\ s_returned b = true) /\ (forall c2 cn2, c2 <> s_conn b -> nth_error (conns s) c2 = Some cn2 -> count_closing (s_id b) (sent cn2) = 0).
Proof.
  intros caps base meth tr h b cn s Hb Hc. destruct (reach_inv caps base meth tr) as [I _]. fold s in I.
  destruct (inv_closing _ I _ _ _ Hb Hc) as [C1 C2].
  split; [lia|]. split.
  - intro Hge. split; [|auto]. destruct (count_closing_ex _ _ Hge) as [f [Hf Ef]]. unfold closing_of in Ef.
    apply andb_true_iff in Ef. destruct Ef as [Ef E3]. apply andb_true_iff in Ef. destruct Ef as [E1 _]. apply N.eqb_eq in E3.
    exact (proj2 (frame_owner I Hc Hf E1 Hb E3)).
  - intros c2 cn2 Ne H2. apply count_closing_zero. intros f Hf Hn E. destruct (frame_owner I H2 Hf Hn Hb E). contradiction.
Qed.
Print Assumptions C04_close_notification_at_most_once_and_only_if_accepted.

Theorem C04_stop_closes_idle_connections : forall caps base meth tr, let s := fst (reach caps base meth tr) in stopped s = true -> forall c cn, nth_error (conns s) c = Some cn -> c_open cn = true -> has_pending s c = true.
Proof. intros caps base meth tr. exact (proj2 (proj2 (reach_inv caps base meth tr))). Qed.
Print Assumptions C04_stop_closes_idle_connections.

Definition ex_trace : list act :=
  [SubscribeCall 0 1; Accept1 0; Accept2 0; SendCheck 0 0 7; SendEnqueue 0 0; SendCheck 0 0 8; SendEnqueue 0 0;
   HandlerReturn 0 (CNotif 9); CloseNotify 0; WriterStep 0; WriterStep 0; WriterStep 0].

Example C04_delivery_nonvacuous : let r := reach [2] 1000 5 ex_trace in map c_wire (conns (fst r)) = [[FSubOk 1 1000; FNotif 5 1000 7 false; FNotif 5 1000 8 false]] /\ map c_queue (conns (fst r)) = [[FNotif 5 1000 9 true]] /\ log_of 0 (snd r) = [7%N; 8%N].
Proof. vm_compute. repeat split. Qed.

Example C04_close_nonvacuous : let s0 := fst (reach [2] 1000 5 ex_trace) in exists b, nth_error (subs s0) 0 = Some b /\ s_state b = SActive /\ closes s0 (UnsubscribeCall 0 2 1000) b /\ snd (step (fst (step s0 (UnsubscribeCall 0 2 1000))) (SendCheck 0 0 3)) = [OSendResult 0 0 3 false].
Proof.
  vm_compute. eexists. split; [reflexivity|]. split; [reflexivity|]. split; [|reflexivity].
  left. exists 2%N. split; [reflexivity|]. left. reflexivity.
Qed.

Example C04_rejected_nonvacuous : let s := fst (reach [1] 1000 5 [SubscribeCall 0 1; Reject 0 7; HandlerReturn 0 (CNotif 3); CloseNotify 0; WriterStep 0]) in exists b, nth_error (subs s) 0 = Some b /\ ~ accepted b /\ map c_wire (conns s) = [[FErr 1 (ERejected 7)]].
Proof. vm_compute. eexists. split; [reflexivity|]. split; [intros [H | H]; discriminate H | reflexivity]. Qed.

(* ==================================================================================================================
   C04, back-pressure block (engine `sinkbp`).  Model/SinkQueue.v: ONE subscription's sink over the bounded channel
   of capacity c (Methods::subscribe / raw_json_request), with SubscriptionSink::{send, try_send, send_timeout},
   the messages the failed sends hand back to the handler (`held`, by slot), their re-send through any of the three
   paths, the receiver (`recv`) and its `close`.  `run sid me (init c) ops` = final state and trace (op, result) of
   ANY list of operations; `received` = frames the receiver got, `oklog` = payloads of the sends that reported Ok in
   the order they succeeded (computed from the trace alone), `produced` = payloads of the fresh sends of the history;
   `to_json sid me (NeedsData (payload x))` is the notification {"jsonrpc":"2.0","method":me,"params":{"subscription":
   sid,"result":x}} of payload x.
   ================================================================================================================== *)
From JV Require Import Base.Bytes Model.SinkQueue Proofs.SinkQueueFacts.

Theorem C04_bp_wrap_idempotent : forall sid me c ops, let r := run sid me (init c) ops in (forall m, to_json sid me (Complete (to_json sid me m)) = to_json sid me m) /\ (forall f, In f (received (snd r) ++ q (fst r)) -> exists x, In x (produced ops) /\ f = to_json sid me (NeedsData (payload x))) /\ (forall k m, In (k, m) (held (fst r)) -> exists x, In x (produced ops) /\ to_json sid me m = to_json sid me (NeedsData (payload x)) /\ (m = Complete (to_json sid me (NeedsData (payload x))) \/ (closed (fst r) = true /\ m = NeedsData (payload x)))).
Proof.
  intros sid me c ops r. split; [exact (to_json_complete sid me)|]. split; [exact (sent_produced sid me c ops)|].
  intros k m Hin. destruct (held_produced sid me c ops k m Hin) as [x [Hx Hr]].
  exists x. split; [exact Hx|]. split; [exact (hrel_to_json sid me _ m x Hr) | exact Hr].
Qed.
Print Assumptions C04_bp_wrap_idempotent.

Theorem C04_bp_fifo_exact : forall sid me c ops, let r := run sid me (init c) ops in received (snd r) ++ q (fst r) = map (fun x => to_json sid me (NeedsData (payload x))) (oklog (snd r)).
Proof. intros sid me c ops. exact (p_fifo _ _ _ _ _ _ _ (sink_run_init sid me c ops)). Qed.
Print Assumptions C04_bp_fifo_exact.

Theorem C04_bp_bounded : forall sid me, (forall c ops, length (q (fst (run sid me (init c) ops))) <= c) /\ (forall s o, is_send o = true -> snd (SinkQueue.step sid me s o) <> ROk -> q (fst (SinkQueue.step sid me s o)) = q s /\ closed (fst (SinkQueue.step sid me s o)) = closed s /\ cap (fst (SinkQueue.step sid me s o)) = cap s).
Proof. exact bounded. Qed.
Print Assumptions C04_bp_bounded.

Theorem C04_bp_nothing_after_close : forall sid me c ops1 ops2, let s1 := fst (run sid me (init c) (ops1 ++ [OClose])) in let r2 := run sid me s1 ops2 in closed s1 = true /\ (forall o, ~ In (o, ROk) (snd r2)) /\ q s1 = received (snd r2) ++ q (fst r2) /\ closed (fst r2) = true.
Proof.
  intros sid me c ops1 ops2 s1 r2.
  assert (Hc : closed s1 = true) by (unfold s1; rewrite sink_run_app; reflexivity).
  split; [exact Hc | exact (closed_run sid me ops2 s1 Hc)].
Qed.
Print Assumptions C04_bp_nothing_after_close.

(* own id and method, for EVERY id an IdProvider can return: `sid` is a Wire.subid = SubscriptionId::{Num(u64), Str(String)}
   (`wf_subid`: the number fits u64 / the string is UTF-8, i.e. it is a value of the Rust type -- any characters, quotes,
   backslashes, control characters, non-ASCII); every frame received or still queued, and every full notification text
   handed back to the handler, reads back (Wire.parse_sub_notif = the client's SubscriptionResponse parser) as exactly
   (notification method, that id, a produced payload).  Payloads are u64 as in the harness. *)
From JV Require Base.Utf8 Base.Dec Model.Wire Proofs.WireFacts.

Theorem C04_bp_notification_carries_own_id : forall (sid : Wire.subid) me c ops, WireFacts.wf_subid sid -> Utf8.utf8_valid me = true -> (forall x, In x (produced ops) -> (x <= Dec.u64_max)%N) -> let r := run sid me (init c) ops in (forall f, In f (received (snd r) ++ q (fst r)) -> exists x, In x (produced ops) /\ Wire.parse_sub_notif Wire.k_result f = Some (me, sid, payload x)) /\ (forall k j, In (k, Complete j) (held (fst r)) -> exists x, In x (produced ops) /\ Wire.parse_sub_notif Wire.k_result j = Some (me, sid, payload x)).
Proof.
  intros sid me c ops Ws Um Hp r. split.
  - intros f Hin. destruct (sent_produced sid me c ops f Hin) as (x & Hx & ->).
    exists x. split; [exact Hx | apply item_parses; auto].
  - intros k j Hin. destruct (held_produced sid me c ops k _ Hin) as (x & Hx & [Hj | [_ Hj]]); [|discriminate Hj].
    injection Hj as ->. exists x. split; [exact Hx | apply item_parses; auto].
Qed.
Print Assumptions C04_bp_notification_carries_own_id.

(* non-vacuity: capacity 1; 7 goes in, 8 times out and comes back Complete, 7 is received, 8 is re-sent (try_send) and
   received exactly as produced; after close a fresh 9 is refused and handed back as it was given *)
Definition ex_bp_ops : list op := [OSend PSend 7 7; OSend PTimeout 8 8; ORecv; OResend PTry 8; ORecv; OClose; OSend PTry 9 9; ORecv].

Example C04_bp_nonvacuous : let r := run 1000 b#"note" (init 1) ex_bp_ops in let it := fun x => to_json 1000 b#"note" (NeedsData (payload x)) in map snd (snd r) = [ROk; RTimeout (Complete (it 8%N)); RFrame (it 7%N); ROk; RFrame (it 8%N); RDone; RClosed (NeedsData (payload 9)); REnd] /\ received (snd r) = [it 7%N; it 8%N] /\ oklog (snd r) = [7%N; 8%N] /\ held (fst r) = [(9%N, NeedsData (payload 9))] /\ it 8%N = b#"{""jsonrpc"":""2.0"",""method"":""note"",""params"":{""subscription"":1000,""result"":8}}".
Proof. vm_compute. repeat split. Qed.

(* a string id that needs escaping (a, quote, b, backslash, c, line feed, 0x01): the frame carries it escaped and reads
   back as that id; so does the full notification text handed back by the failed try_send *)
Definition ex_bp_sid : Wire.subid := Wire.SubStr (b#"a""b\c" ++ [x0a; x01]).

Example C04_bp_string_id_nonvacuous : let r := run ex_bp_sid b#"note" (init 1) [OSend PTry 7 7; OSend PTry 8 8; ORecv] in let f := b#"{""jsonrpc"":""2.0"",""method"":""note"",""params"":{""subscription"":""a\""b\\c\n\u0001"",""result"":7}}" in WireFacts.wf_subid ex_bp_sid /\ received (snd r) = [f] /\ Wire.parse_sub_notif Wire.k_result f = Some (b#"note", ex_bp_sid, payload 7) /\ exists j, held (fst r) = [(8%N, Complete j)] /\ Wire.parse_sub_notif Wire.k_result j = Some (b#"note", ex_bp_sid, payload 8).
Proof. cbv zeta. split; [vm_compute; reflexivity|]. split; [vm_compute; reflexivity|]. split; [vm_compute; reflexivity|]. eexists. split; [vm_compute; reflexivity | vm_compute; reflexivity]. Qed.

(* ==================================================================================================================
   C04, connection-queue block (engine `connq`).  Model/ConnQueue.v: ONE connection's bounded outgoing queue (MethodSink
   over a tokio mpsc of capacity cap = message_buffer_capacity) shared by any number of subscriptions and calls; a
   send that finds the queue full WAITS in a first-come-first-served line; accept / reject / send parked there can be
   CANCELLED by the handler (tokio::time::timeout / select!), after which the handler may return any closing value.
   accept() is interpreted step by step from Gen/AcceptOrderGen.accept_steps (the order read from the source).
   `ConnQueue.run cap base init ops` = final state and the reports of every step of ANY list of steps `ops`
   (Subscribe, Acc, Rej, Send, Try, Cancel (with or without a closing value returned in the same poll), Ret, Unsub,
   Call, W = the writer takes one frame, Close); subscription id of the h-th subscribe call = sid base h = base + h;
   `frames s` = popped s ++ q s = everything that has been handed to the connection, in order; `OAcc h ROk` = accept
   returned Ok(sink) to handler h (at once, or when the parked accept completed); `oklog h` = payloads of handler h's
   send / try_send that reported Ok (at once or when the parked send completed), in that order.
   ================================================================================================================== *)
From JV Require Import Model.AcceptSteps Gen.AcceptOrderGen Model.ConnQueue Proofs.ConnQueueFacts.

Theorem C04_cq_nothing_before_accept_response : forall cap base ops pre f post sd, ConnQueue.frames (fst (ConnQueue.run cap base ConnQueue.init ops)) = pre ++ f :: post -> ConnQueue.notif_sid f = Some sd -> exists c, In (ConnQueue.FSubOk c sd) pre.
Proof. intros cap base ops. exact (ConnQueueFacts.nothing_before_accept_response cap base accept_steps ops accept_steps_head_ok). Qed.
Print Assumptions C04_cq_nothing_before_accept_response.

Theorem C04_cq_never_accepted_is_silent : forall cap base ops h, ~ In (OAcc h ConnQueue.ROk) (concat (snd (ConnQueue.run cap base ConnQueue.init ops))) -> forall f, In f (ConnQueue.frames (fst (ConnQueue.run cap base ConnQueue.init ops))) -> ConnQueue.frame_sid f <> Some (ConnQueue.sid base h).
Proof. intros cap base ops h. exact (ConnQueueFacts.never_accepted_is_silent cap base accept_steps ops h accept_steps_head_ok). Qed.
Print Assumptions C04_cq_never_accepted_is_silent.

Theorem C04_cq_fifo_per_subscription : forall cap base ops h, ConnQueue.filter_map (ConnQueue.plain_item (ConnQueue.sid base h)) (ConnQueue.frames (fst (ConnQueue.run cap base ConnQueue.init ops))) = ConnQueue.oklog h (snd (ConnQueue.run cap base ConnQueue.init ops)).
Proof. intros cap base ops h. exact (ConnQueueFacts.fifo_per_subscription cap base accept_steps ops h accept_steps_head_ok). Qed.
Print Assumptions C04_cq_fifo_per_subscription.

Theorem C04_cq_bounded : forall cap base ops, length (ConnQueue.q (fst (ConnQueue.run cap base ConnQueue.init ops))) <= cap.
Proof. exact ConnQueueFacts.bounded. Qed.
Print Assumptions C04_cq_bounded.

Theorem C04_cq_waits_only_when_full : forall cap base ops, let s := fst (ConnQueue.run cap base ConnQueue.init ops) in waiters s <> [] -> ConnQueue.closed s = false /\ length (ConnQueue.q s) = cap.
Proof. intros cap base ops. exact (proj2 (ConnQueueFacts.waits_only_when_full cap base accept_steps ops)). Qed.
Print Assumptions C04_cq_waits_only_when_full.

(* the scenario: capacity 1, the queue filled by the answer of an ordinary call (id 7); subscribe (call id 1, handle 0,
   subscription id 1000); accept PARKS; the handler gives up and returns the closing value NotifErr(5) in the same
   poll: the call is answered InternalError (that answer waits for a place), no frame ever names subscription 1000,
   accept never reported Ok; the writer takes the call's answer, then the error response of the subscribe call *)
Definition ex_cq_ops : list ConnQueue.op := [Call 7; Subscribe 1; Acc 0; Cancel 0 (Some (CErr 5)); W; W; W].

Example C04_cq_cancelled_parked_accept : let r := ConnQueue.run 1 1000 ConnQueue.init ex_cq_ops in snd r = [[OCall 7 false (FResp 7)]; []; [OAcc 0 RParked]; [OCancel 0 ConnQueue.RDone; OCall 1 false (FInternal 1)]; [OFrame (FResp 7)]; [OFrame (FInternal 1)]; [OEmpty]] /\ ConnQueue.frames (fst r) = [FResp 7; FInternal 1] /\ map s_h (subs (fst r)) = [HGone] /\ map s_armed (subs (fst r)) = [false] /\ map s_ret (subs (fst r)) = [Some (CErr 5)] /\ render b#"note" (FInternal 1) = b#"{""jsonrpc"":""2.0"",""id"":1,""error"":{""code"":-32603,""message"":""Internal error""}}".
Proof. vm_compute. repeat split. Qed.

(* the same scenario when the writer is faster: accept completes, an item and the closing value are delivered after
   the accepting response *)
Example C04_cq_nonvacuous : let r := ConnQueue.run 1 1000 ConnQueue.init [Call 7; Subscribe 1; Acc 0; W; Send 0 3; W; Ret 0 (CErr 5); W; W] in ConnQueue.frames (fst r) = [FResp 7; FSubOk 1 1000; ConnQueue.FNotif 1000 3; FClosing 1000 true 5] /\ In (OAcc 0 ConnQueue.ROk) (concat (snd r)) /\ ConnQueue.oklog 0 (snd r) = [3%N] /\ render b#"note" (FClosing 1000 true 5) = b#"{""jsonrpc"":""2.0"",""method"":""note"",""params"":{""subscription"":1000,""error"":5}}".
Proof. vm_compute. repeat split. repeat (first [left; reflexivity | right]). Qed.

(* why the order of the two sends in accept() matters: with the subscribe call notified BEFORE the answer is handed to
   the queue, the same steps deliver a closing notification for a subscription that was never accepted *)
Example C04_cq_swapped_order_refuted : let r := run_with 1 1000 [ANotifyCall; ASendToSink; ATableInsert; ABuildSink] ConnQueue.init ex_cq_ops in ~ In (OAcc 0 ConnQueue.ROk) (concat (snd r)) /\ ConnQueue.frames (fst r) = [FResp 7; FClosing 1000 true 5] /\ head_ok [ANotifyCall; ASendToSink; ATableInsert; ABuildSink] = false /\ head_ok accept_steps = true.
Proof. vm_compute. split; [|repeat split]. intro H. repeat (destruct H as [H | H]; [discriminate H|]). exact H. Qed.
