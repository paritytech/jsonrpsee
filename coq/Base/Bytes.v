(* Shared byte-string vocabulary.  Stdlib only. *)
From Coq Require Export List NArith ZArith Bool Lia.
From Coq.Strings Require Export Byte.
Export ListNotations.

Definition bytes := list byte.

Inductive bstr := BS (l : list byte).
Definition bs_parse (l : list byte) : bstr := BS l.
Definition bs_print (b : bstr) : list byte := match b with BS l => l end.
Declare Scope bs_scope.
Delimit Scope bs_scope with bs.
String Notation bstr bs_parse bs_print : bs_scope.
Definition unBS (b : bstr) : bytes := match b with BS l => l end.
Notation "'b#' s" := (unBS s%bs) (at level 0, s at level 0, only parsing).

Definition bN (b : byte) : N := Byte.to_N b.
Definition Nb (n : N) : byte := match Byte.of_N n with Some b => b | None => x00 end.

Definition beqb (a b : byte) : bool := Byte.eqb a b.

Fixpoint bytes_eqb (a b : bytes) : bool :=
  match a, b with
  | [], [] => true
  | x :: a', y :: b' => Byte.eqb x y && bytes_eqb a' b'
  | _, _ => false
  end.

Definition in_range (lo hi : N) (b : byte) : bool := (lo <=? bN b)%N && (bN b <=? hi)%N.

Definition is_json_ws (b : byte) : bool :=
  match b with x20 | x09 | x0a | x0d => true | _ => false end.
(* Rust u8::is_ascii_whitespace: space, \t, \n, \x0C, \r *)
Definition is_ascii_ws (b : byte) : bool :=
  match b with x20 | x09 | x0a | x0d | x0c => true | _ => false end.
Definition is_digit (b : byte) : bool := in_range 48 57 b.

Fixpoint drop_while (p : byte -> bool) (s : bytes) : bytes :=
  match s with
  | c :: s' => if p c then drop_while p s' else s
  | [] => []
  end.
Fixpoint take_while (p : byte -> bool) (s : bytes) : bytes :=
  match s with
  | c :: s' => if p c then c :: take_while p s' else []
  | [] => []
  end.
Definition skip_ws (s : bytes) : bytes := drop_while is_json_ws s.

Fixpoint starts_with (p s : bytes) : option bytes :=
  match p, s with
  | [], _ => Some s
  | x :: p', y :: s' => if Byte.eqb x y then starts_with p' s' else None
  | _ :: _, [] => None
  end.

Definition blen (s : bytes) : N := N.of_nat (length s).

Fixpoint join (sep : bytes) (l : list bytes) : bytes :=
  match l with
  | [] => []
  | [x] => x
  | x :: l' => x ++ sep ++ join sep l'
  end.

Lemma byte_eqb_eq a b : Byte.eqb a b = true <-> a = b.
Proof. split; [apply Byte.byte_dec_bl | apply Byte.byte_dec_lb]. Qed.

Lemma byte_eqb_refl a : Byte.eqb a a = true.
Proof. apply byte_eqb_eq; reflexivity. Qed.

Lemma bytes_eqb_eq a : forall b, bytes_eqb a b = true <-> a = b.
Proof.
  induction a as [|x a IH]; intros [|y b]; simpl; split; intro H; try congruence; try reflexivity.
  - apply andb_true_iff in H as [H1 H2]. apply byte_eqb_eq in H1. apply IH in H2. congruence.
  - inversion H; subst. rewrite byte_eqb_refl. simpl. apply IH. reflexivity.
Qed.

Lemma bytes_eqb_refl a : bytes_eqb a a = true.
Proof. apply bytes_eqb_eq; reflexivity. Qed.
